(** C01 — emitted 6502 code computes what the C source says: COMPOSITIONAL CONTROL FLOW.
    The exact -O0 output of the compiler for [if (a OP b) S;], [if (a OP b) S1; else S2;],
    [if (a OP 5) S1; else S2;], [while (a OP b) a++;] with OP in == != < >= > <= over
    [unsigned char a, b, c;] (Model/GenIf.v: [cond_code], [if_tpl], [ifelse_tpl], [while_tpl], as
    functions of ARBITRARY body code; the [ilisting_NN] examples there are compared line for line
    with the real compiler by tools/props) is run on the executable 6502 semantics.

    [C01_ctl_cond_code]: the load / CMP / branch skeleton (GenTables' [branch_seq] of the negated
    operator) is just past its last line when the C relation holds on the byte values of the
    operands and at the label otherwise; memory, X, Y, S unchanged.
    [C01_ctl_if], [C01_ctl_ifelse], [C01_ctl_while]: for ANY body with a specification, without
    RTS / RTI, that does not define the labels of the template: the composition theorems (for
    [while]: the total-correctness rule with invariant and measure, by [C01_loop_rule]).
    Then the instances on the bodies of the listing, and in the same way do-while, for (with
    [break]) and switch (Model/GenCtl.v: [C01_ctl_dowhile], [C01_ctl_for], [C01_ctl_for_break],
    [C01_ctl_switch]) with their listings.
    The general theorems are proved in Proofs/GenIfFacts.v and Proofs/GenCtlFacts.v; the forms with
    the compiler's label numbers and the concrete listings are derived from them here. *)
From Coq Require Import String List Bool NArith ZArith Lia.
From CC Require Import Base.Str Asm.Lines M6502.Isa Asm.Operand M6502.Sem Model.OptSem
  Model.GenTemplates Proofs.GenTemplatesFacts Proofs.GenCmp16Facts Model.GenLoops
  Proofs.GenLoopsFacts Model.GenTables Model.GenIf Proofs.GenIfFacts.
Import ListNotations.
Open Scope Z_scope.

(** the lemma behind the composition: a halting run of [slB] alone is, inside
    [pre ++ slB ++ post] ([pre] defining no label of [slB]), a run from the first line of [slB]
    to the line after its last, same final state, in fewer steps than the fuel *)
Theorem C01_ctl_embed : forall cfg slB pre post,
  no_ret_s slB ->
  (forall l, In l (sdefs slB) -> find_label l pre 0 = None) ->
  forall fuel pc s tr cy st' tr' cy', (pc <= length slB)%nat ->
    Sem.run cfg [] (fun _ _ => None) (fun _ _ => None) fuel ""%string slB pc [] s tr cy
    = Halt st' tr' cy' ->
    exists n, (n < fuel)%nat /\
      stepn cfg (pre ++ slB ++ post) n (length pre + pc) s
      = Some ((length pre + length slB)%nat, st').
Proof. exact embed_halt. Qed.

(** the condition, all six operators, variable or constant right operand *)
Theorem C01_ctl_cond_code : forall cfg c lbl here cpre cpost sl kl st,
  ports cfg = [] -> cond_wf cfg c ->
  lbl <> ""%string -> here <> ""%string -> lbl <> here ->
  slines_of (cpre ++ cond_code_at c lbl here ++ cpost) = Some sl ->
  ~ In here (defs cpre) -> find_label lbl sl 0 = Some kl -> bytes_ok st ->
  reach cfg sl (length cpre) st
    (fun (n pc' : nat) (s' : mstate) =>
       (n <= length (cond_code_at c lbl here))%nat /\
       s' = cond_state cfg c st /\ same_mxys st s' /\ bytes_ok s' /\
       pc' = if cond_holds cfg c st
             then (length cpre + length (cond_code_at c lbl here))%nat else kl).
Proof. exact cond_code_correct. Qed.

Theorem C01_ctl_cond_code_n : forall cfg c lbl n cpre cpost sl kl st,
  ports cfg = [] -> cond_wf cfg c ->
  lbl <> ""%string -> lbl <> lname ".ifhere" n ->
  slines_of (cpre ++ cond_code c lbl n ++ cpost) = Some sl ->
  ~ In (lname ".ifhere" n) (defs cpre) -> find_label lbl sl 0 = Some kl -> bytes_ok st ->
  reach cfg sl (length cpre) st
    (fun (k pc' : nat) (s' : mstate) =>
       (k <= length (cond_code c lbl n))%nat /\
       s' = cond_state cfg c st /\ same_mxys st s' /\ bytes_ok s' /\
       pc' = if cond_holds cfg c st then (length cpre + length (cond_code c lbl n))%nat else kl).
Proof.
  intros cfg c lbl n cpre cpost sl kl st Hp Hw Hl Hne. unfold cond_code.
  apply cond_code_correct; try assumption.
  unfold lname. cbn [append]. discriminate.
Qed.

(** [if (c) B] *)
Theorem C01_ctl_if : forall cfg c B lend here (R : mstate -> mstate -> Prop) st,
  ports cfg = [] -> cond_wf cfg c ->
  lend <> ""%string -> here <> ""%string -> lend <> here ->
  no_ret B -> fresh_in lend B -> fresh_in here B ->
  (forall s, bytes_ok s -> exists s', runs_to cfg B s s' /\ R s s') ->
  bytes_ok st ->
  exists st', runs_to cfg (if_tpl_at c B lend here) st st' /\
    (if cond_holds cfg c st
     then exists mid, same_mxys st mid /\ bytes_ok mid /\ R mid st'
     else same_mxys st st').
Proof. exact if_tpl_correct. Qed.

Theorem C01_ctl_if_h : forall cfg c B lend here (R : mstate -> mstate -> Prop) st,
  ports cfg = [] -> cond_wf cfg c ->
  lend <> ""%string -> here <> ""%string -> lend <> here ->
  no_ret B -> fresh_in lend B -> fresh_in here B ->
  (forall s, bytes_ok s -> exists s', halts_to cfg B s s' /\ R s s') ->
  bytes_ok st ->
  exists st', halts_to cfg (if_tpl_at c B lend here) st st' /\
    (if cond_holds cfg c st
     then exists mid, same_mxys st mid /\ bytes_ok mid /\ R mid st'
     else same_mxys st st').
Proof. exact if_tpl_correct_h. Qed.

(** [if (c) B1 else B2] *)
Theorem C01_ctl_ifelse : forall cfg c B1 B2 lelse lend here
    (R1 R2 : mstate -> mstate -> Prop) st,
  ports cfg = [] -> cond_wf cfg c ->
  lelse <> ""%string -> lend <> ""%string -> here <> ""%string ->
  lelse <> here -> lend <> here -> lelse <> lend ->
  no_ret B1 -> no_ret B2 ->
  fresh_in lelse B1 -> fresh_in lend B1 -> fresh_in here B1 ->
  fresh_in lelse B2 -> fresh_in lend B2 -> fresh_in here B2 ->
  defs_disjoint B1 B2 ->
  (forall s, bytes_ok s -> exists s', runs_to cfg B1 s s' /\ R1 s s') ->
  (forall s, bytes_ok s -> exists s', runs_to cfg B2 s s' /\ R2 s s') ->
  bytes_ok st ->
  exists st', runs_to cfg (ifelse_tpl_at c B1 B2 lelse lend here) st st' /\
    exists mid, same_mxys st mid /\ bytes_ok mid /\
      if cond_holds cfg c st then R1 mid st' else R2 mid st'.
Proof. exact ifelse_tpl_correct. Qed.

Theorem C01_ctl_ifelse_h : forall cfg c B1 B2 lelse lend here
    (R1 R2 : mstate -> mstate -> Prop) st,
  ports cfg = [] -> cond_wf cfg c ->
  lelse <> ""%string -> lend <> ""%string -> here <> ""%string ->
  lelse <> here -> lend <> here -> lelse <> lend ->
  no_ret B1 -> no_ret B2 ->
  fresh_in lelse B1 -> fresh_in lend B1 -> fresh_in here B1 ->
  fresh_in lelse B2 -> fresh_in lend B2 -> fresh_in here B2 ->
  defs_disjoint B1 B2 ->
  (forall s, bytes_ok s -> exists s', halts_to cfg B1 s s' /\ R1 s s') ->
  (forall s, bytes_ok s -> exists s', halts_to cfg B2 s s' /\ R2 s s') ->
  bytes_ok st ->
  exists st', halts_to cfg (ifelse_tpl_at c B1 B2 lelse lend here) st st' /\
    exists mid, same_mxys st mid /\ bytes_ok mid /\
      if cond_holds cfg c st then R1 mid st' else R2 mid st'.
Proof. exact ifelse_tpl_correct_h. Qed.

(** [while (c) B]: the while rule *)
Theorem C01_ctl_while : forall cfg c B lhead lend here
    (I : mstate -> Prop) (mu : mstate -> Z) st,
  ports cfg = [] -> cond_wf cfg c ->
  lhead <> ""%string -> lend <> ""%string -> here <> ""%string ->
  lhead <> lend -> lhead <> here -> lend <> here ->
  no_ret B -> fresh_in lhead B -> fresh_in lend B -> fresh_in here B ->
  (exists slB, slines_of B = Some slB) ->
  (forall s s', same_mxys s s' -> I s -> I s') ->
  (forall s s', same_mxys s s' -> mu s' = mu s) ->
  (forall s, bytes_ok s -> I s -> cond_holds cfg c s = true ->
     0 <= mu s /\ exists s', halts_to cfg B s s' /\ I s' /\ mu s' < mu s) ->
  bytes_ok st -> I st ->
  exists st', halts_to cfg (while_tpl_at c B lhead lend here) st st' /\
    I st' /\ cond_holds cfg c st' = false /\ bytes_ok st'.
Proof. exact while_tpl_correct. Qed.

(** the body [dst = k;] of the listing *)
Theorem C01_ctl_assign8 : forall cfg dst k pd st,
  ports cfg = [] -> var_name dst -> layout cfg dst = Some pd -> 0 <= pd < 65536 -> 0 <= k < 256 ->
  exists st', runs_to cfg (assign8 dst k) st st' /\
    mget (mem st') pd = k /\ only_changes [pd] st st' /\ keeps_xys st st'.
Proof. exact assign8_correct. Qed.

(** [if (c) dst = k;] and [if (c) dst = k1; else dst = k2;] for any 8-bit condition and labels *)
Theorem C01_ctl_if_assign : forall cfg c dst k lend here pd st,
  ports cfg = [] -> cond_wf cfg c ->
  lend <> ""%string -> here <> ""%string -> lend <> here ->
  var_name dst -> layout cfg dst = Some pd -> 0 <= pd < 65536 -> 0 <= k < 256 ->
  bytes_ok st ->
  exists st', runs_to cfg (if_tpl_at c (assign8 dst k) lend here) st st' /\
    mget (mem st') pd = (if cond_holds cfg c st then k else mget (mem st) pd) /\
    only_changes [pd] st st' /\ keeps_xys st st'.
Proof. exact if_assign_correct. Qed.

Theorem C01_ctl_ifelse_assign : forall cfg c dst k1 k2 lelse lend here pd st,
  ports cfg = [] -> cond_wf cfg c ->
  lelse <> ""%string -> lend <> ""%string -> here <> ""%string ->
  lelse <> here -> lend <> here -> lelse <> lend ->
  var_name dst -> layout cfg dst = Some pd -> 0 <= pd < 65536 ->
  0 <= k1 < 256 -> 0 <= k2 < 256 ->
  bytes_ok st ->
  exists st', runs_to cfg (ifelse_tpl_at c (assign8 dst k1) (assign8 dst k2) lelse lend here) st st' /\
    mget (mem st') pd = (if cond_holds cfg c st then k1 else k2) /\
    only_changes [pd] st st' /\ keeps_xys st st'.
Proof. exact ifelse_assign_correct. Qed.

(** the 18 if / if-else listings: generic in the operator, the compiler's labels, any number,
    any addresses.  Listings 01 05 09 13 17 21: [if (a o b) c = 1;] *)
Theorem C01_ctl_if_var_listing : forall o cfg x y dst k n px py pd st,
  ports cfg = [] -> var_name x -> var_name y -> var_name dst ->
  layout cfg x = Some px -> layout cfg y = Some py -> layout cfg dst = Some pd ->
  0 <= px < 65536 -> 0 <= py < 65536 -> 0 <= pd < 65536 -> 0 <= k < 256 ->
  bytes_ok st ->
  exists st', runs_to cfg (if_tpl (CVar o x y) (assign8 dst k) n) st st' /\
    mget (mem st') pd
    = (if rel_holds o (mget (mem st) px) (mget (mem st) py) then k else mget (mem st) pd) /\
    only_changes [pd] st st' /\ keeps_xys st st'.
Proof.
  intros o cfg x y dst k n px py pd st Hp Vx Vy Vd Lx Ly Ld Rx Ry Rd Rk Hb.
  rewrite <- (cond_holds_var cfg o x y px py st Lx Ly). unfold if_tpl.
  apply if_assign_correct; eauto using cond_wf_var with lname.
Qed.

(** listings 02 06 10 14 18 22: [if (a o b) c = 1; else c = 2;] *)
Theorem C01_ctl_ifelse_var_listing : forall o cfg x y dst k1 k2 n px py pd st,
  ports cfg = [] -> var_name x -> var_name y -> var_name dst ->
  layout cfg x = Some px -> layout cfg y = Some py -> layout cfg dst = Some pd ->
  0 <= px < 65536 -> 0 <= py < 65536 -> 0 <= pd < 65536 -> 0 <= k1 < 256 -> 0 <= k2 < 256 ->
  bytes_ok st ->
  exists st', runs_to cfg (ifelse_tpl (CVar o x y) (assign8 dst k1) (assign8 dst k2) n) st st' /\
    mget (mem st') pd = (if rel_holds o (mget (mem st) px) (mget (mem st) py) then k1 else k2) /\
    only_changes [pd] st st' /\ keeps_xys st st'.
Proof.
  intros o cfg x y dst k1 k2 n px py pd st Hp Vx Vy Vd Lx Ly Ld Rx Ry Rd Rk1 Rk2 Hb.
  rewrite <- (cond_holds_var cfg o x y px py st Lx Ly). unfold ifelse_tpl.
  apply ifelse_assign_correct; eauto using cond_wf_var with lname.
Qed.

(** listings 03 07 11 15 19 23: [if (a o 5) c = 1; else c = 2;] *)
Theorem C01_ctl_ifelse_const_listing : forall o cfg x kc dst k1 k2 n px pd st,
  ports cfg = [] -> var_name x -> var_name dst ->
  layout cfg x = Some px -> layout cfg dst = Some pd ->
  0 <= px < 65536 -> 0 <= pd < 65536 -> 0 <= kc < 256 -> 0 <= k1 < 256 -> 0 <= k2 < 256 ->
  bytes_ok st ->
  exists st', runs_to cfg (ifelse_tpl (CConst o x kc) (assign8 dst k1) (assign8 dst k2) n) st st' /\
    mget (mem st') pd = (if rel_holds o (mget (mem st) px) kc then k1 else k2) /\
    only_changes [pd] st st' /\ keeps_xys st st'.
Proof.
  intros o cfg x kc dst k1 k2 n px pd st Hp Vx Vd Lx Ld Rx Rd Rkc Rk1 Rk2 Hb.
  rewrite <- (cond_holds_const cfg o x kc px st Lx). unfold ifelse_tpl.
  apply ifelse_assign_correct; eauto using cond_wf_const with lname.
Qed.

(** on the listing's own names (a, b, c at 128, 129, 130) *)
Theorem C01_ctl_listing_if_lt_else : forall st, bytes_ok st ->
  exists st', runs_to cfg_listing (ifelse_tpl (CVar RLt "a" "b") (assign8 "c" 1) (assign8 "c" 2) 1) st st' /\
    mget (mem st') 130 = (if mget (mem st) 128 <? mget (mem st) 129 then 1 else 2) /\
    mget (mem st') 128 = mget (mem st) 128 /\ mget (mem st') 129 = mget (mem st) 129 /\
    only_changes [130] st st' /\ keeps_xys st st'.
Proof.
  intros st Hb.
  destruct (C01_ctl_ifelse_var_listing RLt cfg_listing "a" "b" "c" 1 2 1%N 128 129 130 st)
    as (st' & Hr & Hv & Hoc & Hk);
    try reflexivity; try lia; try exact Hb; try (apply ident_var_name; [discriminate|reflexivity]).
  exists st'. split; [exact Hr|]. split; [exact Hv|].
  split; [apply Hoc; [lia|cbn [In]; lia]|]. split; [apply Hoc; [lia|cbn [In]; lia]|].
  split; assumption.
Qed.

Theorem C01_ctl_listing_if_le : forall st, bytes_ok st ->
  exists st', runs_to cfg_listing (if_tpl (CVar RLte "a" "b") (assign8 "c" 1) 1) st st' /\
    mget (mem st') 130 = (if mget (mem st) 128 <=? mget (mem st) 129 then 1 else mget (mem st) 130) /\
    only_changes [130] st st' /\ keeps_xys st st'.
Proof.
  intros st Hb.
  apply (C01_ctl_if_var_listing RLte cfg_listing "a" "b" "c" 1 1%N 128 129 130 st);
    try reflexivity; try lia; try exact Hb; (apply ident_var_name; [discriminate|reflexivity]).
Qed.

Theorem C01_ctl_listing_if_gt5_else : forall st, bytes_ok st ->
  exists st', runs_to cfg_listing (ifelse_tpl (CConst RGt "a" 5) (assign8 "c" 1) (assign8 "c" 2) 1) st st' /\
    mget (mem st') 130 = (if 5 <? mget (mem st) 128 then 1 else 2) /\
    only_changes [130] st st' /\ keeps_xys st st'.
Proof.
  intros st Hb.
  apply (C01_ctl_ifelse_const_listing RGt cfg_listing "a" 5 "c" 1 2 1%N 128 130 st);
    try reflexivity; try lia; try exact Hb; (apply ident_var_name; [discriminate|reflexivity]).
Qed.

(** the while rule on the listing: [while (a != b) a++;] (08) halts from EVERY byte-valued state
    with [a = b]; [while (a < b) a++;] (12) ends with [a = max a b] *)
Theorem C01_ctl_while_ne_inc : forall cfg a b n pa pb st,
  ports cfg = [] -> var_name a -> var_name b ->
  layout cfg a = Some pa -> layout cfg b = Some pb ->
  0 <= pa < 65536 -> 0 <= pb < 65536 -> pa <> pb ->
  bytes_ok st ->
  exists st', halts_to cfg (while_tpl (CVar RNeq a b) (template (SInc8 a)) n) st st' /\
    mget (mem st') pa = mget (mem st) pb /\
    only_changes [pa] st st' /\ keeps_xys st st'.
Proof.
  intros cfg a b n pa pb st Hp Va Vb. unfold while_tpl.
  apply while_ne_inc_code_correct; auto with lname.
Qed.

Theorem C01_ctl_while_lt_inc : forall cfg a b n pa pb st,
  ports cfg = [] -> var_name a -> var_name b ->
  layout cfg a = Some pa -> layout cfg b = Some pb ->
  0 <= pa < 65536 -> 0 <= pb < 65536 -> pa <> pb ->
  bytes_ok st ->
  exists st', halts_to cfg (while_tpl (CVar RLt a b) (template (SInc8 a)) n) st st' /\
    mget (mem st') pa = Z.max (mget (mem st) pa) (mget (mem st) pb) /\
    only_changes [pa] st st' /\ keeps_xys st st'.
Proof.
  intros cfg a b n pa pb st Hp Va Vb. unfold while_tpl.
  apply while_lt_inc_code_correct; auto with lname.
Qed.

Theorem C01_ctl_listing_while_ne : forall st, bytes_ok st ->
  exists st', halts_to cfg_listing (while_tpl (CVar RNeq "a" "b") (template (SInc8 "a")) 1) st st' /\
    mget (mem st') 128 = mget (mem st) 129 /\
    only_changes [128] st st' /\ keeps_xys st st'.
Proof.
  intros st Hb.
  apply (C01_ctl_while_ne_inc cfg_listing "a" "b" 1%N 128 129 st);
    try reflexivity; try lia; try exact Hb; (apply ident_var_name; [discriminate|reflexivity]).
Qed.

Theorem C01_ctl_listing_while_lt : forall st, bytes_ok st ->
  exists st', halts_to cfg_listing (while_tpl (CVar RLt "a" "b") (template (SInc8 "a")) 1) st st' /\
    mget (mem st') 128 = Z.max (mget (mem st) 128) (mget (mem st) 129) /\
    only_changes [128] st st' /\ keeps_xys st st'.
Proof.
  intros st Hb.
  apply (C01_ctl_while_lt_inc cfg_listing "a" "b" 1%N 128 129 st);
    try reflexivity; try lia; try exact Hb; (apply ident_var_name; [discriminate|reflexivity]).
Qed.

(** the templates nest: [if (a < b) while (a != b) a++;]

    The body of the [if] is the whole [while] statement ([halts_to], hence [if_tpl_correct_h]); its
    specification is [while_ne_inc_code_correct].  (A composition of the two templates with the
    compiler's label names, any numbers [n], [m]; this nested statement is not one of the listing.) *)
Theorem C01_ctl_nested_if_while : forall cfg a b n m pa pb st,
  ports cfg = [] -> var_name a -> var_name b ->
  layout cfg a = Some pa -> layout cfg b = Some pb ->
  0 <= pa < 65536 -> 0 <= pb < 65536 -> pa <> pb ->
  bytes_ok st ->
  exists st', halts_to cfg (if_tpl (CVar RLt a b)
                              (while_tpl (CVar RNeq a b) (template (SInc8 a)) m) n) st st' /\
    mget (mem st') pa = Z.max (mget (mem st) pa) (mget (mem st) pb) /\
    only_changes [pa] st st' /\ keeps_xys st st'.
Proof.
  intros cfg a b n m pa pb st Hp Va Vb La Lb Ra Rb Nab Hb.
  destruct (if_tpl_correct_h cfg (CVar RLt a b)
              (while_tpl (CVar RNeq a b) (template (SInc8 a)) m)
              (lname ".ifend" n) (lname ".ifhere" (n + 1))
              (fun s s' => mget (mem s') pa = mget (mem s) pb /\ framed [pa] s s') st Hp
              (cond_wf_var cfg _ a b pa pb Va Vb La Lb Ra Rb))
    as (st' & Hr & HP); auto with lname.
  - reflexivity.
  - unfold fresh_in, lname. cbn. intros [H|[H|[]]]; discriminate H.
  - unfold fresh_in, lname. cbn. intros [H|[H|[]]]; discriminate H.
  - intros s Hbs. apply while_ne_inc_code_correct; auto with lname.
  - exists st'. split; [exact Hr|].
    rewrite (cond_holds_var cfg RLt a b pa pb st La Lb) in HP. cbn [rel_holds] in HP.
    destruct (Z.ltb_spec (mget (mem st) pa) (mget (mem st) pb)) as [Hlt|Hge].
    + destruct HP as (mid & Hs & _ & Hv & Hf).
      split; [rewrite Hv, (proj1 Hs); lia|apply (framed_trans _ _ _ _ (framed_of_same _ _ _ Hs) Hf)].
    + split; [rewrite (proj1 HP); lia|apply framed_of_same; exact HP].
Qed.

(** * do-while, for, switch (Model/GenCtl.v; the [clisting_NN] examples there are compared with the
    real compiler; proofs in Proofs/GenCtlFacts.v).  The labels: no label is defined twice in the
    emitted statement ([NoDup (defs ...)]); the bodies: a specification, no RTS / RTI. *)
From CC Require Import Model.GenCtl Proofs.GenCtlFacts.

(** [do B while (c)]: the do-while rule *)
Theorem C01_ctl_dowhile : forall cfg c B lhead lend here
    (I Q : mstate -> Prop) (mu : mstate -> Z) st,
  ports cfg = [] -> cond_wf cfg c ->
  lhead <> ""%string -> here <> ""%string -> lhead <> here ->
  NoDup (defs (dowhile_tpl_at c B lhead lend here)) -> no_ret B ->
  (forall s s', same_mxys s s' -> I s -> I s') ->
  (forall s s', same_mxys s s' -> Q s -> Q s') ->
  (forall s s', same_mxys s s' -> mu s' = mu s) ->
  (forall s, bytes_ok s -> I s ->
     exists s', halts_to cfg B s s' /\ Q s' /\
       (cond_holds cfg c s' = true -> I s' /\ 0 <= mu s' < mu s)) ->
  bytes_ok st -> I st ->
  exists st', halts_to cfg (dowhile_tpl_at c B lhead lend here) st st' /\
    Q st' /\ cond_holds cfg c st' = false /\ bytes_ok st'.
Proof. exact dowhile_tpl_correct. Qed.

(** [for (Init; c; U) B], bodies without [break] / [continue] *)
Theorem C01_ctl_for : forall cfg Init c U B lfor lupd lend here
    (I : mstate -> Prop) (mu : mstate -> Z) st,
  ports cfg = [] -> cond_wf cfg c ->
  lfor <> ""%string -> lend <> ""%string -> here <> ""%string -> lfor <> here -> lend <> here ->
  NoDup (defs (for_tpl_at Init c U B lfor lupd lend here)) ->
  no_ret Init -> no_ret B -> no_ret U ->
  (exists slB, slines_of B = Some slB) -> (exists slU, slines_of U = Some slU) ->
  (forall s s', same_mxys s s' -> I s -> I s') ->
  (forall s s', same_mxys s s' -> mu s' = mu s) ->
  (exists s0, halts_to cfg Init st s0 /\ I s0) ->
  (forall s, bytes_ok s -> I s -> cond_holds cfg c s = true ->
     0 <= mu s /\
     exists s1, halts_to cfg B s s1 /\ exists s2, halts_to cfg U s1 s2 /\ I s2 /\ mu s2 < mu s) ->
  bytes_ok st ->
  exists st', halts_to cfg (for_tpl_at Init c U B lfor lupd lend here) st st' /\
    I st' /\ cond_holds cfg c st' = false /\ bytes_ok st'.
Proof. exact for_tpl_correct. Qed.

(** bodies that may [break] / [continue]: [body_exits]; a body that simply halts is one *)
Theorem C01_ctl_body_exits_halts : forall cfg B lbrk lcont s s' (Nm : mstate -> Prop),
  halts_to cfg B s s' -> no_ret B -> Nm s' ->
  body_exits cfg B lbrk lcont s Nm (fun _ => False) (fun _ => False).
Proof. exact halts_body_exits. Qed.

(** [if (c) break; B'] *)
Theorem C01_ctl_break_if : forall cfg c B' lbrk lcont here s (Nm Bk : mstate -> Prop),
  ports cfg = [] -> cond_wf cfg c ->
  lbrk <> ""%string -> here <> ""%string -> lbrk <> here ->
  no_ret B' -> (exists sl, slines_of B' = Some sl) -> bytes_ok s ->
  (cond_holds cfg c s = true -> Bk (cond_state cfg c s)) ->
  (cond_holds cfg c s = false -> exists s', halts_to cfg B' (cond_state cfg c s) s' /\ Nm s') ->
  body_exits cfg (break_if_at c lbrk here ++ B') lbrk lcont s Nm Bk (fun _ => False).
Proof. exact break_if_exits. Qed.

(** the for rule for a body that may [break] / [continue] *)
Theorem C01_ctl_for_break : forall cfg Init c U B lfor lupd lend here
    (I Bk : mstate -> Prop) (J : mstate -> mstate -> Prop) (mu : mstate -> Z) st,
  ports cfg = [] -> cond_wf cfg c ->
  lfor <> ""%string -> lend <> ""%string -> here <> ""%string -> lfor <> here -> lend <> here ->
  NoDup (defs (for_tpl_at Init c U B lfor lupd lend here)) ->
  no_ret Init -> no_ret U ->
  (exists slB, slines_of B = Some slB) -> (exists slU, slines_of U = Some slU) ->
  (forall s s', same_mxys s s' -> I s -> I s') ->
  (forall s s', same_mxys s s' -> mu s' = mu s) ->
  (exists s0, halts_to cfg Init st s0 /\ I s0) ->
  (forall s, bytes_ok s -> I s -> cond_holds cfg c s = true ->
     0 <= mu s /\
     body_exits cfg B lend lupd s (fun s1 => bytes_ok s1 /\ J s s1)
       (fun s1 => bytes_ok s1 /\ Bk s1) (fun s1 => bytes_ok s1 /\ J s s1)) ->
  (forall s s1, bytes_ok s1 -> J s s1 -> exists s2, halts_to cfg U s1 s2 /\ I s2 /\ mu s2 < mu s) ->
  bytes_ok st ->
  exists st', halts_to cfg (for_tpl_at Init c U B lfor lupd lend here) st st' /\
    bytes_ok st' /\ ((I st' /\ cond_holds cfg c st' = false) \/ Bk st').
Proof. exact for_tpl_break_correct. Qed.

(** switch, ANY list of cases: the code runs exactly the bodies [switch_sem] computes *)
Theorem C01_ctl_switch : forall cfg e cs d L st,
  ports cfg = [] -> sw_wf cfg e -> labels_ne L ->
  NoDup (defs (switch_tpl_at e cs d L)) ->
  (forall cse, In cse cs -> forall v, In v (sc_vals cse) -> 0 <= v < 256) ->
  (forall B, In B (sw_bodies cs d) -> body_total cfg B) ->
  bytes_ok st ->
  exists mid st', same_mxys st mid /\ bytes_ok mid /\
    halts_to cfg (switch_tpl_at e cs d L) st st' /\
    exec_bodies cfg (switch_sem (sw_val cfg e st) cs d) mid st' /\ bytes_ok st'.
Proof. exact switch_tpl_correct. Qed.

(** with the compiler's labels *)
Theorem C01_ctl_switch_n : forall cfg e cs d n st,
  ports cfg = [] -> sw_wf cfg e ->
  NoDup (defs (switch_tpl e cs d n)) ->
  (forall cse, In cse cs -> forall v, In v (sc_vals cse) -> 0 <= v < 256) ->
  (forall B, In B (sw_bodies cs d) -> body_total cfg B) ->
  bytes_ok st ->
  exists mid st', same_mxys st mid /\ bytes_ok mid /\
    halts_to cfg (switch_tpl e cs d n) st st' /\
    exec_bodies cfg (switch_sem (sw_val cfg e st) cs d) mid st' /\ bytes_ok st'.
Proof.
  intros cfg e cs d n st Hp Hw. unfold switch_tpl.
  apply switch_tpl_correct; [exact Hp|exact Hw|apply switch_labels_ne].
Qed.

(** switches whose statements are [dst = k;]: the last assignment executed *)
Theorem C01_ctl_switch_assign : forall cfg e (ks : list (sw_case Z)) (dk : option Z) dst pd L st,
  ports cfg = [] -> sw_wf cfg e -> labels_ne L ->
  var_name dst -> layout cfg dst = Some pd -> 0 <= pd < 65536 ->
  NoDup (defs (switch_tpl_at e (map (map_case (assign8 dst)) ks) (option_map (assign8 dst) dk) L)) ->
  (forall c, In c ks -> (forall v, In v (sc_vals c) -> 0 <= v < 256) /\ 0 <= sc_body c < 256) ->
  (forall k, dk = Some k -> 0 <= k < 256) ->
  bytes_ok st ->
  exists st',
    halts_to cfg (switch_tpl_at e (map (map_case (assign8 dst)) ks) (option_map (assign8 dst) dk) L)
      st st' /\
    mget (mem st') pd = last (switch_sem (sw_val cfg e st) ks dk) (mget (mem st) pd) /\
    only_changes [pd] st st' /\ keeps_xys st st'.
Proof. exact switch_assign_correct. Qed.

(** listing 07: [switch (x) { case 1: dst = 1; break; case 2: dst = 2; break; default: dst = 3; }] *)
Theorem C01_ctl_switch_listing_07 : forall cfg x dst px pd st,
  ports cfg = [] -> var_name x -> var_name dst ->
  layout cfg x = Some px -> layout cfg dst = Some pd -> 0 <= px < 65536 -> 0 <= pd < 65536 ->
  bytes_ok st ->
  exists st',
    halts_to cfg (switch_tpl (SwMem x) [mkCase [1] (assign8 dst 1) false;
                                        mkCase [2] (assign8 dst 2) false]
                    (Some (assign8 dst 3)) 1) st st' /\
    mget (mem st') pd
    = (if mget (mem st) px =? 1 then 1 else if mget (mem st) px =? 2 then 2 else 3) /\
    only_changes [pd] st st' /\ keeps_xys st st'.
Proof.
  intros cfg x dst px pd st Hp Vx Vd Lx Ld Rx Rd Hb.
  destruct (switch_assign_correct cfg (SwMem x) [mkCase [1] 1 false; mkCase [2] 2 false] (Some 3)
              dst pd (switch_labels 1) st Hp (var_at_intro cfg x px Vx Lx Rx) (switch_labels_ne 1)
              Vd Ld Rd) as (st' & Hr & Hv & Hf); try exact Hb.
  - apply StrFacts.nodupb_sound. vm_compute. reflexivity.
  - intros c [<-|[<-|[]]]; cbn [sc_vals sc_body In]; (split; [intros v [<-|[]]|]; lia).
  - intros k E. inversion E. lia.
  - exists st'. split; [exact Hr|]. split; [|exact Hf].
    rewrite Hv. cbn [sw_val switch_sem run_from existsb sc_vals sc_body sc_falls].
    unfold var_val. rewrite Lx.
    destruct (mget (mem st) px =? 1); [reflexivity|].
    destruct (mget (mem st) px =? 2); reflexivity.
Qed.

(** listing 08: [switch (x) { case 1: dst = 1; case 2: dst = 2; break; }]: the first case falls through *)
Theorem C01_ctl_switch_listing_08 : forall cfg x dst px pd st,
  ports cfg = [] -> var_name x -> var_name dst ->
  layout cfg x = Some px -> layout cfg dst = Some pd -> 0 <= px < 65536 -> 0 <= pd < 65536 ->
  bytes_ok st ->
  exists st',
    halts_to cfg (switch_tpl (SwMem x) [mkCase [1] (assign8 dst 1) true;
                                        mkCase [2] (assign8 dst 2) false] None 1) st st' /\
    mget (mem st') pd
    = (if (mget (mem st) px =? 1) || (mget (mem st) px =? 2) then 2 else mget (mem st) pd) /\
    only_changes [pd] st st' /\ keeps_xys st st'.
Proof.
  intros cfg x dst px pd st Hp Vx Vd Lx Ld Rx Rd Hb.
  destruct (switch_assign_correct cfg (SwMem x) [mkCase [1] 1 true; mkCase [2] 2 false] None
              dst pd (switch_labels 1) st Hp (var_at_intro cfg x px Vx Lx Rx) (switch_labels_ne 1)
              Vd Ld Rd) as (st' & Hr & Hv & Hf); try exact Hb.
  - apply StrFacts.nodupb_sound. vm_compute. reflexivity.
  - intros c [<-|[<-|[]]]; cbn [sc_vals sc_body In]; (split; [intros v [<-|[]]|]; lia).
  - intros k E. discriminate E.
  - exists st'. split; [exact Hr|]. split; [|exact Hf].
    rewrite Hv. cbn [sw_val switch_sem run_from existsb sc_vals sc_body sc_falls].
    unfold var_val. rewrite Lx.
    destruct (mget (mem st) px =? 1); [reflexivity|].
    destruct (mget (mem st) px =? 2); reflexivity.
Qed.

(** listing 09: [switch (x) { case 1: case 3: dst = 1; break; default: dst = 2; }]: two values on a case *)
Theorem C01_ctl_switch_listing_09 : forall cfg x dst px pd st,
  ports cfg = [] -> var_name x -> var_name dst ->
  layout cfg x = Some px -> layout cfg dst = Some pd -> 0 <= px < 65536 -> 0 <= pd < 65536 ->
  bytes_ok st ->
  exists st',
    halts_to cfg (switch_tpl (SwMem x) [mkCase [1; 3] (assign8 dst 1) false]
                    (Some (assign8 dst 2)) 1) st st' /\
    mget (mem st') pd
    = (if (mget (mem st) px =? 1) || (mget (mem st) px =? 3) then 1 else 2) /\
    only_changes [pd] st st' /\ keeps_xys st st'.
Proof.
  intros cfg x dst px pd st Hp Vx Vd Lx Ld Rx Rd Hb.
  destruct (switch_assign_correct cfg (SwMem x) [mkCase [1; 3] 1 false] (Some 2)
              dst pd (switch_labels 1) st Hp (var_at_intro cfg x px Vx Lx Rx) (switch_labels_ne 1)
              Vd Ld Rd) as (st' & Hr & Hv & Hf); try exact Hb.
  - apply StrFacts.nodupb_sound. vm_compute. reflexivity.
  - intros c [<-|[]]; cbn [sc_vals sc_body In]; (split; [intros v [<-|[<-|[]]]|]; lia).
  - intros k E. inversion E. lia.
  - exists st'. split; [exact Hr|]. split; [|exact Hf].
    rewrite Hv. cbn [sw_val switch_sem run_from existsb sc_vals sc_body sc_falls].
    unfold var_val. rewrite Lx.
    destruct (mget (mem st) px =? 1); [reflexivity|].
    destruct (mget (mem st) px =? 3); reflexivity.
Qed.

(** listing 10: [switch (X) { case 0: dst = 1; break; case 5: dst = 2; break; }]: on the X register *)
Theorem C01_ctl_switch_listing_10 : forall cfg dst pd st,
  ports cfg = [] -> var_name dst -> layout cfg dst = Some pd -> 0 <= pd < 65536 ->
  bytes_ok st ->
  exists st',
    halts_to cfg (switch_tpl SwX [mkCase [0] (assign8 dst 1) false;
                                  mkCase [5] (assign8 dst 2) false] None 1) st st' /\
    mget (mem st') pd
    = (if rX st =? 0 then 1 else if rX st =? 5 then 2 else mget (mem st) pd) /\
    only_changes [pd] st st' /\ keeps_xys st st'.
Proof.
  intros cfg dst pd st Hp Vd Ld Rd Hb.
  destruct (switch_assign_correct cfg SwX [mkCase [0] 1 false; mkCase [5] 2 false] None
              dst pd (switch_labels 1) st Hp I (switch_labels_ne 1)
              Vd Ld Rd) as (st' & Hr & Hv & Hf); try exact Hb.
  - apply StrFacts.nodupb_sound. vm_compute. reflexivity.
  - intros c [<-|[<-|[]]]; cbn [sc_vals sc_body In]; (split; [intros v [<-|[]]|]; lia).
  - intros k E. discriminate E.
  - exists st'. split; [exact Hr|]. split; [|exact Hf].
    rewrite Hv. cbn [sw_val switch_sem run_from existsb sc_vals sc_body sc_falls].
    destruct (rX st =? 0); [reflexivity|].
    destruct (rX st =? 5); reflexivity.
Qed.

(** [do { c = 1; } while (a < b);] (listing 01): the body does not change the condition, so the
    loop ends iff [a < b] does not hold at the start; then [c = 1] *)
Theorem C01_ctl_dowhile_lt_assign : forall cfg a b c n pa pb pc st,
  ports cfg = [] -> var_name a -> var_name b -> var_name c ->
  layout cfg a = Some pa -> layout cfg b = Some pb -> layout cfg c = Some pc ->
  0 <= pa < 65536 -> 0 <= pb < 65536 -> 0 <= pc < 65536 -> pc <> pa -> pc <> pb ->
  bytes_ok st -> mget (mem st) pb <= mget (mem st) pa ->
  exists st', halts_to cfg (dowhile_tpl (CVar RLt a b) (assign8 c 1) n) st st' /\
    mget (mem st') pc = 1 /\ only_changes [pc] st st' /\ keeps_xys st st'.
Proof.
  intros cfg a b c n pa pb pc st Hp Va Vb Vc La Lb Lc Ra Rb Rc Nca Ncb Hb Hge.
  unfold dowhile_tpl.
  destruct (dowhile_tpl_correct cfg (CVar RLt a b) (assign8 c 1)
              (lname ".dowhile" n) (lname ".dowhileend" n) (lname ".ifhere" n)
              (fun s => framed [pc] st s) (fun s => mget (mem s) pc = 1 /\ framed [pc] st s)
              (fun _ => 0) st Hp (cond_wf_var cfg _ a b pa pb Va Vb La Lb Ra Rb))
    as (st' & Hr & (Hv & Hf) & _ & _); auto with lname.
  - apply nodup2. auto with lname.
  - reflexivity.
  - intros s s' Hs H. apply (framed_same _ _ _ _ Hs H).
  - intros s s' Hs (H1 & H2). split; [rewrite (proj1 Hs); exact H1|apply (framed_same _ _ _ _ Hs H2)].
  - intros s Hbs H2.
    destruct (assign8_correct cfg c 1 pc s Hp Vc Lc Rc ltac:(lia)) as (s' & Hr & Hv & Hf).
    exists s'. split; [apply runs_to_halts_to; exact Hr|].
    pose proof (framed_trans _ _ _ _ H2 Hf) as Hf'.
    split; [split; [exact Hv|exact Hf']|].
    intros Hc. exfalso.
    rewrite (cond_holds_var cfg RLt a b pa pb s' La Lb) in Hc. cbn [rel_holds] in Hc.
    rewrite (proj1 Hf' pa ltac:(lia) ltac:(cbn [In]; lia)) in Hc.
    rewrite (proj1 Hf' pb ltac:(lia) ltac:(cbn [In]; lia)) in Hc. lia.
  - apply framed_refl.
  - exists st'. split; [exact Hr|]. split; [exact Hv|exact Hf].
Qed.

(** listing 02: do { a++; } while (a != b); *)
Theorem C01_ctl_dowhile_ne_inc : forall cfg a b n pa pb st,
  ports cfg = [] -> var_name a -> var_name b ->
  layout cfg a = Some pa -> layout cfg b = Some pb ->
  0 <= pa < 65536 -> 0 <= pb < 65536 -> pa <> pb ->
  bytes_ok st ->
  exists st', halts_to cfg (dowhile_tpl (CVar RNeq a b) (template (SInc8 a)) n) st st' /\
    mget (mem st') pa = mget (mem st) pb /\
    only_changes [pa] st st' /\ keeps_xys st st'.
Proof.
  intros cfg a b n pa pb st Hp Va Vb. unfold dowhile_tpl.
  apply dowhile_ne_inc_code_correct; auto with lname.
Qed.

(** [do { a++; } while (a <= b);] (listing 03, the two-branch form BCC / BEQ): for [b < 255] (with
    [b = 255] the condition always holds) [a] ends one above [b], or one above its initial value
    when that is already above [b]; the increment wraps: from [a = 255] the loop goes on from 0 *)
Theorem C01_ctl_dowhile_le_inc : forall cfg a b n pa pb st,
  ports cfg = [] -> var_name a -> var_name b ->
  layout cfg a = Some pa -> layout cfg b = Some pb ->
  0 <= pa < 65536 -> 0 <= pb < 65536 -> pa <> pb ->
  bytes_ok st -> mget (mem st) pb < 255 ->
  exists st', halts_to cfg (dowhile_tpl (CVar RLte a b) (template (SInc8 a)) n) st st' /\
    mget (mem st') pa
    = (if (mget (mem st) pa + 1) mod 256 <=? mget (mem st) pb
       then mget (mem st) pb + 1 else (mget (mem st) pa + 1) mod 256) /\
    only_changes [pa] st st' /\ keeps_xys st st'.
Proof.
  intros cfg a b n pa pb st Hp Va Vb La Lb Ra Rb Nab Hb Hb255.
  pose proof Hb as (_ & _ & _ & _ & HM0).
  pose proof (HM0 pa) as Ma0. pose proof (HM0 pb) as Mb0.
  set (a0 := mget (mem st) pa) in *. set (b0 := mget (mem st) pb) in *.
  set (a1 := (a0 + 1) mod 256).
  unfold dowhile_tpl.
  destruct (dowhile_tpl_correct cfg (CVar RLte a b) (template (SInc8 a))
              (lname ".dowhile" n) (lname ".dowhileend" n) (lname ".ifhere" n)
              (fun s => (mget (mem s) pa = a0 \/ (a1 <= b0 /\ a1 <= mget (mem s) pa <= b0)) /\
                        framed [pa] st s)
              (fun s => (mget (mem s) pa = a1 \/ (a1 <= b0 /\ a1 < mget (mem s) pa <= b0 + 1)) /\
                        framed [pa] st s)
              (fun s => if mget (mem s) pa <=? b0 then b0 + 1 - mget (mem s) pa
                        else if mget (mem s) pa =? 255 then b0 + 2 else 0) st Hp
              (cond_wf_var cfg _ a b pa pb Va Vb La Lb Ra Rb))
    as (st' & Hr & (Hva & Hf) & Hc & _); auto with lname.
  - apply nodup2. auto with lname.
  - reflexivity.
  - intros s s' Hs (H2 & H3). rewrite (proj1 Hs).
    split; [exact H2|apply (framed_same _ _ _ _ Hs H3)].
  - intros s s' Hs (H2 & H3). rewrite (proj1 Hs).
    split; [exact H2|apply (framed_same _ _ _ _ Hs H3)].
  - intros s s' (Em & _). cbv beta. rewrite Em. reflexivity.
  - intros s Hbs (H2 & H3).
    pose proof Hbs as (_ & _ & _ & _ & HM). pose proof (HM pa) as Ma.
    destruct (inc8_correct cfg a pa s Hp Va La Ra) as (s' & Hr & Hv & Hf).
    exists s'. split; [apply runs_to_halts_to; exact Hr|].
    pose proof (framed_trans _ _ _ _ H3 Hf) as Hf'.
    split.
    + split; [|exact Hf']. rewrite Hv. subst a1. Z.div_mod_to_equations. lia.
    + intros Hc. rewrite (cond_holds_var cfg RLte a b pa pb s' La Lb) in Hc. cbn [rel_holds] in Hc.
      rewrite (proj1 Hf' pb ltac:(lia) ltac:(cbn [In]; lia)), Hv in Hc. fold b0 in Hc.
      split.
      * split; [|exact Hf']. rewrite Hv. subst a1. right. Z.div_mod_to_equations. lia.
      * rewrite Hv.
        destruct (Z.leb_spec ((mget (mem s) pa + 1) mod 256) b0); [|lia].
        destruct (Z.leb_spec (mget (mem s) pa) b0); [Z.div_mod_to_equations; lia|].
        destruct (Z.eqb_spec (mget (mem s) pa) 255); subst a1; Z.div_mod_to_equations; lia.
  - split; [left; reflexivity|apply framed_refl].
  - exists st'. split; [exact Hr|]. split; [|exact Hf].
    rewrite (cond_holds_var cfg RLte a b pa pb st' La Lb) in Hc. cbn [rel_holds] in Hc.
    rewrite (proj1 Hf pb ltac:(lia) ltac:(cbn [In]; lia)) in Hc. fold b0 in Hc. fold a1.
    destruct (Z.leb_spec a1 b0); lia.
Qed.

(** listing 04: for (i = 0; i != b; i++) c = 1; *)
Theorem C01_ctl_for_ne_assign : forall cfg i b c n pi pb pc st,
  ports cfg = [] -> var_name i -> var_name b -> var_name c ->
  layout cfg i = Some pi -> layout cfg b = Some pb -> layout cfg c = Some pc ->
  0 <= pi < 65536 -> 0 <= pb < 65536 -> 0 <= pc < 65536 ->
  pi <> pb -> pc <> pi -> pc <> pb ->
  bytes_ok st ->
  exists st',
    halts_to cfg (for_tpl (assign8 i 0) (CVar RNeq i b) (template (SInc8 i)) (assign8 c 1) n) st st' /\
    mget (mem st') pi = mget (mem st) pb /\
    mget (mem st') pc = (if mget (mem st) pb =? 0 then mget (mem st) pc else 1) /\
    only_changes [pi; pc] st st' /\ keeps_xys st st'.
Proof.
  intros cfg i b c n pi pb pc st Hp Vi Vb Vc Li Lb Lc Ri Rb Rc Nib Nci Ncb Hb.
  pose proof (proj2 (proj2 (proj2 (proj2 Hb))) pb) as Mb0.
  destruct (for_up_assign_correct cfg (assign8 i 0) RNeq i b c (lname ".for" n) (lname ".forupdate" n)
              (lname ".forend" n) (lname ".ifhere" n) pi pb pc 0 (mget (mem st) pb) st Hp Vi Vb Vc)
    as (st' & Hr & Hvi & Hvc & Hfr); auto with lname.
  - apply nodup3; auto with lname.
  - reflexivity.
  - destruct (assign8_correct cfg i 0 pi st Hp Vi Li Ri ltac:(lia)) as (s0 & Hr0 & Hv0).
    exists s0. split; [apply runs_to_halts_to; exact Hr0|exact Hv0].
  - intros v Hv. cbn [rel_holds]. lia.
  - exists st'. split; [exact Hr|]. split; [exact Hvi|]. split; [|exact Hfr].
    rewrite Hvc. destruct (Z.ltb_spec 0 (mget (mem st) pb)); destruct (Z.eqb_spec (mget (mem st) pb) 0);
      try reflexivity; lia.
Qed.

(** listing 05: for (i = a; i < b; i++) c = 1; *)
Theorem C01_ctl_for_lt_assign : forall cfg i a b c n pi pa pb pc st,
  ports cfg = [] -> var_name i -> var_name a -> var_name b -> var_name c ->
  layout cfg i = Some pi -> layout cfg a = Some pa -> layout cfg b = Some pb ->
  layout cfg c = Some pc ->
  0 <= pi < 65536 -> 0 <= pa < 65536 -> 0 <= pb < 65536 -> 0 <= pc < 65536 ->
  pi <> pb -> pc <> pi -> pc <> pb ->
  bytes_ok st ->
  exists st',
    halts_to cfg (for_tpl (template (SCopy8 i a)) (CVar RLt i b) (template (SInc8 i)) (assign8 c 1) n)
      st st' /\
    mget (mem st') pi = Z.max (mget (mem st) pa) (mget (mem st) pb) /\
    mget (mem st') pc = (if mget (mem st) pa <? mget (mem st) pb then 1 else mget (mem st) pc) /\
    only_changes [pi; pc] st st' /\ keeps_xys st st'.
Proof.
  intros cfg i a b c n pi pa pb pc st Hp Vi Va Vb Vc Li La Lb Lc Ri Ra Rb Rc Nib Nci Ncb Hb.
  pose proof (proj2 (proj2 (proj2 (proj2 Hb)))) as HM0.
  pose proof (HM0 pa) as Ma0. pose proof (HM0 pb) as Mb0.
  destruct (for_up_assign_correct cfg (template (SCopy8 i a)) RLt i b c (lname ".for" n)
              (lname ".forupdate" n) (lname ".forend" n) (lname ".ifhere" n) pi pb pc
              (mget (mem st) pa) (Z.max (mget (mem st) pa) (mget (mem st) pb)) st Hp Vi Vb Vc)
    as (st' & Hr & Hvi & Hvc & Hfr); auto with lname.
  - apply nodup3; auto with lname.
  - reflexivity.
  - destruct (copy_gen cfg (Cell pa) pi a i st (cell_r _ _ _ _ (cell_var cfg st a pa Hp Va La Ra))
                (cell_w _ _ _ _ (cell_var cfg st i pi Hp Vi Li Ri))) as (s0 & Hr0 & Hv0).
    exists s0. split; [apply runs_to_halts_to; exact Hr0|exact Hv0].
  - lia.
  - intros v Hv. cbn [rel_holds]. lia.
  - exists st'. split; [exact Hr|]. split; [exact Hvi|]. split; [|exact Hfr].
    rewrite Hvc. destruct (Z.ltb_spec (mget (mem st) pa) (mget (mem st) pb));
      destruct (Z.ltb_spec (mget (mem st) pa) (Z.max (mget (mem st) pa) (mget (mem st) pb)));
      try reflexivity; lia.
Qed.

(** listing 06: for (i = 0; i != 4; i++) { if (a == b) break; c = 1; } *)
Theorem C01_ctl_for_break_listing : forall cfg i a b c n pi pa pb pc st,
  ports cfg = [] -> var_name i -> var_name a -> var_name b -> var_name c ->
  layout cfg i = Some pi -> layout cfg a = Some pa -> layout cfg b = Some pb ->
  layout cfg c = Some pc ->
  0 <= pi < 65536 -> 0 <= pa < 65536 -> 0 <= pb < 65536 -> 0 <= pc < 65536 ->
  pi <> pa -> pi <> pb -> pc <> pa -> pc <> pb -> pc <> pi ->
  bytes_ok st ->
  exists st',
    halts_to cfg (for_tpl (assign8 i 0) (CConst RNeq i 4) (template (SInc8 i))
                    (break_if (CVar REq a b) n ++ assign8 c 1) n) st st' /\
    mget (mem st') pi = (if mget (mem st) pa =? mget (mem st) pb then 0 else 4) /\
    mget (mem st') pc = (if mget (mem st) pa =? mget (mem st) pb then mget (mem st) pc else 1) /\
    only_changes [pi; pc] st st' /\ keeps_xys st st'.
Proof.
  intros cfg i a b c n pi pa pb pc st Hp Vi Va Vb Vc. unfold for_tpl, break_if.
  apply for_break_code_correct; auto with lname.
Qed.
