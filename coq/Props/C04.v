(** C04 — reported function size equals the assembled size. *)
From Coq Require Import String Ascii List Bool NArith ZArith.
From CC Require Import Base.Str Asm.Lines M6502.Isa Asm.Operand Model.AsmSel Model.Optimize
     Model.CheckBranches Proofs.AsmSelFacts Proofs.OptFacts.
Import ListNotations.

(** whatever [asm()] emits for a sensible (mnemonic, operand) pair carries as [nb_bytes] the
    size of the encoding a 6502 assembler selects for it (zero-page form for page-zero
    operands when the mnemonic has one, absolute form otherwise), for every variable kind,
    memory class, offset >= 0, byte selection and bank-switching scheme.  [popnd_zp e (e_op em)]
    says where the emitted operand really is: for a constant pointer whose address [a] is known
    ([v_addr v = Some a], [unsigned char *const R = 0xff;]) it is [a + printed offset < $100], on
    both sides of the page boundary; otherwise the memory class decides.  [expr_wf]: class and
    known address agree ([var_wf]), as the compiler produces them. *)
Theorem C04_asm_sel_size : forall sch m e high m' sg em md,
  sensible m e = true ->
  expr_wf e -> expr_off_nonneg e ->
  asm_sel sch m e high = AEmit m' sg em ->
  resolve m' (shape_of (operand_of (e_op em))) (popnd_zp e (e_op em)) = Some md ->
  mode_size md = e_bytes em.
Proof. exact asm_sel_size. Qed.

(** what "really is" means for an access through a constant pointer at a known address *)
Theorem C04_popnd_zp_known_addr : forall sch m v eight off high m' sg em a y k ix al,
  v_addr v = Some a ->
  asm_sel sch m (EAbsolute v eight off) high = AEmit m' sg em ->
  e_op em = PMem y k ix al -> al = true ->
  k = (off + port_offset sch (v_mem v) m + if high then 1 else 0)%Z /\
  popnd_zp (EAbsolute v eight off) (e_op em) = (a + k <? 256)%Z.
Proof. exact popnd_zp_known_addr. Qed.

(** the rule before the page-boundary fix (size from the memory class alone, [asm_sel_old]) does
    not satisfy the statement: [STA R+1] with [R] at $ff is 3 bytes, it reported 2 *)
Theorem C04_asm_sel_old_size_fails :
  ~ (forall sch m e high m' sg em md,
       sensible m e = true -> expr_wf e -> expr_off_nonneg e ->
       asm_sel_old sch m e high = AEmit m' sg em ->
       resolve m' (shape_of (operand_of (e_op em))) (popnd_zp e (e_op em)) = Some md ->
       mode_size md = e_bytes em).
Proof. exact asm_sel_old_size_fails. Qed.

(** the optimiser only deletes: the reported size never grows and every remaining instruction
    is one that was emitted (with its size) *)
Theorem C04_optimize_size_le : forall c : code, (size_bytes (fst (optimize c)) <= size_bytes c)%N.
Proof. exact optimize_size_le. Qed.

Theorem C04_optimize_instrs_subset : forall (c : code) (i : instr),
  In (Ins i) (fst (optimize c)) -> In (Ins i) c.
Proof. exact optimize_instrs_subset. Qed.

(** the instructions the branch repair adds have their real sizes: 2 for a branch, 3 for JMP *)
Theorem C04_repair_sizes : forall m l,
  is_cond_branch m = true ->
  resolved_size m ShLabel false = Some 2%N /\ resolved_size JMP ShLabel false = Some 3%N
  /\ line_bytes (mk_branch m l) = 2%N /\ line_bytes (mk_jmp l) = 3%N.
Proof. intros m l H; destruct m; try discriminate H; repeat split; reflexivity. Qed.
