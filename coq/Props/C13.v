(** C13 — emitted assembly always assembles.  Statements only. *)
From Coq Require Import String Ascii List Bool NArith ZArith.
From CC Require Import Base.Str Asm.Lines M6502.Isa Asm.Operand Model.Optimize Model.OptSpec
     Model.CheckBranches Model.CbSpec Proofs.OptFacts Proofs.CbFacts.
Import ListNotations.

(** the optimiser leaves every label where it is (so uniqueness and definedness are untouched) *)
Theorem C13_optimize_keeps_labels : forall c : code, labels_of (fst (optimize c)) = labels_of c.
Proof. exact optimize_keeps_labels. Qed.

(** ... and every instruction it keeps was emitted by the generator: legality is preserved *)
Theorem C13_optimize_instrs_subset : forall (c : code) (i : instr),
  In (Ins i) (fst (optimize c)) -> In (Ins i) c.
Proof. exact optimize_instrs_subset. Qed.

(** long-branch repair: labels stay unique, none disappears, every new target is defined *)
Theorem C13_repair_labels : forall (c c' : code) (n : N),
  check_branches c = CbOk c' n ->
  (forall l, In l (all_labels c) -> is_fix_label l = false) ->
  NoDup (all_labels c) ->
  NoDup (all_labels c')
  /\ (forall l, In l (all_labels c) -> In l (all_labels c'))
  /\ (forall t, In t (branch_targets c') -> In t (branch_targets c) \/ In t (all_labels c')).
Proof. exact cb_labels. Qed.

From CC Require Import Model.AsmSel Model.InlineRename Model.WfCode Proofs.AsmLegalFacts Proofs.InlineFacts.

(** whenever asm() accepts a load / store / ALU / compare mnemonic with a data operand, the 6502
    has an addressing mode for it (the explicit "Can't use X addressing on X operation"-style
    errors do their job).  The last hypothesis (stores whose operand degenerates to an immediate,
    the "#0" high byte) is redundant given the "Bad left value" guard of asm():
    C13_asm_legal_strong below *)
Theorem C13_asm_sel_legal : forall sch m e high m' sg em,
  data_mnemonic m = true -> data_operand e = true ->
  expr_wf e ->
  asm_sel sch m e high = AEmit m' sg em ->
  (AsmSel.is_st m = true -> shape_of (operand_of (e_op em)) <> ShImm) ->
  resolve m' (shape_of (operand_of (e_op em))) (popnd_zp e (e_op em)) <> None.
Proof. exact asm_sel_legal. Qed.

(** read-modify-write mnemonics: legal exactly for memory, memory+X (and the accumulator for
    shifts); apart from the "Bad left value" guard on immediates asm() has no error arm for the
    others: a finding recorded as Examples in Proofs/AsmLegalFacts.v *)
Theorem C13_asm_sel_legal_rmw : forall sch m e high m' sg em,
  rmw_mnemonic m = true -> rmw_operand e = true ->
  asm_sel sch m e high = AEmit m' sg em ->
  shape_of (operand_of (e_op em)) <> ShImm ->
  resolve m' (shape_of (operand_of (e_op em))) (popnd_zp e (e_op em)) <> None.
Proof. exact asm_sel_legal_rmw. Qed.

(** since the "Bad left value" guard: a store or a read-modify-write instruction is never emitted
    with an immediate operand (the name of an array, &x, the "#0" high byte of an 8-bit object) ... *)
Theorem C13_asm_no_write_imm : forall sch m e high m' sg em,
  asm_sel sch m e high = AEmit m' sg em ->
  writes_mem m' = true ->
  shape_of (operand_of (e_op em)) <> ShImm.
Proof. exact asm_sel_no_write_imm. Qed.

(** ... so C13_asm_sel_legal holds without its store hypothesis *)
Theorem C13_asm_legal_strong : forall sch m e high m' sg em,
  data_mnemonic m = true -> data_operand e = true ->
  expr_wf e ->
  asm_sel sch m e high = AEmit m' sg em ->
  resolve m' (shape_of (operand_of (e_op em))) (popnd_zp e (e_op em)) <> None.
Proof. exact asm_sel_legal_strong. Qed.

(** read-modify-write instructions (INC DEC ASL LSR ROL ROR on a temporary, a variable or an X-indexed element):
    every accepted operand has an encoding, no immediate degeneration left ... *)
Theorem C13_asm_legal_rmw_strong : forall sch m e high m' sg em,
  rmw_mnemonic m = true -> rmw_operand e = true ->
  asm_sel sch m e high = AEmit m' sg em ->
  resolve m' (shape_of (operand_of (e_op em))) (popnd_zp e (e_op em)) <> None.
Proof. exact asm_sel_legal_rmw_strong. Qed.

(** ... while a read-modify-write instruction on a Y-indexed operand, when asm() emits one, never has an
    encoding (the generator does not ask for it: the templates of C17 go through the accumulator) *)
Theorem C13_asm_rmw_y_never_legal_strong : forall sch m v high m' sg em,
  rmw_mnemonic m = true ->
  asm_sel sch m (EAbsoluteY v) high = AEmit m' sg em ->
  resolve m' (shape_of (operand_of (e_op em))) (popnd_zp (EAbsoluteY v) (e_op em)) = None.
Proof. exact asm_sel_rmw_y_never_legal_strong. Qed.

(** inlining: the suffixing of labels is injective in (counter, label) ... *)
Theorem C13_suffix_inj : forall n1 n2 l1 l2,
  suffix_of n1 l1 = suffix_of n2 l2 -> n1 = n2 /\ l1 = l2.
Proof. exact suffix_of_inj. Qed.

(** ... so an inlined block keeps labels unique for a fresh counter ... *)
Theorem C13_push_code_nodup : forall (dst body : code) (n : N),
  NoDup (all_labels dst) -> NoDup (all_labels body) ->
  ~ In ".endof"%string (all_labels body) ->
  (forall l, In l (all_labels dst) -> forall l0, l <> suffix_of n l0) ->
  NoDup (all_labels (push_code dst body n)).
Proof. exact push_code_nodup. Qed.

(** ... repeated and nested expansions with distinct counters included ... *)
Definition C13_push_code_twice_nodup := push_code_twice_nodup.

(** ... and every branch/JMP of the inlined body (the return jump included) lands inside the block *)
Theorem C13_push_code_closed : forall (dst body : code) (n : N),
  (forall t, In t (local_targets body) -> In t (all_labels body) \/ t = ".endof"%string) ->
  forall t, In t (local_targets (map (rename_line n) body)) ->
            In t (all_labels (map (rename_line n) body ++ [Lbl (".endofinline" ++ string_of_N n)%string])).
Proof. exact push_code_closed. Qed.
