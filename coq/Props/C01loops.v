(** C01 — emitted 6502 code computes what the C source says: LOOPS.
    The exact -O0 output of the compiler for eight loop statements over [unsigned char a, b, c, i;]
    and the register variables [X], [Y] (Model/GenLoops.v, [ltemplate]; the [llisting_NN] examples
    there are compared line for line with the real compiler by tools/props) is run on the
    executable 6502 semantics: for ALL byte-valued initial states, all addresses of the variables
    (different cells where the statement needs it) and every label number, [Sem.run] on the whole
    sequence, backward branches included, halts normally past the end label ([halts_to]: from an
    empty call stack, inside any program, with any fuel above some bound), the variables hold
    what C says (closed forms in the initial values; for the [continue] and [break] loops also
    as the iteration of the C body, [cont_iter] / [brk_loop]), every other memory cell is unchanged
    and the registers the statement does not name keep their values (A and the flags may change).
    The proofs are by induction on the number of iterations that remain ([C01_loop_rule]).
    Statements only; proofs in Proofs/GenLoopsFacts.v. *)
From Coq Require Import String List Bool NArith ZArith Lia.
From CC Require Import Base.Str Asm.Lines M6502.Isa Asm.Operand M6502.Sem Model.OptSem
  Model.GenTemplates Proofs.GenTemplatesFacts Proofs.GenCmp16Facts Model.GenLoops
  Proofs.GenLoopsFacts.
Import ListNotations.
Open Scope Z_scope.

(** the general lemma: a loop head, an invariant with a measure that decreases at each pass;
    [reach cfg c pc s Q]: [Sem.run] goes from line [pc] in state [s] to a line and a state
    satisfying [Q] ([stepn_run]) *)
Theorem C01_loop_rule : forall cfg (c : list sline) (head exit : nat)
    (Inv : Z -> mstate -> Prop) (Post : mstate -> Prop),
  (forall k s, Inv k s ->
     reach cfg c head s (fun (_ pc' : nat) (s' : mstate) =>
       (pc' = head /\ exists k', 0 <= k' < k /\ Inv k' s') \/ (pc' = exit /\ Post s'))) ->
  forall k s, Inv k s ->
    reach cfg c head s (fun (_ pc' : nat) (s' : mstate) => pc' = exit /\ Post s').
Proof. exact loop_rule. Qed.

(** the same on [Sem.run] *)
Theorem C01_loop_rule_run : forall cfg (c : list sline) (head exit : nat)
    (Inv : Z -> mstate -> Prop) (Post : mstate -> Prop),
  (forall k s, Inv k s ->
     reach cfg c head s (fun (_ pc' : nat) (s' : mstate) =>
       (pc' = head /\ exists k', 0 <= k' < k /\ Inv k' s') \/ (pc' = exit /\ Post s'))) ->
  forall k s, Inv k s ->
    exists (N : nat) (s' : mstate), Post s' /\
      forall prog inl_sem ext_call fuel fname tr cy, exists tr' cy',
        Sem.run cfg prog inl_sem ext_call (N + fuel) fname c head [] s tr cy
        = Sem.run cfg prog inl_sem ext_call fuel fname c exit [] s' tr' cy'.
Proof. exact loop_rule_run. Qed.

(** [halts_to] determines the final state, which is byte-valued again *)
Theorem C01_loop_halts_to_det : forall cfg c st s1 s2,
  halts_to cfg c st s1 -> halts_to cfg c st s2 -> s1 = s2.
Proof. exact halts_to_det. Qed.

Theorem C01_loop_halts_to_bytes_ok : forall cfg c st st',
  halts_to cfg c st st' -> bytes_ok st -> bytes_ok st'.
Proof. exact halts_to_bytes_ok. Qed.

(** [do { a++; i--; } while (i != 0);]: [i] iterations, 256 if [i = 0] *)
Theorem C01_loop_do_dec : forall cfg a i n pa pi st,
  ports cfg = [] -> var_name a -> var_name i ->
  layout cfg a = Some pa -> layout cfg i = Some pi ->
  0 <= pa < 65536 -> 0 <= pi < 65536 -> pa <> pi ->
  bytes_ok st ->
  exists st', halts_to cfg (ltemplate (LDoDec a i n)) st st' /\
    mget (mem st') pi = 0 /\
    mget (mem st') pa
    = (mget (mem st) pa + (if mget (mem st) pi =? 0 then 256 else mget (mem st) pi)) mod 256 /\
    only_changes [pa; pi] st st' /\ keeps_xys st st'.
Proof.
  exact (fun cfg a i n => do_dec_code_correct _ _ _ (lname_nonempty_dowhile n) cfg a i).
Qed.

(** [do { a += c; X--; } while (X);] *)
Theorem C01_loop_do_x : forall cfg a c n pa pc st,
  ports cfg = [] -> var_name a -> var_name c ->
  layout cfg a = Some pa -> layout cfg c = Some pc ->
  0 <= pa < 65536 -> 0 <= pc < 65536 -> pa <> pc ->
  bytes_ok st ->
  exists st', halts_to cfg (ltemplate (LDoX a c n)) st st' /\
    rX st' = 0 /\
    mget (mem st') pa
    = (mget (mem st) pa + (if rX st =? 0 then 256 else rX st) * mget (mem st) pc) mod 256 /\
    only_changes [pa] st st' /\ keeps_ys st st'.
Proof.
  exact (fun cfg a c n => do_x_code_correct _ _ _ (lname_nonempty_dowhile n) cfg a c).
Qed.

(** [for (i = 0; i != b; i++) a++;] *)
Theorem C01_loop_for_ne : forall cfg i b a n pi pb pa st,
  ports cfg = [] -> var_name i -> var_name b -> var_name a ->
  layout cfg i = Some pi -> layout cfg b = Some pb -> layout cfg a = Some pa ->
  0 <= pi < 65536 -> 0 <= pb < 65536 -> 0 <= pa < 65536 ->
  pa <> pi -> pa <> pb -> pi <> pb ->
  bytes_ok st ->
  exists st', halts_to cfg (ltemplate (LForNe i b a n)) st st' /\
    mget (mem st') pi = mget (mem st) pb /\
    mget (mem st') pa = (mget (mem st) pa + mget (mem st) pb) mod 256 /\
    only_changes [pa; pi] st st' /\ keeps_xys st st'.
Proof.
  exact (fun cfg i b a n =>
    for_ne_code_correct _ _ _ (lname_nonempty_for n) (lname_nonempty_forend n)
         (lname_for_forend n) (lname_forupdate_forend n) cfg i b a).
Qed.

(** [while (i != b) { a++; i++; }]: [(b - i) mod 256] iterations *)
Theorem C01_loop_while_ne : forall cfg i b a n pi pb pa st,
  ports cfg = [] -> var_name i -> var_name b -> var_name a ->
  layout cfg i = Some pi -> layout cfg b = Some pb -> layout cfg a = Some pa ->
  0 <= pi < 65536 -> 0 <= pb < 65536 -> 0 <= pa < 65536 ->
  pa <> pi -> pa <> pb -> pi <> pb ->
  bytes_ok st ->
  exists st', halts_to cfg (ltemplate (LWhileNe i b a n)) st st' /\
    mget (mem st') pi = mget (mem st) pb /\
    mget (mem st') pa
    = (mget (mem st) pa + (mget (mem st) pb - mget (mem st) pi) mod 256) mod 256 /\
    only_changes [pa; pi] st st' /\ keeps_xys st st'.
Proof.
  exact (fun cfg i b a n =>
    while_ne_code_correct _ _ _ (lname_nonempty_while n) (lname_nonempty_whileend n)
      (lname_while_whileend n) cfg i b a).
Qed.

(** [for (X = b; X != 0; X--) a += c;] ([a] may be the cell of [b]) *)
Theorem C01_loop_for_x_down : forall cfg b a c n pb pa pc st,
  ports cfg = [] -> var_name b -> var_name a -> var_name c ->
  layout cfg b = Some pb -> layout cfg a = Some pa -> layout cfg c = Some pc ->
  0 <= pb < 65536 -> 0 <= pa < 65536 -> 0 <= pc < 65536 -> pa <> pc ->
  bytes_ok st ->
  exists st', halts_to cfg (ltemplate (LForXDown b a c n)) st st' /\
    rX st' = 0 /\
    mget (mem st') pa = (mget (mem st) pa + mget (mem st) pb * mget (mem st) pc) mod 256 /\
    only_changes [pa] st st' /\ keeps_ys st st'.
Proof.
  exact (fun cfg b a c n =>
    for_x_down_code_correct _ _ _ (lname_nonempty_for n) (lname_nonempty_forend n)
         (lname_for_forend n) (lname_forupdate_forend n) cfg b a c).
Qed.

(** [for (Y = 0; Y != k; Y++) a++;] for every constant [0 <= k < 256]; the listing has 4 *)
Theorem C01_loop_for_y_up : forall cfg kk a n pa st,
  ports cfg = [] -> var_name a -> 0 <= kk < 256 ->
  layout cfg a = Some pa -> 0 <= pa < 65536 ->
  bytes_ok st ->
  exists st', halts_to cfg (ltemplate (LForYUp kk a n)) st st' /\
    rY st' = kk /\
    mget (mem st') pa = (mget (mem st) pa + kk) mod 256 /\
    only_changes [pa] st st' /\ keeps_xs st st'.
Proof.
  exact (fun cfg kk a n =>
    for_y_up_code_correct _ _ _ (lname_nonempty_for n) (lname_nonempty_forend n)
         (lname_for_forend n) (lname_forupdate_forend n) cfg kk a).
Qed.

Theorem C01_loop_for_y_4 : forall cfg a n pa st,
  ports cfg = [] -> var_name a -> layout cfg a = Some pa -> 0 <= pa < 65536 ->
  bytes_ok st ->
  exists st', halts_to cfg (ltemplate (LForYUp 4 a n)) st st' /\
    rY st' = 4 /\
    mget (mem st') pa = (mget (mem st) pa + 4) mod 256 /\
    only_changes [pa] st st' /\ keeps_xs st st'.
Proof. exact for_y_4_correct. Qed.

(** [for (i = 0; i < b; i++) { if (a == c) continue; a++; }]: closed form ... *)
Theorem C01_loop_for_lt_cont : forall cfg i b a c n pi pb pa pc st,
  ports cfg = [] -> var_name i -> var_name b -> var_name a -> var_name c ->
  layout cfg i = Some pi -> layout cfg b = Some pb -> layout cfg a = Some pa ->
  layout cfg c = Some pc ->
  0 <= pi < 65536 -> 0 <= pb < 65536 -> 0 <= pa < 65536 -> 0 <= pc < 65536 ->
  pa <> pi -> pa <> pb -> pa <> pc -> pi <> pb -> pi <> pc ->
  bytes_ok st ->
  exists st', halts_to cfg (ltemplate (LForLtCont i b a c n)) st st' /\
    mget (mem st') pi = mget (mem st) pb /\
    mget (mem st') pa
    = (mget (mem st) pa
       + Z.min (mget (mem st) pb) ((mget (mem st) pc - mget (mem st) pa) mod 256)) mod 256 /\
    only_changes [pa; pi] st st' /\ keeps_xys st st'.
Proof.
  exact (fun cfg i b a c n =>
    for_lt_cont_code_correct _ _ _ (lname_nonempty_for n) (lname_nonempty_forupdate n)
      (lname_nonempty_forend n) (lname_for_forupdate n) (lname_for_forend n)
      (lname_forupdate_forend n) cfg i b a c).
Qed.

(** ... and as [b] iterations of the C body [cont_body c a = if a =? c then a else (a+1) mod 256] *)
Theorem C01_loop_for_lt_cont_iter : forall cfg i b a c n pi pb pa pc st,
  ports cfg = [] -> var_name i -> var_name b -> var_name a -> var_name c ->
  layout cfg i = Some pi -> layout cfg b = Some pb -> layout cfg a = Some pa ->
  layout cfg c = Some pc ->
  0 <= pi < 65536 -> 0 <= pb < 65536 -> 0 <= pa < 65536 -> 0 <= pc < 65536 ->
  pa <> pi -> pa <> pb -> pa <> pc -> pi <> pb -> pi <> pc ->
  bytes_ok st ->
  exists st', halts_to cfg (ltemplate (LForLtCont i b a c n)) st st' /\
    mget (mem st') pi = mget (mem st) pb /\
    mget (mem st') pa
    = cont_iter (Z.to_nat (mget (mem st) pb)) (mget (mem st) pc) (mget (mem st) pa) /\
    only_changes [pa; pi] st st' /\ keeps_xys st st'.
Proof. exact for_lt_cont_iter. Qed.

(** [while (i) { i--; if (i == b) break; a++; }]: closed form ... *)
Theorem C01_loop_while_brk : forall cfg i b a n pi pb pa st,
  ports cfg = [] -> var_name i -> var_name b -> var_name a ->
  layout cfg i = Some pi -> layout cfg b = Some pb -> layout cfg a = Some pa ->
  0 <= pi < 65536 -> 0 <= pb < 65536 -> 0 <= pa < 65536 ->
  pa <> pi -> pa <> pb -> pi <> pb ->
  bytes_ok st ->
  exists st', halts_to cfg (ltemplate (LWhileBrk i b a n)) st st' /\
    mget (mem st') pi = (if mget (mem st) pb <? mget (mem st) pi then mget (mem st) pb else 0) /\
    mget (mem st') pa
    = (mget (mem st) pa
       + (if mget (mem st) pb <? mget (mem st) pi
          then mget (mem st) pi - 1 - mget (mem st) pb else mget (mem st) pi)) mod 256 /\
    only_changes [pa; pi] st st' /\ keeps_xys st st'.
Proof.
  exact (fun cfg i b a n =>
    while_brk_code_correct _ _ _ (lname_nonempty_while n) (lname_nonempty_whileend n)
      (lname_while_whileend n) cfg i b a).
Qed.

(** ... and as the recursive function [brk_loop] (the C loop, with fuel [i]) *)
Theorem C01_loop_while_brk_iter : forall cfg i b a n pi pb pa st,
  ports cfg = [] -> var_name i -> var_name b -> var_name a ->
  layout cfg i = Some pi -> layout cfg b = Some pb -> layout cfg a = Some pa ->
  0 <= pi < 65536 -> 0 <= pb < 65536 -> 0 <= pa < 65536 ->
  pa <> pi -> pa <> pb -> pi <> pb ->
  bytes_ok st ->
  exists st', halts_to cfg (ltemplate (LWhileBrk i b a n)) st st' /\
    (mget (mem st') pi, mget (mem st') pa)
    = brk_loop (Z.to_nat (mget (mem st) pi)) (mget (mem st) pb) (mget (mem st) pi)
        (mget (mem st) pa) /\
    only_changes [pa; pi] st st' /\ keeps_xys st st'.
Proof. exact while_brk_iter. Qed.
