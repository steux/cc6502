(** C09 — string and character literals are stored byte-exact.  The general theorems are proved in
    Proofs/ScanFacts.v. *)
From Coq Require Import String Ascii List Bool NArith.
From CC Require Import Base.Str Model.Cpp Model.StrLit Model.ScanSpec Proofs.ScanFacts.
Import ListNotations.
Open Scope string_scope.

(** every escape the property lists decodes to its ASCII code: the whole (finite) escape table *)
Theorem C09_escape_table : forall c n, c_escape c = Some n -> escape_code c = chr n.
Proof. exact escape_code_correct. Qed.

(** exactly one NUL after the concatenated decoded pieces *)
Theorem C09_literal_bytes : forall pieces,
  compile_quoted_string pieces = String.concat "" (map decode pieces) ++ String (chr 0) "".
Proof. reflexivity. Qed.

(** a literal full of comment markers, a directive and a macro name is recorded verbatim *)
Theorem C09_example_opaque :
  match run_cpp [] "m.c" [("FOO", "1")] ["s = ""//x/*y*/#define FOO @1@ \""q\\""; // c" ++ nl] with
  | POk p => p_out p = "s = @0@; " ++ nl /\ sc_lits (c_scan (p_ctx p)) = ["//x/*y*/#define FOO @1@ \""q\\"]
  | PErr _ => False
  end.
Proof. vm_compute. split; reflexivity. Qed.

(** decoding = C's decoding on every well-formed literal body (simple escapes) *)
Theorem C09_decode_correct : forall s t, c_decode s = Some t -> decode s = t.
Proof. exact decode_correct. Qed.

(** a literal = C's bytes followed by exactly one NUL *)
Theorem C09_literal_bytes_c : forall s t, c_decode s = Some t ->
  compile_quoted_string [s] = t ++ String (chr 0) "".
Proof. exact literal_bytes_c. Qed.

(** character constants *)
Theorem C09_char_const_plain : forall c, c <> "\"%char -> quoted_character (String c "") = Some c.
Proof. exact char_const_plain. Qed.
Theorem C09_char_const_escape : forall (e : ascii) (n : nat), c_escape e = Some n ->
  quoted_character ("\" ++ String e "") = Some (chr n).
Proof. exact char_const_escape. Qed.

(** the scanner finds the true end of every scannable literal body ... *)
Theorem C09_find_close_exact : forall body rest, scannable body ->
  find_close (S (String.length (body ++ """" ++ rest))) (body ++ """" ++ rest) "" = Some (body, rest).
Proof. exact find_close_exact. Qed.

(** ... and records it VERBATIM, whatever it contains (//, /*, */, #, @, macro names), replacing it
    by an opaque marker that later stages cannot confuse with code *)
Theorem C09_literal_opaque : forall pre body post st,
  sc_in_comment st = false -> no_markers pre -> scannable body ->
  contains """" post = false -> contains "//" post = false -> contains "/*" post = false ->
  scan_line false (pre ++ """" ++ body ++ """" ++ post) st
  = ScanOk (pre ++ "@" ++ string_of_N (sc_next_lit st) ++ "@" ++ post) true
           (mkScan false (sc_next_lit st + 1) (body :: sc_lits st)).
Proof. exact scan_line_one_literal. Qed.

(** a literal that follows a block comment on its line is extracted like any other (repaired
    defect: the line used to be cut at the // of the literal and rejected as unterminated) *)
Theorem C09_literal_after_block_comment :
  scan_line false ("/* c */ s = ""http://x"";" ++ nl) (mkScan false 0 [])
  = ScanOk (" s = @0@;" ++ nl) true (mkScan false 1 ["http://x"]).
Proof. vm_compute. reflexivity. Qed.

Theorem C09_literal_after_block_comment_general : forall pre cbody mid body post st f out ins,
  sc_in_comment st = false -> no_markers pre ->
  forall no_trailing_slash : ends_with "/" pre = false,
  contains "*/" cbody = false ->
  no_markers mid -> scannable body ->
  scan_loop (S (S (S f))) false (pre ++ "/*" ++ cbody ++ "*/" ++ mid ++ """" ++ body ++ """" ++ post) out ins st
  = scan_loop f false post ((out ++ pre) ++ mid ++ "@" ++ string_of_N (sc_next_lit st) ++ "@") true
              (mkScan false (sc_next_lit st + 1) (body :: sc_lits st)).
Proof. exact literal_after_block_comment. Qed.

(** the end of a literal is C's: the closing quote is the first quote preceded by an EVEN number of
    backslashes (repaired defect: the scanner looked at one or two characters only, and a body
    containing backslash backslash quote was rejected or mis-split).  [closes_body body]: an even
    number of backslashes ends [body] and every quote inside it has an odd number in front
    ([escaped_parity false l = true]: the text [l] ends in an odd number of backslashes) *)
Theorem C09_find_close_parity : forall fuel s body rest,
  String.length s < fuel ->
  (find_close fuel s "" = Some (body, rest) <-> s = body ++ """" ++ rest /\ closes_body body).
Proof. exact find_close_parity. Qed.

(** ... and the literal is unterminated exactly when no quote qualifies *)
Theorem C09_find_close_none_parity : forall fuel s,
  String.length s < fuel ->
  (find_close fuel s "" = None <-> forall body rest, s = body ++ """" ++ rest -> ~ closes_body body).
Proof. exact find_close_none_parity. Qed.

(** the number the model computes is the length of the run of backslashes that ends the text *)
Theorem C09_trailing_backslashes_spec :
  trailing_backslashes "" = 0
  /\ (forall s, trailing_backslashes (s ++ "\") = S (trailing_backslashes s))
  /\ (forall s c, c <> "\"%char -> trailing_backslashes (s ++ String c "") = 0).
Proof. exact trailing_backslashes_spec. Qed.

(** every body C accepts (simple escapes) is scannable: no exception is left *)
Theorem C09_scannable_of_c : forall body, c_decode body <> None -> scannable body.
Proof. exact scannable_of_c. Qed.

(** a, escaped backslash, escaped quote, b: one literal *)
Example C09_backslash_parity :
  scan_line false ("s = ""a\\\""b"";" ++ nl) (mkScan false 0 [])
  = ScanOk ("s = @0@;" ++ nl) true (mkScan false 1 ["a\\\""b"]).
Proof. vm_compute. reflexivity. Qed.

(** a literal ending in an escaped backslash, followed by more text *)
Example C09_backslash_parity_even :
  scan_line false ("s = ""a\\"" + x; t = ""b"";" ++ nl) (mkScan false 0 [])
  = ScanOk ("s = @0@ + x; t = @1@;" ++ nl) true (mkScan false 2 ["b"; "a\\"]).
Proof. vm_compute. reflexivity. Qed.

(** two escaped backslashes and an escaped quote *)
Example C09_backslash_parity_five :
  scan_line false ("s = ""\\\\\"""";" ++ nl) (mkScan false 0 [])
  = ScanOk ("s = @0@;" ++ nl) true (mkScan false 1 ["\\\\\"""]).
Proof. vm_compute. reflexivity. Qed.
