(** C10 — compile-time constant expressions evaluate as in C.  Model: Model/Calc.v (pest's Pratt
    algorithm with the calculator's table), tied to parse_calc by tools/props/c10.py. *)
From Coq Require Import String List Bool ZArith Lia.
From CC Require Import Model.Calc Model.CalcSpec Proofs.CalcFacts.
Import ListNotations.
Open Scope Z_scope.

Definition seq2 (o1 o2 : bop) (a b c : Z) : cres :=
  if c_groups_left o1 o2
  then match apply_bin o1 a b with COk v => apply_bin o2 v c | e => e end
  else match apply_bin o2 b c with COk v => apply_bin o1 a v | e => e end.

(** for every pair of binary operators (289 pairs) and all operand values, "a o1 b o2 c" is
    grouped as C groups it (since the repair of the equality/relational level: no exception) *)
Theorem C10_pairs_grouped_as_C : forall o1 o2 a b c,
  is_ternary o1 = false -> is_ternary o2 = false ->
  calc [TNum a; TBin o1; TNum b; TBin o2; TNum c] = seq2 o1 o2 a b c.
Proof.
  intros o1 o2 a b c H1 H2. unfold seq2, c_groups_left.
  pose proof (c_prec_bounds o1). pose proof (c_prec_bounds o2).
  destruct (Z.leb_spec (c_prec o2) (c_prec o1)).
  - transitivity (calc (lin (EBin o2 (EBin o1 (ENum a) (ENum b)) (ENum c)))).
    + unfold lin. rewrite !lin_at_open by lia. reflexivity.
    + rewrite calc_lin by (cbn; auto). cbn [ceval bin_res]. destruct (apply_bin o1 a b); reflexivity.
  - transitivity (calc (lin (EBin o1 (ENum a) (EBin o2 (ENum b) (ENum c))))).
    + unfold lin. rewrite !lin_at_open by lia. reflexivity.
    + rewrite calc_lin by (cbn; auto). cbn [ceval bin_res]. destruct (apply_bin o2 b c); reflexivity.
Qed.

(** 2 == 1 < 1 is 2 == (1 < 1) = 0, as in C *)
Theorem C10_eq_rel_precedence_fixed :
  calc [TNum 2; TBin OEq; TNum 1; TBin OLt; TNum 1] = COk 0 /\ seq2 OEq OLt 2 1 1 = COk 0.
Proof. split; vm_compute; reflexivity. Qed.

(** unary operators bind tighter than every binary operator *)
Theorem C10_unary_binds_tightest : forall u o a b,
  is_ternary o = false ->
  calc [TUn u; TNum a; TBin o; TNum b] = apply_bin o (apply_un u a) b.
Proof.
  intros u o a b H. pose proof (c_prec_bounds o).
  transitivity (calc (lin (EBin o (EUn u (ENum a)) (ENum b)))).
  - unfold lin. rewrite lin_at_open by lia. reflexivity.
  - apply calc_lin. cbn; auto.
Qed.

(** comparison and logical operators (including !) yield 0 or 1 *)
Theorem C10_truth_values : forall o a b v,
  In o [OGte; OGt; OLte; OLt; OEq; ONeq; OLAnd; OLOr] -> apply_bin o a b = COk v -> v = 0 \/ v = 1.
Proof.
  intros o a b v H E.
  assert (B : forall x, b2z x = 0 \/ b2z x = 1) by (intros []; auto).
  repeat (destruct H as [<- | H]; [injection E as <-; apply B|]). destruct H.
Qed.
Theorem C10_not_is_logical : forall a, apply_un UNot a = if a =? 0 then 1 else 0.
Proof. reflexivity. Qed.

(** truncating division, rejected when the divisor is zero *)
Theorem C10_division : forall a b, apply_bin ODiv a b = if b =? 0 then CDivZero else COk (wrap32 (Z.quot a b)).
Proof. reflexivity. Qed.

(** c ? a : b *)
Theorem C10_ternary_correct : forall c a b,
  a <> sentinel -> calc [TNum c; TBin OQ; TNum a; TBin OColon; TNum b] = COk (if c =? 0 then b else a).
Proof.
  intros c a b H. unfold calc. cbn -[Z.eqb sentinel].
  destruct (c =? 0) eqn:E; cbn -[Z.eqb sentinel].
  - rewrite Z.eqb_refl. reflexivity.
  - destruct (a =? sentinel) eqn:E2; [apply Z.eqb_eq in E2; contradiction | reflexivity].
Qed.

(** known finding: a conditional nested in the middle operand (0 ? 0 ? 1 : 2 : 3 is 3 in C) *)
Theorem C10_ternary_nested_refuted :
  calc [TNum 0; TBin OQ; TNum 0; TBin OQ; TNum 1; TBin OColon; TNum 2; TBin OColon; TNum 3] = COk 2.
Proof. vm_compute. reflexivity. Qed.

(** ** the general statement (Model/CalcSpec.v, Proofs/CalcFacts.v): every expression built from
    numbers, the three prefix operators and the 17 binary operators other than ? and : — of any
    size and nesting, written as C's grammar requires (parentheses where a left operand's top
    operator is lower, a right operand's lower or equal, a prefix operand's binary) and with any
    further parentheses the programmer adds — is evaluated by the calculator, with the fuel it
    really uses, to the value (or the error) that C's grouping gives *)
Theorem C10_calc_groups_as_C : forall e, no_ternary e -> calc (lin e) = ceval e.
Proof. exact calc_lin. Qed.

(** redundant parentheses do not matter *)
Theorem C10_redundant_parens : forall e, no_ternary e -> calc (lin (EPar e)) = calc (lin e).
Proof. exact calc_lin_par. Qed.

(** the unparser read as "needs parentheses" is the same function *)
Theorem C10_calc_groups_as_C_np : forall e, no_ternary e -> calc (lin_np e) = ceval e.
Proof. exact calc_lin_np. Qed.

(** a zero divisor anywhere is reported, not folded *)
Theorem C10_div_zero_general : forall l r a,
  no_ternary l -> no_ternary r -> ceval l = COk a -> ceval r = COk 0 ->
  calc (lin (EBin ODiv l r)) = CDivZero.
Proof. exact calc_lin_div_zero. Qed.

(** non-vacuity: 1 + 2 * 3 - (4 - 5) << 1 == 7 | 8 *)
Theorem C10_calc_groups_as_C_example :
  no_ternary ex7 /\ calc (lin ex7) = COk 8 /\ ceval ex7 = COk 8.
Proof. exact (conj ex7_no_ternary ex7_both_ways). Qed.
