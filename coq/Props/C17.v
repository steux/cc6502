(** C17 — split-port cartridge RAM is read and written through the right ports.  Statements on
    Model/AsmSel.v (compared exhaustively with asm()) and on the split-port memory of M6502/Sem.v. *)
From Coq Require Import String Ascii List Bool NArith ZArith Lia.
From CC Require Import Base.Str Asm.Lines M6502.Isa Asm.Operand M6502.Sem Model.AsmSel.
From CC Require Proofs.GenSplitFacts.
Import ListNotations.
Open Scope Z_scope.

(** the address offset asm() applies: stores get the write port, everything else the read port *)
Theorem C17_port_offsets : forall sch m,
  port_offset sch MSuperchip m = (if is_st m then 0 else 128) /\
  port_offset S3E MOnChip m = (if is_st m then 1024 else 0) /\
  port_offset S3EP MOnChip m = (if is_st m then 512 else 0) /\
  port_offset SOther MOnChip m = 0 /\
  port_offset sch MZeropage m = 0 /\ port_offset sch MOther m = 0.
Proof. intros sch m. destruct sch, m; repeat split; reflexivity. Qed.

(** the offset really reaches the emitted operand of a plain (8-bit, low byte) access to a char:
    "v+off" with off = requested offset + port offset *)
Theorem C17_char_access_offset : forall sch m name (c sg : bool) sz ad off,
  asm_sel sch m (EAbsolute (mkVar name VChar c sg MSuperchip sz ad) true off) false
  = AEmit m sg (mkE (PMem name (off + (if is_st m then 0 else 128)) IxNone false) 3%N (base_cyc m + 2)%N None).
Proof. intros. unfold asm_sel. cbn. destruct m; reflexivity. Qed.

(** indexed accesses to a superchip array *)
Theorem C17_indexed_offset : forall sch m name (sg : bool) sz ad,
  match asm_sel sch m (EAbsoluteX (mkVar name VCharPtr true sg MSuperchip sz ad)) false with
  | AEmit _ _ e => e_op e = PMem name (if is_st m then 0 else 128) IxX false
  | ANoEmit _ => False
  | AErr _ => True
  end.
Proof. intros. unfold asm_sel. cbn. destruct m; cbn; reflexivity. Qed.

(** the memory model: superchip ports.  A byte stored through the write address is what a load
    through the read address (+$80) returns; a load from a write address or a store to a read
    address faults; so does any read-modify-write *)
Definition superchip_ports : list port := [(4096, 4224, 128)].

(** the port lemmas of Proofs/GenSplitFacts.v speak of a configuration with these ports *)
Theorem C17_write_then_read : forall a, 4096 <= a < 4224 ->
  write_addr superchip_ports a = Some a /\ read_addr superchip_ports (a + 128) = Some a.
Proof.
  intros a H. pose (sc := mkCfg (fun _ => None) superchip_ports).
  exact (conj (GenSplitFacts.wr_port sc a eq_refl H) (GenSplitFacts.rd_port sc a eq_refl H)).
Qed.

Theorem C17_wrong_port_faults : forall a, 4096 <= a < 4224 ->
  read_addr superchip_ports a = None /\ write_addr superchip_ports (a + 128) = None.
Proof.
  intros a H. pose (sc := mkCfg (fun _ => None) superchip_ports).
  exact (conj (GenSplitFacts.rd_wport_faults sc a eq_refl H) (GenSplitFacts.wr_rport_faults sc a eq_refl H)).
Qed.

(** ordinary memory is unaffected by the port description *)
Theorem C17_ordinary_unaffected : forall a, 0 <= a < 4096 ->
  read_addr superchip_ports a = Some a /\ write_addr superchip_ports a = Some a.
Proof.
  intros a H. pose (sc := mkCfg (fun _ => None) superchip_ports).
  exact (conj (GenSplitFacts.rd_ord sc a eq_refl H) (GenSplitFacts.wr_ord sc a eq_refl H)).
Qed.

(** * Statement templates for split-port variables (Model/GenSplit.v, Proofs/GenSplitFacts.v)

    For each statement shape the compiler emits on [superchip] variables (25 listings compared with
    the real compiler's output, the [slisting_NN] examples of Model/GenSplit.v): the sequence
    load-through-the-read-port / compute / store-through-the-write-port runs on [Sem.run] without
    a fault under the superchip port description, leaves the C result in the physical cell of
    the destination (16-bit: the carry reaches the high byte), changes no other cell and keeps
    X, Y, S.  The pointer forms [p++] / [p--] are [PInc16] / [PDec16].  Each is an instance of a
    theorem over cells reached through operand texts ([lcs_..._correct], [reads_...],
    [writes_...] of Proofs/GenSplitFacts.v).  Last: the lowering used for ordinary variables
    ([INC v]) faults on such a variable. *)
From CC Require Import Model.OptSem Model.GenTemplates Proofs.GenTemplatesFacts Model.GenSplit
  Proofs.GenSplitFacts.
Open Scope string_scope.
Open Scope list_scope.
Open Scope Z_scope.

(** the configuration of the theorems is the port description of this file *)
Theorem C17_split_cfg_superchip : forall cfg, split_cfg cfg <-> ports cfg = superchip_ports.
Proof. intros cfg. unfold split_cfg, superchip_ports. tauto. Qed.

Theorem C17_split_copy_in : forall cfg dst x pd px st,
  split_cfg cfg -> split_name dst -> split_name x ->
  layout cfg dst = Some pd -> layout cfg x = Some px ->
  in_wport pd -> ordinary px ->
  exists st', runs_to cfg (stemplate (PCopyIn dst x)) st st' /\
    mget (mem st') pd = mget (mem st) px /\
    only_changes [pd] st st' /\ keeps_xys st st'.
Proof. intros. apply (copy_gen _ (Cell px)); [apply reads_ord|apply writes_lo]; assumption. Qed.

Theorem C17_split_copy_out : forall cfg dst x pd px st,
  split_cfg cfg -> split_name dst -> split_name x ->
  layout cfg dst = Some pd -> layout cfg x = Some px ->
  ordinary pd -> in_wport px ->
  exists st', runs_to cfg (stemplate (PCopyOut dst x)) st st' /\
    mget (mem st') pd = mget (mem st) px /\
    only_changes [pd] st st' /\ keeps_xys st st'.
Proof. intros. apply (copy_gen _ (Cell px)); [apply reads_lo|apply writes_ord]; assumption. Qed.

Theorem C17_split_copy : forall cfg dst x pd px st,
  split_cfg cfg -> split_name dst -> split_name x ->
  layout cfg dst = Some pd -> layout cfg x = Some px ->
  in_wport pd -> in_wport px ->
  exists st', runs_to cfg (stemplate (PCopy dst x)) st st' /\
    mget (mem st') pd = mget (mem st) px /\
    only_changes [pd] st st' /\ keeps_xys st st'.
Proof. intros. apply (copy_gen _ (Cell px)); [apply reads_lo|apply writes_lo]; assumption. Qed.

Theorem C17_split_inc8 : forall cfg v pv st,
  split_cfg cfg -> split_name v -> layout cfg v = Some pv -> in_wport pv ->
  exists st', runs_to cfg (stemplate (PInc8 v)) st st' /\
    mget (mem st') pv = (mget (mem st) pv + 1) mod 256 /\
    only_changes [pv] st st' /\ keeps_xys st st'.
Proof.
  intros. apply (bin8_gen ADC eq_refl _ (Cell pv) (Lit 1)); [apply reads_lo|apply imm_r; lia|apply writes_lo]; assumption.
Qed.

Theorem C17_split_dec8 : forall cfg v pv st,
  split_cfg cfg -> split_name v -> layout cfg v = Some pv -> in_wport pv ->
  exists st', runs_to cfg (stemplate (PDec8 v)) st st' /\
    mget (mem st') pv = (mget (mem st) pv - 1) mod 256 /\
    only_changes [pv] st st' /\ keeps_xys st st'.
Proof.
  intros. apply (bin8_gen SBC eq_refl _ (Cell pv) (Lit 1)); [apply reads_lo|apply imm_r; lia|apply writes_lo]; assumption.
Qed.

Theorem C17_split_addassign8 : forall cfg v x pv px st,
  split_cfg cfg -> split_name v -> split_name x ->
  layout cfg v = Some pv -> layout cfg x = Some px ->
  in_wport pv -> ordinary px ->
  exists st', runs_to cfg (stemplate (PAddAssign8 v x)) st st' /\
    mget (mem st') pv = (mget (mem st) pv + mget (mem st) px) mod 256 /\
    only_changes [pv] st st' /\ keeps_xys st st'.
Proof.
  intros. apply (bin8_gen ADC eq_refl _ (Cell pv) (Cell px)); [apply reads_lo|apply reads_ord|apply writes_lo]; assumption.
Qed.

Theorem C17_split_shl8_1 : forall cfg v pv st,
  split_cfg cfg -> split_name v -> layout cfg v = Some pv -> in_wport pv ->
  exists st', runs_to cfg (stemplate (PShl8_1 v)) st st' /\
    mget (mem st') pv = (2 * mget (mem st) pv) mod 256 /\
    only_changes [pv] st st' /\ keeps_xys st st'.
Proof.
  intros. apply (shift_gen ASL 1 (fun _ => True) (fun v => (2 * v) mod 256) eq_refl (fun _ _ => eq_refl) _ (Cell pv));
    [apply reads_lo|apply writes_lo|exact I]; assumption.
Qed.

Theorem C17_split_shr8_1 : forall cfg v pv st,
  split_cfg cfg -> split_name v -> layout cfg v = Some pv -> in_wport pv ->
  exists st', runs_to cfg (stemplate (PShr8_1 v)) st st' /\
    mget (mem st') pv = mget (mem st) pv / 2 /\
    only_changes [pv] st st' /\ keeps_xys st st'.
Proof.
  intros. apply (shift_gen LSR 1 (fun _ => True) (fun v => v / 2) eq_refl (fun _ _ => eq_refl) _ (Cell pv));
    [apply reads_lo|apply writes_lo|exact I]; assumption.
Qed.

Theorem C17_split_add8 : forall cfg dst x y pd px py st,
  split_cfg cfg -> split_name dst -> split_name x -> split_name y ->
  layout cfg dst = Some pd -> layout cfg x = Some px -> layout cfg y = Some py ->
  in_wport pd -> in_wport px -> in_wport py ->
  exists st', runs_to cfg (stemplate (PAdd8 dst x y)) st st' /\
    mget (mem st') pd = (mget (mem st) px + mget (mem st) py) mod 256 /\
    only_changes [pd] st st' /\ keeps_xys st st'.
Proof.
  intros. apply (bin8_gen ADC eq_refl _ (Cell px) (Cell py)); [apply reads_lo|apply reads_lo|apply writes_lo]; assumption.
Qed.

Theorem C17_split_neg8 : forall cfg dst x pd px st,
  split_cfg cfg -> split_name dst -> split_name x ->
  layout cfg dst = Some pd -> layout cfg x = Some px ->
  in_wport pd -> in_wport px ->
  exists st', runs_to cfg (stemplate (PNeg8 dst x)) st st' /\
    mget (mem st') pd = (256 - mget (mem st) px) mod 256 /\
    only_changes [pd] st st' /\ keeps_xys st st'.
Proof.
  intros. replace (256 - mget (mem st) px) with (0 - mget (mem st) px + 1 * 256) by ring.
  rewrite Z_mod_plus_full.
  apply (bin8_gen SBC eq_refl _ (Lit 0) (Cell px)); [apply imm_r; lia|apply reads_lo|apply writes_lo]; assumption.
Qed.

Theorem C17_split_xorassign8 : forall cfg v x pv px st,
  split_cfg cfg -> split_name v -> split_name x ->
  layout cfg v = Some pv -> layout cfg x = Some px ->
  in_wport pv -> ordinary px ->
  exists st', runs_to cfg (stemplate (PXorAssign8 v x)) st st' /\
    mget (mem st') pv = Z.lxor (mget (mem st) pv) (mget (mem st) px) /\
    only_changes [pv] st st' /\ keeps_xys st st'.
Proof.
  intros. apply (bin8_gen EOR eq_refl _ (Cell pv) (Cell px)); [apply reads_lo|apply reads_ord|apply writes_lo]; assumption.
Qed.

Theorem C17_split_inc16 : forall cfg v pv st,
  split_cfg cfg -> split_name v -> layout cfg v = Some pv ->
  in_wport pv -> in_wport (pv + 1) -> bytes_ok st ->
  exists st', runs_to cfg (stemplate (PInc16 v)) st st' /\
    word (mem st') pv = (word (mem st) pv + 1) mod 65536 /\
    only_changes [pv; pv + 1] st st' /\ keeps_xys st st'.
Proof.
  intros. apply (arith16c_gen ADC (or_introl eq_refl) cfg (Cell pv) pv (Cell (pv + 1)) (pv + 1) 1);
    [apply reads_lo|apply writes_lo|apply reads_hi|apply writes_hi|cbn; lia|lia|..]; try assumption; lia.
Qed.

Theorem C17_split_dec16 : forall cfg v pv st,
  split_cfg cfg -> split_name v -> layout cfg v = Some pv ->
  in_wport pv -> in_wport (pv + 1) -> bytes_ok st ->
  exists st', runs_to cfg (stemplate (PDec16 v)) st st' /\
    word (mem st') pv = (word (mem st) pv - 1) mod 65536 /\
    only_changes [pv; pv + 1] st st' /\ keeps_xys st st'.
Proof.
  intros. apply (arith16c_gen SBC (or_intror eq_refl) cfg (Cell pv) pv (Cell (pv + 1)) (pv + 1) 1);
    [apply reads_lo|apply writes_lo|apply reads_hi|apply writes_hi|cbn; lia|lia|..]; try assumption; lia.
Qed.

Theorem C17_split_addconst16 : forall cfg v k pv st,
  split_cfg cfg -> split_name v -> layout cfg v = Some pv ->
  in_wport pv -> in_wport (pv + 1) -> 0 <= k < 65536 -> bytes_ok st ->
  exists st', runs_to cfg (stemplate (PAddConst16 v k)) st st' /\
    word (mem st') pv = (word (mem st) pv + k) mod 65536 /\
    only_changes [pv; pv + 1] st st' /\ keeps_xys st st'.
Proof.
  intros. apply (arith16c_gen ADC (or_introl eq_refl) cfg (Cell pv) pv (Cell (pv + 1)) (pv + 1) k);
    [apply reads_lo|apply writes_lo|apply reads_hi|apply writes_hi|cbn; lia|lia|..]; try assumption; lia.
Qed.

Theorem C17_split_shl16_1 : forall cfg v pv st,
  split_cfg cfg -> split_name v -> layout cfg v = Some pv ->
  in_wport pv -> in_wport (pv + 1) -> bytes_ok st ->
  exists st', runs_to cfg (stemplate (PShl16_1 v)) st st' /\
    word (mem st') pv = (2 * word (mem st) pv) mod 65536 /\
    only_changes [pv; pv + 1] st st' /\ keeps_xys st st'.
Proof.
  intros. apply lcs_shl16_correct;
    [apply reads_lo|apply writes_lo|apply reads_hi|apply writes_hi|lia|]; assumption.
Qed.

Theorem C17_split_shr16_1 : forall cfg v pv st,
  split_cfg cfg -> split_name v -> layout cfg v = Some pv ->
  in_wport pv -> in_wport (pv + 1) -> bytes_ok st ->
  exists st', runs_to cfg (stemplate (PShr16_1 v)) st st' /\
    word (mem st') pv = word (mem st) pv / 2 /\
    only_changes [pv; pv + 1] st st' /\ keeps_xys st st'.
Proof.
  intros. apply lcs_shr16_correct;
    [apply reads_lo|apply writes_lo|apply reads_hi|apply writes_hi|lia|]; assumption.
Qed.

Theorem C17_split_copy16 : forall cfg dst x pd px st,
  split_cfg cfg -> split_name dst -> split_name x ->
  layout cfg dst = Some pd -> layout cfg x = Some px ->
  in_wport pd -> in_wport (pd + 1) -> in_wport px -> in_wport (px + 1) ->
  pd <> px + 1 ->
  exists st', runs_to cfg (stemplate (PCopy16 dst x)) st st' /\
    mget (mem st') pd = mget (mem st) px /\ mget (mem st') (pd + 1) = mget (mem st) (px + 1) /\
    word (mem st') pd = word (mem st) px /\
    only_changes [pd; pd + 1] st st' /\ keeps_xys st st'.
Proof.
  intros. apply (copy2_gen cfg (Cell px) pd (Cell (px + 1)) (pd + 1));
    [apply reads_lo|apply writes_lo|apply reads_hi|apply writes_hi|cbn; lia|lia]; assumption.
Qed.

Theorem C17_split_store_idx : forall cfg arr r x pa px n st,
  split_cfg cfg -> split_name arr -> split_name x ->
  layout cfg arr = Some pa -> layout cfg x = Some px ->
  in_wport pa -> pa + n <= 4224 -> 0 <= rval r st < n -> ordinary px ->
  exists st', runs_to cfg (stemplate (PStoreIdx arr r x)) st st' /\
    mget (mem st') (pa + rval r st) = mget (mem st) px /\
    only_changes [pa + rval r st] st st' /\ keeps_xys st st'.
Proof. intros. apply (copy_gen _ (Cell px)); [apply reads_ord|eapply writes_idx]; eassumption. Qed.

Theorem C17_split_load_idx : forall cfg dst arr r pd pa n st,
  split_cfg cfg -> split_name dst -> split_name arr ->
  layout cfg dst = Some pd -> layout cfg arr = Some pa ->
  ordinary pd -> in_wport pa -> pa + n <= 4224 -> 0 <= rval r st < n ->
  exists st', runs_to cfg (stemplate (PLoadIdx dst arr r)) st st' /\
    mget (mem st') pd = mget (mem st) (pa + rval r st) /\
    only_changes [pd] st st' /\ keeps_xys st st'.
Proof.
  intros. apply (copy_gen _ (Cell (pa + rval r st))); [eapply reads_idx|apply writes_ord]; eassumption.
Qed.

Theorem C17_split_inc_idx : forall cfg arr r pa n st,
  split_cfg cfg -> split_name arr -> layout cfg arr = Some pa ->
  in_wport pa -> pa + n <= 4224 -> 0 <= rval r st < n ->
  exists st', runs_to cfg (stemplate (PIncIdx arr r)) st st' /\
    mget (mem st') (pa + rval r st) = (mget (mem st) (pa + rval r st) + 1) mod 256 /\
    only_changes [pa + rval r st] st st' /\ keeps_xys st st'.
Proof.
  intros. apply (bin8_gen ADC eq_refl _ (Cell (pa + rval r st)) (Lit 1));
    [eapply reads_idx|apply imm_r; lia|eapply writes_idx]; eassumption.
Qed.

Theorem C17_split_dec_idx : forall cfg arr r pa n st,
  split_cfg cfg -> split_name arr -> layout cfg arr = Some pa ->
  in_wport pa -> pa + n <= 4224 -> 0 <= rval r st < n ->
  exists st', runs_to cfg (stemplate (PDecIdx arr r)) st st' /\
    mget (mem st') (pa + rval r st) = (mget (mem st) (pa + rval r st) - 1) mod 256 /\
    only_changes [pa + rval r st] st st' /\ keeps_xys st st'.
Proof.
  intros. apply (bin8_gen SBC eq_refl _ (Cell (pa + rval r st)) (Lit 1));
    [eapply reads_idx|apply imm_r; lia|eapply writes_idx]; eassumption.
Qed.

Theorem C17_split_addassign_idx : forall cfg arr r x pa px n st,
  split_cfg cfg -> split_name arr -> split_name x ->
  layout cfg arr = Some pa -> layout cfg x = Some px ->
  in_wport pa -> pa + n <= 4224 -> 0 <= rval r st < n -> ordinary px ->
  exists st', runs_to cfg (stemplate (PAddAssignIdx arr r x)) st st' /\
    mget (mem st') (pa + rval r st)
    = (mget (mem st) (pa + rval r st) + mget (mem st) px) mod 256 /\
    only_changes [pa + rval r st] st st' /\ keeps_xys st st'.
Proof.
  intros. apply (bin8_gen ADC eq_refl _ (Cell (pa + rval r st)) (Cell px));
    [eapply reads_idx|apply reads_ord|eapply writes_idx]; eassumption.
Qed.

Theorem C17_split_copy_elem : forall cfg arr i j pa st,
  split_cfg cfg -> split_name arr -> layout cfg arr = Some pa ->
  0 <= i -> 0 <= j -> in_wport (pa + i) -> in_wport (pa + j) ->
  exists st', runs_to cfg (stemplate (PCopyElem arr i j)) st st' /\
    mget (mem st') (pa + i) = mget (mem st) (pa + j) /\
    only_changes [pa + i] st st' /\ keeps_xys st st'.
Proof.
  intros. apply (copy_gen _ (Cell (pa + j))); [apply reads_split|apply writes_split]; assumption.
Qed.

Theorem C17_split_rmw_faults : forall cfg m v pv j s,
  split_cfg cfg -> is_rmw_m m = true -> layout cfg v = Some pv -> in_wport (pv + j) ->
  exec cfg m (OMem v j IxNone) s = XFault "read-modify-write on split-port memory" /\
  exec cfg m (OMem v (128 + j) IxNone) s = XFault "read-modify-write on split-port memory".
Proof. exact rmw_split_faults. Qed.

Theorem C17_split_inc_faults : forall cfg v pv s,
  split_cfg cfg -> layout cfg v = Some pv -> in_wport pv ->
  exec cfg INC (OMem v 0 IxNone) s = XFault "read-modify-write on split-port memory".
Proof. exact inc_split_faults. Qed.

Theorem C17_split_inc_run_faults : forall cfg v pv st prog inl_sem ext_call fname fuel,
  split_cfg cfg -> split_name v -> layout cfg v = Some pv -> in_wport pv ->
  exists sl, slines_of (template (SInc8 v)) = Some sl /\
    Sem.run cfg prog inl_sem ext_call (S fuel) fname sl 0 [] st [] 0%N
    = Faulted "read-modify-write on split-port memory" fname 0%nat st.
Proof. exact inc_split_run_faults. Qed.

Theorem C17_split_inc_never_runs : forall cfg v pv st,
  split_cfg cfg -> split_name v -> layout cfg v = Some pv -> in_wport pv ->
  ~ exists st', runs_to cfg (template (SInc8 v)) st st'.
Proof. exact inc_split_never_runs. Qed.

Theorem C17_split_read_is_cell : forall cfg s v pv, split_cfg cfg -> layout cfg v = Some pv ->
  in_wport pv ->
  exists c, exec cfg LDA (OMem v 128 IxNone) s
            = XOk (set_nz (set_a s (mget (mem s) pv)) (mget (mem s) pv)) c FNext.
Proof. exact split_read_is_cell. Qed.

Theorem C17_split_write_sets_cell : forall cfg s v pv, split_cfg cfg -> layout cfg v = Some pv ->
  in_wport pv ->
  exists c, exec cfg STA (OMem v 0 IxNone) s = XOk (set_mem s (mset (mem s) pv (rA s))) c FNext.
Proof. exact split_write_sets_cell. Qed.
