(** C11 — comments, layout and listing options never affect behaviour.  Statements; the general
    theorems are proved in Proofs/ScanFacts.v and Proofs/OptFacts.v. *)
From Coq Require Import String Ascii List Bool NArith.
From CC Require Import Base.Str Asm.Lines Model.Cpp Model.Optimize Model.OptSpec Proofs.OptFacts.
Import ListNotations.
Open Scope string_scope.

(** comment lines (the listing of --insert-code) are never changed or moved by the optimiser *)
Theorem C11_optimize_keeps_comments : forall (c : code) (k : nat) (t : string),
  nth_error c k = Some (Cmt t) -> nth_error (fst (optimize c)) k = Some (Cmt t).
Proof. intros c k t H. apply optimize_noninstr_fixed; [exact H | reflexivity]. Qed.

(** comments of several shapes, a splice and CR-LF around the same tokens *)
Theorem C11_example_layout :
  match run_cpp [] "m.c" [] ["char /* c ""q"" */ a; // tail /* x" ++ nl; "char \" ++ nl; "b; /* open" ++ nl; "still */ char c;" ++ cr ++ nl] with
  | POk p => p_out p = "char  a; " ++ nl ++ "char b; " ++ nl ++ " char c;" ++ cr ++ nl
  | PErr _ => False
  end.
Proof. vm_compute. reflexivity. Qed.

(** the repaired defect: a // inside a block comment cuts nothing; the comment is removed and the
    declaration after it survives *)
Theorem C11_block_comment_slashes_fixed :
  scan_line false ("/* see http://x.org */ char a;" ++ nl) (mkScan false 0 [])
  = ScanOk (" char a;" ++ nl) true (mkScan false 0 []).
Proof. vm_compute. reflexivity. Qed.

From CC Require Import Model.ScanSpec Proofs.ScanFacts.

(** a // comment runs to the end of its line whatever it contains *)
Theorem C11_line_comment_dropped : forall asm pre cmt st,
  sc_in_comment st = false -> no_markers pre -> pre <> "" ->
  forall no_trailing_slash : ends_with "/" pre = false,
  scan_line asm (pre ++ "//" ++ cmt) st = ScanOk pre true st.
Proof. exact line_comment_dropped. Qed.

(** a block comment ends at its first */ and is removed, whatever it contains (// included) *)
Theorem C11_block_comment_removed : forall asm pre body post st,
  sc_in_comment st = false -> no_markers pre ->
  forall no_trailing_slash : ends_with "/" pre = false,
  contains "*/" body = false ->
  contains """" post = false -> contains "//" post = false -> contains "/*" post = false ->
  post <> "" -> post <> nl ->
  scan_line asm (pre ++ "/*" ++ body ++ "*/" ++ post) st = ScanOk (pre ++ post) true st.
Proof. exact scan_line_block_comment. Qed.

(** ... also when a // comment follows it on the line *)
Theorem C11_block_then_line_comment : forall asm pre body mid cmt st,
  sc_in_comment st = false -> no_markers pre ->
  forall no_trailing_slash : ends_with "/" pre = false,
  contains "*/" body = false ->
  contains """" mid = false -> contains "//" mid = false -> contains "/*" mid = false ->
  forall mid_no_trailing_slash : ends_with "/" mid = false,
  mid <> "" ->
  scan_line asm (pre ++ "/*" ++ body ++ "*/" ++ mid ++ "//" ++ cmt) st = ScanOk (pre ++ mid) true st.
Proof. exact scan_line_block_then_line_comment. Qed.

(** a comment spanning lines: opened on one line ... *)
Theorem C11_comment_open : forall asm a c st,
  sc_in_comment st = false -> no_markers a ->
  forall no_trailing_slash : ends_with "/" a = false,
  contains "*/" c = false ->
  scan_line asm (a ++ "/*" ++ c) st
  = ScanOk a (negb (String.eqb a "")) (mkScan true (sc_next_lit st) (sc_lits st)).
Proof. exact comment_spans_lines_open. Qed.

(** ... lines inside it vanish ... *)
Theorem C11_comment_inside : forall asm c st,
  sc_in_comment st = true -> contains "*/" c = false -> scan_line asm c st = ScanOk "" false st.
Proof. exact comment_line_inside. Qed.

(** ... and it is closed at the first */ of a later line *)
Theorem C11_comment_close : forall asm c d st,
  sc_in_comment st = true -> contains "*/" c = false ->
  contains """" d = false -> contains "//" d = false -> contains "/*" d = false ->
  d <> "" -> d <> nl ->
  scan_line asm (c ++ "*/" ++ d) st = ScanOk d true (mkScan false (sc_next_lit st) (sc_lits st)).
Proof. exact comment_spans_lines_close. Qed.

(** backslash-newline joins physical lines *)
Theorem C11_splice_joins : forall fuel a l rest,
  forall joined_ends_plain : ends_with ("\" ++ nl) (a ++ l) = false,
  forall joined_ends_plain_crlf : ends_with ("\" ++ cr ++ nl) (a ++ l) = false,
  splice (S (S fuel)) (a ++ "\" ++ nl) (l :: rest) 0%N = (a ++ l, 1%N, rest).
Proof. exact splice_joins. Qed.

(** a TAB after the directive word is as good as a blank (repaired defect: "#ifdef<TAB>FOO" was
    the word "#ifdef<TAB>FOO" without argument) *)
Theorem C11_directive_parts_blank_or_tab : forall w c z,
  split_blank w = None -> is_blank_or_tab c = true ->
  contains "//" (w ++ String c z) = false ->
  directive_parts (w ++ String c z) = (w, if String.eqb (trim z) "" then None else Some (trim z)).
Proof. exact directive_parts_blank_or_tab. Qed.

Theorem C11_directive_parts_tab_like_blank : forall w z,
  split_blank w = None ->
  contains "//" (w ++ TAB ++ z) = false -> contains "//" (w ++ " " ++ z) = false ->
  directive_parts (w ++ TAB ++ z) = directive_parts (w ++ " " ++ z).
Proof. exact directive_parts_tab_like_blank. Qed.

Example C11_ifdef_tab_example :
  match run_cpp [] "m.c" [("FOO", "1")] ["#ifdef" ++ TAB ++ "FOO" ++ nl; "x" ++ nl; "#else" ++ nl; "y" ++ nl; "#endif" ++ nl] with
  | POk p => p_out p = "x" ++ nl
  | PErr _ => False
  end
  /\ run_cpp [] "m.c" [] ["#ifdef" ++ TAB ++ "FOO" ++ nl; "x" ++ nl; "#else" ++ nl; "y" ++ nl; "#endif" ++ nl]
     = run_cpp [] "m.c" [] ["#ifdef FOO" ++ nl; "x" ++ nl; "#else" ++ nl; "y" ++ nl; "#endif" ++ nl].
Proof. vm_compute. split; reflexivity. Qed.

(** an #include line keeps its quotes whatever white space precedes the directive (repaired
    defect: with leading blanks the file name was taken for a string literal) *)
Theorem C11_include_line_not_scanned : forall asm l st,
  sc_in_comment st = false ->
  starts_with "#include" (trim_start l) = true ->
  contains "//" l = false -> contains "/*" l = false ->
  scan_line asm l st = ScanOk l true st.
Proof. exact include_line_not_scanned. Qed.

Example C11_include_leading_blanks_example :
  match run_cpp [("f.h", ["int x;" ++ nl])] "m.c" [] ["   #include ""f.h""" ++ nl; "int y;" ++ nl] with
  | POk p => p_out p = "int x;" ++ nl ++ "int y;" ++ nl /\ c_scan (p_ctx p) = mkScan false 0 []
  | PErr _ => False
  end.
Proof. vm_compute. split; reflexivity. Qed.

(** blanks between '#' and the directive name do not matter (repaired defect: "# define N 1" was
    an unknown directive).  On the function that handles one scanned line: *)
Theorem C11_directive_blank_after_hash : forall rec fs fname inc p line buf b1 b2 rest ins sc,
  trim_start b1 = "" -> trim_start b2 = "" -> b2 <> "" -> trim_start rest = rest ->
  line_body rec fs fname inc p line buf (b1 ++ "#" ++ b2 ++ rest) ins sc
  = line_body rec fs fname inc p line buf ("#" ++ rest) ins sc.
Proof. exact directive_blank_after_hash. Qed.

(** the normalisation itself: at least one blank after the '#' / none / no '#' at all *)
Theorem C11_hash_blanks_removes : forall b1 b2 rest,
  trim_start b1 = "" -> trim_start b2 = "" -> b2 <> "" -> trim_start rest = rest ->
  hash_blanks (b1 ++ "#" ++ b2 ++ rest) = "#" ++ rest.
Proof. exact hash_blanks_removes. Qed.

Theorem C11_hash_blanks_keeps : forall b1 rest,
  trim_start b1 = "" -> trim_start rest = rest ->
  hash_blanks (b1 ++ "#" ++ rest) = b1 ++ "#" ++ rest.
Proof. exact hash_blanks_keeps. Qed.

Theorem C11_hash_blanks_other : forall out,
  starts_with "#" (trim_start out) = false -> hash_blanks out = out.
Proof. exact hash_blanks_other. Qed.

Theorem C11_line_body_hash_blanks : forall rec fs fname inc p line buf out ins sc,
  line_body rec fs fname inc p line buf out ins sc
  = line_body rec fs fname inc p line buf (hash_blanks out) ins sc.
Proof. exact line_body_hash_blanks. Qed.

Example C11_define_blank_after_hash_example :
  run_cpp [] "m.c" [] ["# define N 1" ++ nl; "N" ++ nl]
  = run_cpp [] "m.c" [] ["#define N 1" ++ nl; "N" ++ nl]
  /\ match run_cpp [] "m.c" [] ["# define N 1" ++ nl; "N" ++ nl] with
     | POk p => p_out p = "1" ++ nl
     | PErr _ => False
     end.
Proof. vm_compute. split; reflexivity. Qed.

(** the name of a directive dispatched after macro replacement is '#' and the letters that
    follow it; the argument is the rest (repaired defect: "#if!FOO" was the unknown directive
    "#if!FOO") *)
Theorem C11_directive_name_arg_letters : forall h w rest,
  take_alpha w = (w, "") -> fst (take_alpha rest) = "" ->
  contains "//" (String h (w ++ rest)) = false ->
  directive_name_arg (String h (w ++ rest))
  = (String h w, if String.eqb (trim rest) "" then None else Some (trim rest)).
Proof. exact directive_name_arg_letters. Qed.

Example C11_directive_name_arg_examples :
  directive_name_arg "#if!FOO" = ("#if", Some "!FOO")
  /\ directive_name_arg "#if(A) // c" = ("#if", Some "(A)")
  /\ directive_name_arg "#include""f.h""" = ("#include", Some """f.h""").
Proof. vm_compute. repeat split. Qed.

(** an #include line keeps its quotes whatever white space surrounds the '#' *)
Theorem C11_include_line_not_scanned_gen : forall asm l st,
  sc_in_comment st = false ->
  is_include_line l = true ->
  contains "//" l = false -> contains "/*" l = false ->
  scan_line asm l st = ScanOk l true st.
Proof. exact include_line_not_scanned_gen. Qed.

Example C11_include_blank_after_hash_example :
  match run_cpp [("f.h", ["int x;" ++ nl])] "m.c" [] ["  #  include ""f.h""" ++ nl; "int y;" ++ nl] with
  | POk p => p_out p = "int x;" ++ nl ++ "int y;" ++ nl /\ c_scan (p_ctx p) = mkScan false 0 []
  | PErr _ => False
  end.
Proof. vm_compute. split; reflexivity. Qed.
