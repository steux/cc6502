(** C01 — emitted 6502 code computes what the C source says: TRUTH VALUES and CONDITIONAL
    EXPRESSIONS stored into 16-bit objects (the forms the generator was repaired for: before,
    [short s; s = (x == 2);] stored 0x0101 and [s = c ? t : u] stored the low byte twice).
    The exact -O0 output of the compiler for twelve statements over
    [unsigned char a, b, c; unsigned short s, t, u;] (Model/GenTruth.v, [tlisting_NN], compared with
    the real compiler by tools/props) is run on the executable 6502 semantics: for ALL byte-valued
    states, all addresses (16-bit objects: cells p, p+1), every label number, [Sem.run] halts
    normally ([halts_to]), the destination holds the C value as a 16-bit number, every other cell
    and X, Y, S are unchanged.  The general theorems are proved in
    Proofs/GenTruthFacts.v; the closed forms of the listings are derived from them here. *)
From Coq Require Import String List Bool NArith ZArith Lia.
From CC Require Import Base.Str Asm.Lines M6502.Isa Asm.Operand M6502.Sem Model.OptSem
  Model.GenTemplates Proofs.GenTemplatesFacts Proofs.GenCmp16Facts Model.GenLoops
  Proofs.GenLoopsFacts Model.GenTables Model.GenIf Proofs.GenIfFacts Model.GenCtl Proofs.GenCtlFacts
  Model.GenTruth Proofs.GenTruthFacts.
Import ListNotations.
Open Scope Z_scope.

(** the truth value of a condition in A: 1 if it holds, else 0; memory, X, Y, S untouched *)
Theorem C01_truth_tpl :
  forall (cfg : config) (e : bexp) (n : N) (st : mstate),
       ports cfg = [] ->
       bexp_wf cfg e ->
       bytes_ok st ->
       exists st' : mstate,
         halts_to cfg (truth_tpl e n) st st' /\
         rA st' = b2z (bexp_holds cfg e st) /\ same_mxys st st' /\ bytes_ok st'.
Proof. exact truth_tpl_correct. Qed.

(** into a 16-bit object: low byte 0 / 1, HIGH BYTE 0 (the statement the code emitted before the
    repair violated: [C01_truth_store16_old_refuted]) *)
Theorem C01_truth_store16 :
  forall (cfg : config) (dst : string) (e : bexp) (n : N) (pd : Z) (st : mstate),
       ports cfg = [] ->
       bexp_wf cfg e ->
       var_name dst ->
       layout cfg dst = Some pd ->
       0 <= pd ->
       pd + 1 < 65536 ->
       bytes_ok st ->
       exists st' : mstate,
         halts_to cfg (store16_truth dst e n) st st' /\
         word (mem st') pd = b2z (bexp_holds cfg e st) /\
         mget (mem st') pd = b2z (bexp_holds cfg e st) /\
         mget (mem st') (pd + 1) = 0 /\ only_changes [pd; pd + 1] st st' /\ keeps_xys st st'.
Proof. exact store16_truth_correct. Qed.

(** into an 8-bit object; [e + k]; [x16 + e] *)
Theorem C01_truth_store8 :
  forall (cfg : config) (dst : string) (e : bexp) (n : N) (pd : Z) (st : mstate),
       ports cfg = [] ->
       bexp_wf cfg e ->
       var_name dst ->
       layout cfg dst = Some pd ->
       0 <= pd < 65536 ->
       bytes_ok st ->
       exists st' : mstate,
         halts_to cfg (store8_truth dst e n) st st' /\
         mget (mem st') pd = b2z (bexp_holds cfg e st) /\
         only_changes [pd] st st' /\ keeps_xys st st'.
Proof. exact store8_truth_correct. Qed.

Theorem C01_truth_store16_plus :
  forall (cfg : config) (dst : string) (e : bexp) (k : Z) (n : N) (pd : Z) (st : mstate),
       ports cfg = [] ->
       bexp_wf cfg e ->
       var_name dst ->
       layout cfg dst = Some pd ->
       0 <= pd ->
       pd + 1 < 65536 ->
       0 <= k < 256 ->
       bytes_ok st ->
       exists st' : mstate,
         halts_to cfg (store16_truth_plus dst e k n) st st' /\
         word (mem st') pd = (b2z (bexp_holds cfg e st) + k) mod 256 /\
         only_changes [pd; pd + 1] st st' /\ keeps_xys st st'.
Proof. exact store16_truth_plus_correct. Qed.

Theorem C01_truth_add16 :
  forall (cfg : config) (dst x : string) (e : bexp) (n : N) (pd px : Z) (st : mstate),
       ports cfg = [] ->
       bexp_wf cfg e ->
       var_name dst ->
       var_name x ->
       layout cfg dst = Some pd ->
       layout cfg x = Some px ->
       0 <= pd ->
       pd + 1 < 65536 ->
       0 <= px ->
       px + 1 < 65536 ->
       pd <> px + 1 ->
       bytes_ok st ->
       exists st' : mstate,
         halts_to cfg (add16_truth dst x e n) st st' /\
         word (mem st') pd = (word (mem st) px + b2z (bexp_holds cfg e st)) mod 65536 /\
         only_changes [pd; pd + 1] st st' /\ keeps_xys st st'.
Proof. exact add16_truth_correct. Qed.

(** [dst16 = c ? x : y]: both bytes; the condition does not read the low cell of [dst], the high
    cell of a variable alternative is not the low cell of [dst] *)
Theorem C01_truth_tern16 :
  forall (cfg : config) (dst : string) (c : tcond) (x y : opnd16)
         (le1 ld1 h1 le2 ld2 h2 : string) (pd : Z) (st : mstate),
       ports cfg = [] ->
       tcond_wf cfg c ->
       opnd_wf cfg x ->
       opnd_wf cfg y ->
       var_name dst ->
       layout cfg dst = Some pd ->
       0 <= pd ->
       pd + 1 < 65536 ->
       NoDup [le1; ld1; h1; le2; ld2; h2] ->
       (forall l : string, In l [le1; ld1; h1; le2; ld2; h2] -> l <> "") ->
       ~ In pd (tcond_reads cfg c) ->
       ~ In pd (opnd_hi_cell cfg x) ->
       ~ In pd (opnd_hi_cell cfg y) ->
       bytes_ok st ->
       exists st' : mstate,
         halts_to cfg (tern16_tpl_at dst c x y le1 ld1 h1 le2 ld2 h2) st st' /\
         word (mem st') pd = (if tcond_holds cfg c st then val16 cfg x st else val16 cfg y st) /\
         only_changes [pd; pd + 1] st st' /\ keeps_xys st st'.
Proof. exact tern16_correct. Qed.

(** with the compiler's labels, any number *)
Theorem C01_truth_tern16_n :
  forall (cfg : config) (dst : string) (c : tcond) (x y : opnd16)
         (n : N) (pd : Z) (st : mstate),
       ports cfg = [] ->
       tcond_wf cfg c ->
       opnd_wf cfg x ->
       opnd_wf cfg y ->
       var_name dst ->
       layout cfg dst = Some pd ->
       0 <= pd ->
       pd + 1 < 65536 ->
       ~ In pd (tcond_reads cfg c) ->
       ~ In pd (opnd_hi_cell cfg x) ->
       ~ In pd (opnd_hi_cell cfg y) ->
       bytes_ok st ->
       exists st' : mstate,
         halts_to cfg (tern16_tpl dst c x y n) st st' /\
         word (mem st') pd = (if tcond_holds cfg c st then val16 cfg x st else val16 cfg y st) /\
         only_changes [pd; pd + 1] st st' /\ keeps_xys st st'.
Proof.
  intros cfg dst c x y n pd st Hp Hc Hx Hy Vd Ld Rd Rd' Ac Ax Ay Hb. unfold tern16_tpl.
  apply tern16_correct; try assumption; [apply tern_labels_nodup|apply tern_labels_ne].
Qed.

(** the twelve listings, closed forms.  s = (a == b);  s = (a < b); *)
Theorem C01_truth_store16_cmp :
  forall (o : relop) (cfg : config) (a b s : string) (n : N) (pa pb ps : Z) (st : mstate),
       ports cfg = [] ->
       var_name a ->
       var_name b ->
       var_name s ->
       layout cfg a = Some pa ->
       layout cfg b = Some pb ->
       layout cfg s = Some ps ->
       0 <= pa < 65536 ->
       0 <= pb < 65536 ->
       0 <= ps ->
       ps + 1 < 65536 ->
       bytes_ok st ->
       exists st' : mstate,
         halts_to cfg (store16_truth s (BCond (CVar o a b)) n) st st' /\
         word (mem st') ps = (if rel_holds o (mget (mem st) pa) (mget (mem st) pb) then 1 else 0) /\
         mget (mem st') (ps + 1) = 0 /\ only_changes [ps; ps + 1] st st' /\ keeps_xys st st'.
Proof.
  intros o cfg a b s n pa pb ps st Hp Va Vb Vs La Lb Ls Ra Rb Rs Rs' Hb.
  destruct (store16_truth_correct cfg s (BCond (CVar o a b)) n ps st Hp
              (conj (var_at_intro cfg a pa Va La Ra) (var_at_intro cfg b pb Vb Lb Rb))
              Vs Ls Rs Rs' Hb) as (st' & Hr & Hw & _ & Hh & Hf).
  exists st'. split; [exact Hr|]. cbn [bexp_holds] in Hw.
  rewrite (cond_holds_var cfg o a b pa pb st La Lb) in Hw.
  split; [exact Hw|]. split; [exact Hh|exact Hf].
Qed.

(** s = (a != 3); *)
Theorem C01_truth_store16_cmpk :
  forall (o : relop) (cfg : config) (a : string) (k : Z) (s : string)
         (n : N) (pa ps : Z) (st : mstate),
       ports cfg = [] ->
       var_name a ->
       var_name s ->
       layout cfg a = Some pa ->
       layout cfg s = Some ps ->
       0 <= pa < 65536 ->
       0 <= k < 256 ->
       0 <= ps ->
       ps + 1 < 65536 ->
       bytes_ok st ->
       exists st' : mstate,
         halts_to cfg (store16_truth s (BCond (CConst o a k)) n) st st' /\
         word (mem st') ps = (if rel_holds o (mget (mem st) pa) k then 1 else 0) /\
         mget (mem st') (ps + 1) = 0 /\ only_changes [ps; ps + 1] st st' /\ keeps_xys st st'.
Proof.
  intros o cfg a k s n pa ps st Hp Va Vs La Ls Ra Rk Rs Rs' Hb.
  destruct (store16_truth_correct cfg s (BCond (CConst o a k)) n ps st Hp
              (conj (var_at_intro cfg a pa Va La Ra) Rk) Vs Ls Rs Rs' Hb)
    as (st' & Hr & Hw & _ & Hh & Hf).
  exists st'. split; [exact Hr|]. cbn [bexp_holds] in Hw.
  rewrite (cond_holds_const cfg o a k pa st La) in Hw.
  split; [exact Hw|]. split; [exact Hh|exact Hf].
Qed.

(** s = a && b; *)
Theorem C01_truth_store16_and :
  forall (cfg : config) (a b s : string) (n : N) (pa pb ps : Z) (st : mstate),
       ports cfg = [] ->
       var_name a ->
       var_name b ->
       var_name s ->
       layout cfg a = Some pa ->
       layout cfg b = Some pb ->
       layout cfg s = Some ps ->
       0 <= pa < 65536 ->
       0 <= pb < 65536 ->
       0 <= ps ->
       ps + 1 < 65536 ->
       bytes_ok st ->
       exists st' : mstate,
         halts_to cfg (store16_truth s (BAnd a b) n) st st' /\
         word (mem st') ps =
         (if negb (mget (mem st) pa =? 0) && negb (mget (mem st) pb =? 0) then 1 else 0) /\
         mget (mem st') (ps + 1) = 0 /\ only_changes [ps; ps + 1] st st' /\ keeps_xys st st'.
Proof.
  intros cfg a b s n pa pb ps st Hp Va Vb Vs La Lb Ls Ra Rb Rs Rs' Hb.
  destruct (store16_truth_correct cfg s (BAnd a b) n ps st Hp
              (conj (var_at_intro cfg a pa Va La Ra) (var_at_intro cfg b pb Vb Lb Rb))
              Vs Ls Rs Rs' Hb) as (st' & Hr & Hw & _ & Hh & Hf).
  exists st'. split; [exact Hr|]. cbn [bexp_holds] in Hw.
  rewrite (var_val_at cfg a pa st La), (var_val_at cfg b pb st Lb) in Hw.
  split; [exact Hw|]. split; [exact Hh|exact Hf].
Qed.

(** s = a || b; *)
Theorem C01_truth_store16_or :
  forall (cfg : config) (a b s : string) (n : N) (pa pb ps : Z) (st : mstate),
       ports cfg = [] ->
       var_name a ->
       var_name b ->
       var_name s ->
       layout cfg a = Some pa ->
       layout cfg b = Some pb ->
       layout cfg s = Some ps ->
       0 <= pa < 65536 ->
       0 <= pb < 65536 ->
       0 <= ps ->
       ps + 1 < 65536 ->
       bytes_ok st ->
       exists st' : mstate,
         halts_to cfg (store16_truth s (BOr a b) n) st st' /\
         word (mem st') ps =
         (if negb (mget (mem st) pa =? 0) || negb (mget (mem st) pb =? 0) then 1 else 0) /\
         mget (mem st') (ps + 1) = 0 /\ only_changes [ps; ps + 1] st st' /\ keeps_xys st st'.
Proof.
  intros cfg a b s n pa pb ps st Hp Va Vb Vs La Lb Ls Ra Rb Rs Rs' Hb.
  destruct (store16_truth_correct cfg s (BOr a b) n ps st Hp
              (conj (var_at_intro cfg a pa Va La Ra) (var_at_intro cfg b pb Vb Lb Rb))
              Vs Ls Rs Rs' Hb) as (st' & Hr & Hw & _ & Hh & Hf).
  exists st'. split; [exact Hr|]. cbn [bexp_holds] in Hw.
  rewrite (var_val_at cfg a pa st La), (var_val_at cfg b pb st Lb) in Hw.
  split; [exact Hw|]. split; [exact Hh|exact Hf].
Qed.

(** s = !a; *)
Theorem C01_truth_store16_not :
  forall (cfg : config) (a s : string) (n : N) (pa ps : Z) (st : mstate),
       ports cfg = [] ->
       var_name a ->
       var_name s ->
       layout cfg a = Some pa ->
       layout cfg s = Some ps ->
       0 <= pa < 65536 ->
       0 <= ps ->
       ps + 1 < 65536 ->
       bytes_ok st ->
       exists st' : mstate,
         halts_to cfg (store16_truth s (BNot a) n) st st' /\
         word (mem st') ps = (if mget (mem st) pa =? 0 then 1 else 0) /\
         mget (mem st') (ps + 1) = 0 /\ only_changes [ps; ps + 1] st st' /\ keeps_xys st st'.
Proof.
  intros cfg a s n pa ps st Hp Va Vs La Ls Ra Rs Rs' Hb.
  destruct (store16_truth_correct cfg s (BNot a) n ps st Hp (var_at_intro cfg a pa Va La Ra)
              Vs Ls Rs Rs' Hb) as (st' & Hr & Hw & _ & Hh & Hf).
  exists st'. split; [exact Hr|]. cbn [bexp_holds] in Hw.
  rewrite (var_val_at cfg a pa st La) in Hw.
  split; [exact Hw|]. split; [exact Hh|exact Hf].
Qed.

(** c = (a == b); *)
Theorem C01_truth_store8_cmp :
  forall (o : relop) (cfg : config) (a b c : string) (n : N) (pa pb pc : Z) (st : mstate),
       ports cfg = [] ->
       var_name a ->
       var_name b ->
       var_name c ->
       layout cfg a = Some pa ->
       layout cfg b = Some pb ->
       layout cfg c = Some pc ->
       0 <= pa < 65536 ->
       0 <= pb < 65536 ->
       0 <= pc < 65536 ->
       bytes_ok st ->
       exists st' : mstate,
         halts_to cfg (store8_truth c (BCond (CVar o a b)) n) st st' /\
         mget (mem st') pc = (if rel_holds o (mget (mem st) pa) (mget (mem st) pb) then 1 else 0) /\
         only_changes [pc] st st' /\ keeps_xys st st'.
Proof.
  intros o cfg a b c n pa pb pc st Hp Va Vb Vc La Lb Lc Ra Rb Rc Hb.
  destruct (store8_truth_correct cfg c (BCond (CVar o a b)) n pc st Hp
              (conj (var_at_intro cfg a pa Va La Ra) (var_at_intro cfg b pb Vb Lb Rb))
              Vc Lc Rc Hb) as (st' & Hr & Hw & Hf).
  exists st'. split; [exact Hr|]. cbn [bexp_holds] in Hw.
  rewrite (cond_holds_var cfg o a b pa pb st La Lb) in Hw. split; [exact Hw|exact Hf].
Qed.

(** s = c ? t : u; *)
Theorem C01_truth_tern16_vars :
  forall (cfg : config) (c t u s : string) (n : N) (pc pt pu ps : Z) (st : mstate),
       ports cfg = [] ->
       var_name c ->
       var_name t ->
       var_name u ->
       var_name s ->
       layout cfg c = Some pc ->
       layout cfg t = Some pt ->
       layout cfg u = Some pu ->
       layout cfg s = Some ps ->
       0 <= pc < 65536 ->
       0 <= pt ->
       pt + 1 < 65536 ->
       0 <= pu ->
       pu + 1 < 65536 ->
       0 <= ps ->
       ps + 1 < 65536 ->
       ps <> pc ->
       ps <> pt + 1 ->
       ps <> pu + 1 ->
       bytes_ok st ->
       exists st' : mstate,
         halts_to cfg (tern16_tpl s (TNz c) (OVar t) (OVar u) n) st st' /\
         word (mem st') ps = (if mget (mem st) pc =? 0 then word (mem st) pu else word (mem st) pt) /\
         only_changes [ps; ps + 1] st st' /\ keeps_xys st st'.
Proof.
  intros cfg c t u s n pc pt pu ps st Hp Vc Vt Vu Vs Lc Lt Lu Ls Rc Rt Rt' Ru Ru' Rs Rs'
    N1 N2 N3 Hb.
  destruct (C01_truth_tern16_n cfg s (TNz c) (OVar t) (OVar u) n ps st Hp
              (var_at_intro cfg c pc Vc Lc Rc)
              (conj Vt (ex_intro _ pt (conj Lt (conj Rt Rt'))))
              (conj Vu (ex_intro _ pu (conj Lu (conj Ru Ru')))) Vs Ls Rs Rs')
    as (st' & Hr & Hw & Hf); [| | |exact Hb|].
  - cbn [tcond_reads]. unfold addr_of. rewrite Lc. cbn [In]. lia.
  - cbn [opnd_hi_cell]. rewrite Lt. cbn [In]. lia.
  - cbn [opnd_hi_cell]. rewrite Lu. cbn [In]. lia.
  - exists st'. split; [exact Hr|]. split; [|exact Hf].
    rewrite Hw. cbn [tcond_holds val16]. rewrite (var_val_at cfg c pc st Lc), Lt, Lu.
    destruct (mget (mem st) pc =? 0); reflexivity.
Qed.

(** s = c ? 1000 : 300; *)
Theorem C01_truth_tern16_consts :
  forall (cfg : config) (c : string) (k1 k2 : Z) (s : string) (n : N)
         (pc ps : Z) (st : mstate),
       ports cfg = [] ->
       var_name c ->
       var_name s ->
       layout cfg c = Some pc ->
       layout cfg s = Some ps ->
       0 <= pc < 65536 ->
       0 <= k1 < 65536 ->
       0 <= k2 < 65536 ->
       0 <= ps ->
       ps + 1 < 65536 ->
       ps <> pc ->
       bytes_ok st ->
       exists st' : mstate,
         halts_to cfg (tern16_tpl s (TNz c) (OConst k1) (OConst k2) n) st st' /\
         word (mem st') ps = (if mget (mem st) pc =? 0 then k2 else k1) /\
         only_changes [ps; ps + 1] st st' /\ keeps_xys st st'.
Proof.
  intros cfg c k1 k2 s n pc ps st Hp Vc Vs Lc Ls Rc R1 R2 Rs Rs' N1 Hb.
  destruct (C01_truth_tern16_n cfg s (TNz c) (OConst k1) (OConst k2) n ps st Hp
              (var_at_intro cfg c pc Vc Lc Rc) R1 R2 Vs Ls Rs Rs')
    as (st' & Hr & Hw & Hf); [|intros []|intros []|exact Hb|].
  - cbn [tcond_reads]. unfold addr_of. rewrite Lc. cbn [In]. lia.
  - exists st'. split; [exact Hr|]. split; [|exact Hf].
    rewrite Hw. cbn [tcond_holds val16]. rewrite (var_val_at cfg c pc st Lc).
    destruct (mget (mem st) pc =? 0); reflexivity.
Qed.

(** s = (a < b) ? t : 1000; *)
Theorem C01_truth_tern16_cmp :
  forall (o : relop) (cfg : config) (a b t : string) (k : Z) (s : string)
         (n : N) (pa pb pt ps : Z) (st : mstate),
       ports cfg = [] ->
       var_name a ->
       var_name b ->
       var_name t ->
       var_name s ->
       layout cfg a = Some pa ->
       layout cfg b = Some pb ->
       layout cfg t = Some pt ->
       layout cfg s = Some ps ->
       0 <= pa < 65536 ->
       0 <= pb < 65536 ->
       0 <= pt ->
       pt + 1 < 65536 ->
       0 <= k < 65536 ->
       0 <= ps ->
       ps + 1 < 65536 ->
       ps <> pa ->
       ps <> pb ->
       ps <> pt + 1 ->
       bytes_ok st ->
       exists st' : mstate,
         halts_to cfg (tern16_tpl s (TCmp (CVar o a b)) (OVar t) (OConst k) n) st st' /\
         word (mem st') ps =
         (if rel_holds o (mget (mem st) pa) (mget (mem st) pb) then word (mem st) pt else k) /\
         only_changes [ps; ps + 1] st st' /\ keeps_xys st st'.
Proof.
  intros o cfg a b t k s n pa pb pt ps st Hp Va Vb Vt Vs La Lb Lt Ls Ra Rb Rt Rt' Rk Rs Rs'
    N1 N2 N3 Hb.
  destruct (C01_truth_tern16_n cfg s (TCmp (CVar o a b)) (OVar t) (OConst k) n ps st Hp
              (conj (var_at_intro cfg a pa Va La Ra) (var_at_intro cfg b pb Vb Lb Rb))
              (conj Vt (ex_intro _ pt (conj Lt (conj Rt Rt')))) Rk Vs Ls Rs Rs')
    as (st' & Hr & Hw & Hf); [| |intros []|exact Hb|].
  - cbn [tcond_reads]. unfold addr_of. rewrite La, Lb. cbn [app In]. lia.
  - cbn [opnd_hi_cell]. rewrite Lt. cbn [In]. lia.
  - exists st'. split; [exact Hr|]. split; [|exact Hf].
    rewrite Hw. cbn [tcond_holds val16]. rewrite (cond_holds_var cfg o a b pa pb st La Lb), Lt.
    reflexivity.
Qed.

(** s = (a == b) + 1; *)
Theorem C01_truth_store16_cmp_plus :
  forall (o : relop) (cfg : config) (a b : string) (k : Z) (s : string)
         (n : N) (pa pb ps : Z) (st : mstate),
       ports cfg = [] ->
       var_name a ->
       var_name b ->
       var_name s ->
       layout cfg a = Some pa ->
       layout cfg b = Some pb ->
       layout cfg s = Some ps ->
       0 <= pa < 65536 ->
       0 <= pb < 65536 ->
       0 <= ps ->
       ps + 1 < 65536 ->
       0 <= k < 255 ->
       bytes_ok st ->
       exists st' : mstate,
         halts_to cfg (store16_truth_plus s (BCond (CVar o a b)) k n) st st' /\
         word (mem st') ps =
         (if rel_holds o (mget (mem st) pa) (mget (mem st) pb) then 1 else 0) + k /\
         only_changes [ps; ps + 1] st st' /\ keeps_xys st st'.
Proof.
  intros o cfg a b k s n pa pb ps st Hp Va Vb Vs La Lb Ls Ra Rb Rs Rs' Rk Hb.
  destruct (store16_truth_plus_correct cfg s (BCond (CVar o a b)) k n ps st Hp
              (conj (var_at_intro cfg a pa Va La Ra) (var_at_intro cfg b pb Vb Lb Rb))
              Vs Ls Rs Rs' ltac:(lia) Hb) as (st' & Hr & Hw & Hf).
  exists st'. split; [exact Hr|]. cbn [bexp_holds] in Hw.
  rewrite (cond_holds_var cfg o a b pa pb st La Lb) in Hw. split; [|exact Hf].
  rewrite Hw. destruct (rel_holds o (mget (mem st) pa) (mget (mem st) pb)); cbn [b2z];
    rewrite Z.mod_small; lia.
Qed.

(** t = t + (a < b); *)
Theorem C01_truth_add16_cmp :
  forall (o : relop) (cfg : config) (a b t : string) (n : N) (pa pb pt : Z) (st : mstate),
       ports cfg = [] ->
       var_name a ->
       var_name b ->
       var_name t ->
       layout cfg a = Some pa ->
       layout cfg b = Some pb ->
       layout cfg t = Some pt ->
       0 <= pa < 65536 ->
       0 <= pb < 65536 ->
       0 <= pt ->
       pt + 1 < 65536 ->
       bytes_ok st ->
       exists st' : mstate,
         halts_to cfg (add16_truth t t (BCond (CVar o a b)) n) st st' /\
         word (mem st') pt =
         (word (mem st) pt + (if rel_holds o (mget (mem st) pa) (mget (mem st) pb) then 1 else 0))
         mod 65536 /\ only_changes [pt; pt + 1] st st' /\ keeps_xys st st'.
Proof.
  intros o cfg a b t n pa pb pt st Hp Va Vb Vt La Lb Lt Ra Rb Rt Rt' Hb.
  destruct (add16_truth_correct cfg t t (BCond (CVar o a b)) n pt pt st Hp
              (conj (var_at_intro cfg a pa Va La Ra) (var_at_intro cfg b pb Vb Lb Rb))
              Vt Vt Lt Lt Rt Rt' Rt Rt' ltac:(lia) Hb) as (st' & Hr & Hw & Hf).
  exists st'. split; [exact Hr|]. cbn [bexp_holds] in Hw.
  rewrite (cond_holds_var cfg o a b pa pb st La Lb) in Hw. split; [exact Hw|exact Hf].
Qed.

(** the sequences emitted before the repair, run on the semantics: 257 instead of 1 ... *)
Theorem C01_truth_store16_old_refuted :
  run_s (store16_truth_old "s" (BCond (CVar REq "a" "b")) 1) (st_truth 7 7 0 0 0) = Some 257 /\
       run_s (store16_truth "s" (BCond (CVar REq "a" "b")) 1) (st_truth 7 7 0 0 0) = Some 1.
Proof. exact store16_truth_old_refuted. Qed.

(** ... and 0x3434 instead of 0x1234 *)
Theorem C01_truth_tern16_old_refuted :
  run_s (tern16_old "s" (TNz "c") (OVar "t") (OVar "u") 1) (st_truth 0 0 1 52 18) = Some 13364 /\
       run_s (tern16_tpl "s" (TNz "c") (OVar "t") (OVar "u") 1) (st_truth 0 0 1 52 18) = Some 4660.
Proof. exact tern16_old_refuted. Qed.

