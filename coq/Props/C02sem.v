(** C02 — the semantic half: the optimiser's register knowledge and each of its rewrite rules are
    sound with respect to the executable 6502 semantics (M6502/Sem.v).  Proofs in Proofs/OptSemFacts.v
    and, for the simulation theorems, Proofs/OptSim*.v.  The extra hypotheses are the side conditions the proofs forced; each has a
    [..._refuted] example in Proofs/OptSemFacts.v showing it cannot be dropped.  A removed load
    either leaves the whole state as it was (the knowledge says which register N and Z describe),
    or rests on a look-ahead, and then the instruction(s) looked at behave the same whatever N and Z
    are ([C02_removal_dead]).

    GLOBAL statement, for straight-line code (end of this file; definitions in Model/OptSim.v,
    proofs in Proofs/OptSimFacts.v): executing [fst (optimize c)] gives the same final state as
    executing [c] -- registers, stack pointer, the four flags, memory
    ([C02_optimize_straight_sound]; on [Sem.run]: [C02_optimize_straight_run]).

    GLOBAL statement, for code with labels, conditional branches and JMP, loops included
    (definitions in Model/OptSimCF.v, proofs in Proofs/OptSimCFFacts.v): whenever the original
    halts, the optimised code halts in the same state ([C02_optimize_cf_sound]; on [Sem.run]:
    [C02_optimize_cf_run]) -- provided the known-compare rule (remove_both) does not fire
    ([rb_free]): that rule is unsound as it stands, the removed compare also sets the carry
    ([C02_cmp_rule_changes_c]).

    GLOBAL statement, for whole PROGRAMS with calls and returns (definitions in
    Model/OptSimCall.v, proofs in Proofs/OptSimCallFacts.v): every function optimised; whenever
    [Sem.run_function] of [main] halts on the original program it halts on the optimised one, in
    an equal state ([C02_optimize_program_run]; on the program semantics [phalts]:
    [C02_optimize_program_sound]); calls nest to any depth.  What is NOT proved: stack operations
    (PHA/PLA/PHP/PLP), RTI, inline assembly; the known-compare rule ([rb_free]); the converse
    direction (the optimised program halts only if the original does). *)
From Coq Require Import String Ascii List Bool NArith ZArith.
From CC Require Import Base.Str Asm.Lines M6502.Isa Asm.Operand M6502.Sem
     Model.Optimize Model.OptSem Model.OptSim Model.OptSimCF
     Model.CheckBranches Model.OptSimCall
     Proofs.OptSemFacts Proofs.OptSimFacts Proofs.OptSimCFFacts.
From CC Require Proofs.OptSimCallFacts.
From CC Require Proofs.GenTemplatesFacts Proofs.GenLoopsFacts.
Import ListNotations.

Theorem C02_transfer_sound : forall cfg k i ahead s s',
  ports cfg = [] -> bytes_ok s ->
  (i_mn i = PHA \/ i_mn i = PHP -> know_off_stack cfg k s) ->
  ind_legal i -> xfer_no_zp_y cfg k i ->
  know_sound cfg k s -> steps_to cfg i s s' ->
  snd (transfer k i ahead) = false ->
  know_sound cfg (fst (transfer k i ahead)) s'.
Proof. exact transfer_sound. Qed.

(** when [transfer] asks for the removal of the load, the knowledge it returns is sound for the
    state in which the load is not executed *)
Theorem C02_transfer_removed_sound : forall cfg k i ahead s,
  know_sound cfg k s -> snd (transfer k i ahead) = true ->
  know_sound cfg (fst (transfer k i ahead)) s.
Proof. exact transfer_removed_sound. Qed.

Theorem C02_redundant_load_sound : forall cfg k i s s',
  ports cfg = [] -> know_sound cfg k s -> steps_to cfg i s s' ->
  (i_mn i = LDA /\ k_acc k = Some (i_op i)) \/ (i_mn i = LDX /\ k_x k = Some (i_op i)) \/
  (i_mn i = LDY /\ k_y k = Some (i_op i)) ->
  eq_mod_nz s' s /\
  ((i_mn i = LDA /\ k_flags k = FA) \/ (i_mn i = LDX /\ k_flags k = FX) \/
   (i_mn i = LDY /\ k_flags k = FY) -> eq_state s' s).
Proof. exact redundant_load_sound. Qed.

Theorem C02_removal_sound : forall cfg k i ahead s s',
  ports cfg = [] -> know_sound cfg k s -> steps_to cfg i s s' ->
  snd (transfer k i ahead) = true ->
  eq_mod_nz s' s /\
  (eq_state s' s \/ (i_mn i = LDA /\ lda_lookahead ahead = true) \/
   ((i_mn i = LDX \/ i_mn i = LDY) /\ ldxy_lookahead ahead = true)).
Proof. exact removal_sound. Qed.

Theorem C02_defines_nz_dead : forall cfg m op s1 s2,
  defines_nz m = true -> eq_mod_nz s1 s2 ->
  outcome_eq (exec cfg m op s1) (exec cfg m op s2).
Proof. exact defines_nz_dead. Qed.

Theorem C02_store_keeps_eq_mod_nz : forall cfg m op s1 s2,
  is_store m -> eq_mod_nz s1 s2 ->
  outcome_eq_mod_nz (exec cfg m op s1) (exec cfg m op s2).
Proof. exact store_keeps_eq_mod_nz. Qed.

Theorem C02_store_then_defines_nz_dead : forall cfg m1 op1 m2 op2 s1 s2,
  is_store m1 -> defines_nz m2 = true -> eq_mod_nz s1 s2 ->
  outcome_eq (then_exec cfg (exec cfg m1 op1 s1) m2 op2) (then_exec cfg (exec cfg m1 op1 s2) m2 op2).
Proof. exact store_then_defines_nz_dead. Qed.

Theorem C02_ldxy_lookahead_dead : forall cfg ahead s1 s2,
  ldxy_lookahead ahead = true -> eq_mod_nz s1 s2 ->
  exists j, next_ins ahead = Some j /\ defines_nz (i_mn j) = true /\
            forall op, outcome_eq (exec cfg (i_mn j) op s1) (exec cfg (i_mn j) op s2).
Proof. exact ldxy_lookahead_dead. Qed.

Theorem C02_lda_lookahead_dead : forall cfg ahead s1 s2,
  lda_lookahead ahead = true -> eq_mod_nz s1 s2 ->
  exists j1 t, ahead = Ins j1 :: t /\
    ((i_mn j1 = CMP /\
      forall op, outcome_eq (exec cfg (i_mn j1) op s1) (exec cfg (i_mn j1) op s2)) \/
     (i_mn j1 = STA /\ exists j2, next_ins t = Some j2 /\ is_load (i_mn j2) = true /\
      forall op1 op2,
        outcome_eq (then_exec cfg (exec cfg (i_mn j1) op1 s1) (i_mn j2) op2)
                   (then_exec cfg (exec cfg (i_mn j1) op1 s2) (i_mn j2) op2))).
Proof. exact lda_lookahead_dead. Qed.

Theorem C02_removal_dead : forall cfg k i ahead s s',
  ports cfg = [] -> know_sound cfg k s -> steps_to cfg i s s' ->
  snd (transfer k i ahead) = true ->
  eq_mod_nz s' s /\
  (eq_state s' s \/
   (exists j, next_ins ahead = Some j /\ defines_nz (i_mn j) = true /\
      forall op, outcome_eq (exec cfg (i_mn j) op s') (exec cfg (i_mn j) op s)) \/
   (exists j1 j2 t, ahead = Ins j1 :: t /\ i_mn j1 = STA /\ next_ins t = Some j2 /\
      is_load (i_mn j2) = true /\
      forall op1 op2,
        outcome_eq (then_exec cfg (exec cfg (i_mn j1) op1 s') (i_mn j2) op2)
                   (then_exec cfg (exec cfg (i_mn j1) op1 s) (i_mn j2) op2))).
Proof. exact removal_dead. Qed.

(** the rule as it was before the fix (a repeated LDX removed whatever N and Z describe) is unsound *)
Theorem C02_ldx_removal_needs_flags :
  exists cfg k i s s',
    know_sound cfg k s /\ steps_to cfg i s s' /\ i_mn i = LDX /\ k_x k = Some (i_op i) /\
    ~ eq_state s' s.
Proof. exact ldx_removal_needs_flags. Qed.

Theorem C02_ldx_removal_changes_beq :
  exists cfg k i s s',
    know_sound cfg k s /\ k_flags k = FA /\ steps_to cfg i s s' /\ i_mn i = LDX /\
    k_x k = Some (i_op i) /\
    exec cfg BEQ (OLbl "l") s = XOk s 3%N (FGoto "l") /\
    exec cfg BEQ (OLbl "l") s' = XOk s' 2%N FNext /\
    snd (transfer k i [Ins (cx_ins BEQ "l")]) = false.
Proof. exact ldx_removal_changes_beq. Qed.

Theorem C02_rule_cmp_known : forall cfg k i1 i2 s op c s1,
  know_sound cfg k s -> bytes_ok s -> imm_text_injective cfg k i1 ->
  cmp_rule (k_acc k) CMP i1 i2 = true \/ cmp_rule (k_x k) CPX i1 i2 = true \/
  cmp_rule (k_y k) CPY i1 i2 = true ->
  parse_operand (i_mn i1) (i_op i1) = Some op -> exec cfg (i_mn i1) op s = XOk s1 c FNext ->
  branch_taken (i_mn i2) s1 = false /\ eq_mod_anzc s1 s.
Proof. exact rule_cmp_known. Qed.

Theorem C02_rule_ld_st : forall cfg i1 i2 s s1 s2,
  ports cfg = [] -> bytes_ok s ->
  (i_mn i1 = LDA /\ i_mn i2 = STA) \/ (i_mn i1 = LDX /\ i_mn i2 = STX) \/
  (i_mn i1 = LDY /\ i_mn i2 = STY) ->
  ind_legal i1 ->
  i_op i1 = i_op i2 -> steps_to cfg i1 s s1 -> steps_to cfg i2 s1 s2 -> eq_state s2 s1.
Proof. exact rule_ld_st. Qed.

Theorem C02_rule_sta_lda : forall cfg i1 i2 s s1 s2,
  ports cfg = [] -> i_mn i1 = STA -> i_mn i2 = LDA -> i_op i1 = i_op i2 ->
  ptr_not_hit cfg i1 s ->
  steps_to cfg i1 s s1 -> steps_to cfg i2 s1 s2 -> eq_mod_nz s2 s1.
Proof. exact rule_sta_lda. Qed.

(** as the optimiser applies them now (N/Z describe A): nothing changes at all *)
Theorem C02_rule_sta_lda_exact : forall cfg k i1 i2 s s1 s2,
  ports cfg = [] -> i_mn i1 = STA -> i_mn i2 = LDA -> i_op i1 = i_op i2 ->
  ptr_not_hit cfg i1 s ->
  know_sound cfg k s1 -> k_flags k = FA ->
  steps_to cfg i1 s s1 -> steps_to cfg i2 s1 s2 -> eq_state s2 s1.
Proof. exact rule_sta_lda_exact. Qed.

Theorem C02_rule_ora_zero_exact : forall cfg k i s s',
  bytes_ok s -> i_mn i = ORA -> i_op i = "#0"%string ->
  know_sound cfg k s -> k_flags k = FA ->
  steps_to cfg i s s' -> eq_state s' s.
Proof. exact rule_ora_zero_exact. Qed.

Theorem C02_rule_pla_pha : forall cfg i1 i2 s s1 s2,
  bytes_ok s -> i_mn i1 = PLA -> i_mn i2 = PHA ->
  steps_to cfg i1 s s1 -> steps_to cfg i2 s1 s2 -> eq_mod_anzc s2 s.
Proof. exact rule_pla_pha. Qed.

Definition C02_rule_transfer_pair := rule_transfer_pair.
Definition C02_rule_ora_zero := rule_ora_zero.
Definition C02_rule_swap_lda_carry := rule_swap_lda_carry.
Definition C02_rule_load_load := rule_load_load.

(** * The global simulation theorem on straight-line code *)

(** [exec_straight] (Model/OptSim.v) is [Sem.run] on straight-line code *)
Theorem C02_exec_straight_runs_to : forall cfg c s s',
  exec_straight cfg c s = Some s' -> GenTemplatesFacts.runs_to cfg c s s'.
Proof. exact exec_straight_runs_to. Qed.

Theorem C02_runs_to_exec_straight : forall cfg c s s',
  straight_ok cfg c = true -> GenTemplatesFacts.runs_to cfg c s s' -> exec_straight cfg c s = Some s'.
Proof. exact runs_to_exec_straight. Qed.

(** all rules: the optimised line list ends in the same state *)
Theorem C02_optimize_straight_sound : forall cfg c s s',
  ports cfg = [] -> bytes_ok s -> straight_ok cfg c = true ->
  exec_straight cfg c s = Some s' ->
  exists s'', exec_straight cfg (fst (optimize c)) s = Some s'' /\ eq_state s'' s'.
Proof. exact optimize_straight_sound. Qed.

(** the same on [Sem.run] *)
Theorem C02_optimize_straight_run : forall cfg c s s',
  ports cfg = [] -> bytes_ok s -> straight_ok cfg c = true ->
  GenTemplatesFacts.runs_to cfg c s s' ->
  exists s'', GenTemplatesFacts.runs_to cfg (fst (optimize c)) s s'' /\ eq_state s'' s'.
Proof. exact optimize_straight_run. Qed.

(** the invariant of the walk is preserved by [step] *)
Theorem C02_step_inv : forall cfg s0 sF, ports cfg = [] -> forall z,
  Inv cfg s0 sF z ->
  match step z with
  | Done c _ => exists sE, exec_straight cfg c s0 = Some sE /\ eq_state sE sF
  | Next z' => Inv cfg s0 sF z'
  end.
Proof. intros cfg s0 sF HP z. exact (step_inv cfg s0 sF HP z). Qed.

(** non-vacuity: a program on which [optimize] removes three instructions (one of them on the
    strength of the look-ahead) and swaps two *)
Theorem C02_optimize_straight_sound_example :
  ports sim_cfg = [] /\ bytes_ok sim_state /\ straight_ok sim_cfg sim_code = true /\
  exists s' s'', exec_straight sim_cfg sim_code sim_state = Some s' /\
                 exec_straight sim_cfg (fst (optimize sim_code)) sim_state = Some s'' /\
                 eq_state s'' s' /\ rA s' = 12%Z /\ rX s' = 2%Z /\ rY s' = 5%Z /\
                 mget (mem s') 128 = 12%Z.
Proof. exact optimize_straight_sound_example. Qed.

Theorem C02_sim_code_optimized :
  optimize sim_code =
  ([sim_ins CLC ""; sim_ins LDA "#3"; sim_ins ADC "w"; sim_ins STA "w"; Dummy;
    Dummy; sim_ins LDX "#2"; Cmt "y := t[x+1] + 1"; sim_ins LDY "t+1,X";
    Dummy; sim_ins INY ""], 3%N).
Proof. exact sim_code_optimized. Qed.

(** regression: the four programs on which the model, before the repairs of "STA o; LDA o",
    "ORA #0" and of the knowledge recorded with a look-ahead removal, changed the final Z flag *)
Theorem C02_sta_lda_fixed :
  nz_regression [sim_ins LDA "#0"; sim_ins LDX "#1"; sim_ins STA "w"; sim_ins LDA "w"] 0%N.
Proof. exact sta_lda_fixed. Qed.

Theorem C02_ora_zero_fixed :
  nz_regression [sim_ins LDA "#0"; sim_ins LDX "#1"; sim_ins ORA "#0"] 0%N.
Proof. exact ora_zero_fixed. Qed.

Theorem C02_lookahead_sta_fixed :
  nz_regression [sim_ins LDA "#0"; sim_ins LDX "#1"; sim_ins LDA "#0"; sim_ins STA "w";
                 sim_ins LDA "#0"] 1%N.
Proof. exact lookahead_sta_fixed. Qed.

Theorem C02_lookahead_ldy_fixed :
  nz_regression [sim_ins LDY "#5"; sim_ins LDA "#0"; sim_ins TAX ""; sim_ins LDY "#5";
                 sim_ins TXA ""; sim_ins LDY "#5"] 2%N.
Proof. exact lookahead_ldy_fixed. Qed.

(** the ",Y" clause of [straight_ok] cannot be dropped *)
Definition C02_zp_y_changes_a := zp_y_changes_a.

(** * The global simulation theorem on code with labels and branches *)

(** [halts] (Model/OptSimCF.v) is [Sem.run] *)
Theorem C02_halts_halts_to : forall cfg c sl s s',
  slines_of c = Some sl -> cf_ok cfg c = true -> halts cfg c s s' -> GenLoopsFacts.halts_to cfg c s s'.
Proof. intros cfg c sl s s' SL _. exact (halts_halts_to cfg c sl s s' SL). Qed.

Theorem C02_halts_to_halts : forall cfg c s s',
  cf_ok cfg c = true -> GenLoopsFacts.halts_to cfg c s s' -> halts cfg c s s'.
Proof. exact halts_to_halts. Qed.

(** replacing a label-free window by one that behaves alike preserves halting and the final state *)
Theorem C02_window : forall cfg (L W W' R : code),
  nobar W = true -> nobar W' = true -> length W = length W' ->
  cf_ok cfg (L ++ W' ++ R) = true ->
  (forall s r k, bytes_ok s -> bexec cfg W s = Some r ->
     dest (L ++ W ++ R) (length L + length W) r = Some k ->
     exists r', bexec cfg W' s = Some r' /\ dest (L ++ W ++ R) (length L + length W) r' = Some k /\
                eq_state (bst r') (bst r)) ->
  cf_equiv cfg (L ++ W ++ R) (L ++ W' ++ R).
Proof. exact window. Qed.

(** labels, conditional branches, JMP, loops: the optimised code halts in the same state *)
Theorem C02_optimize_cf_sound : forall cfg c s s',
  ports cfg = [] -> bytes_ok s -> cf_ok cfg c = true -> NoDup (lbls c) -> rb_free c = true ->
  halts cfg c s s' ->
  exists s'', halts cfg (fst (optimize c)) s s'' /\ eq_state s'' s'.
Proof. exact optimize_cf_sound. Qed.

(** the same on [Sem.run] *)
Theorem C02_optimize_cf_run : forall cfg c s s',
  ports cfg = [] -> bytes_ok s -> cf_ok cfg c = true -> NoDup (lbls c) -> rb_free c = true ->
  GenLoopsFacts.halts_to cfg c s s' ->
  exists s'', GenLoopsFacts.halts_to cfg (fst (optimize c)) s s'' /\ eq_state s'' s'.
Proof. exact optimize_cf_run. Qed.

(** non-vacuity: a loop; the swap and "STA w; LDA w" fire inside it, a repeated load and a JMP to
    the next line go *)
Theorem C02_optimize_cf_sound_example :
  ports sim_cfg = [] /\ bytes_ok sim_state /\ cf_ok sim_cfg cf_code = true /\
  NoDup (lbls cf_code) /\ rb_free cf_code = true /\
  exists s' s'', halts sim_cfg cf_code sim_state s' /\
                 halts sim_cfg (fst (optimize cf_code)) sim_state s'' /\
                 eq_state s'' s' /\ rA s' = 6%Z /\ rX s' = 0%Z /\ rY s' = 1%Z /\
                 mget (mem s') 128 = 6%Z.
Proof. exact optimize_cf_sound_example. Qed.

Definition C02_cf_code_optimized := cf_code_optimized.

(** [rb_free] cannot be dropped: the known-compare rule removes a compare whose carry is read *)
Theorem C02_cmp_rule_changes_c :
  exists c s' s'',
    cf_ok sim_cfg c = true /\ NoDup (lbls c) /\ rb_free c = false /\
    halts sim_cfg c sim_state s' /\ halts sim_cfg (fst (optimize c)) sim_state s'' /\
    rA s' = 3%Z /\ rA s'' = 2%Z.
Proof. exact cmp_rule_changes_c. Qed.

(** [NoDup (lbls c)] cannot be dropped *)
Theorem C02_duplicate_label_changes_x :
  exists c s' s'',
    cf_ok sim_cfg c = true /\ rb_free c = true /\
    halts sim_cfg c sim_state s' /\ halts sim_cfg (fst (optimize c)) sim_state s'' /\
    rX s' = 0%Z /\ rX s'' = 1%Z.
Proof. exact duplicate_label_changes_x. Qed.

(** * The global simulation theorem on whole programs, with calls and returns *)

(** one body, the calls answered by any oracle that respects equality of states *)
Theorem C02_optimize_call_equiv : forall Or cfg c,
  OptSimCallFacts.oracle_ok Or -> ports cfg = [] -> cfc_ok cfg c = true -> NoDup (lbls c) -> rb_free c = true ->
  cfc_equiv Or cfg c (fst (optimize c)).
Proof. exact OptSimCallFacts.optimize_call_equiv. Qed.

(** the program semantics [phalts] is [Sem.run_function] with its stack of frames *)
Theorem C02_phalts_run_halts : forall cfg P main s s',
  all_bodies (fun c => cfc_ok cfg c = true) P -> (exists sp, sprog_of P = Some sp) ->
  phalts cfg P main s s' -> run_halts cfg P main s s'.
Proof. exact OptSimCallFacts.phalts_run_halts. Qed.

Theorem C02_run_halts_phalts : forall cfg P main s s',
  all_bodies (fun c => cfc_ok cfg c = true) P ->
  run_halts cfg P main s s' -> phalts cfg P main s s'.
Proof. exact OptSimCallFacts.run_halts_phalts. Qed.

(** every function optimised: the program halts in an equal state *)
Theorem C02_optimize_program_sound : forall cfg P main s s',
  ports cfg = [] -> bytes_ok s -> all_bodies (OptSimCallFacts.opt_ok cfg) P ->
  phalts cfg P main s s' ->
  exists s'', phalts cfg (opt_prog P) main s s'' /\ eq_state s'' s'.
Proof. exact OptSimCallFacts.optimize_program_sound. Qed.

Theorem C02_optimize_program_run : forall cfg P main s s',
  ports cfg = [] -> bytes_ok s -> all_bodies (OptSimCallFacts.opt_ok cfg) P ->
  run_halts cfg P main s s' ->
  exists s'', run_halts cfg (opt_prog P) main s s'' /\ eq_state s'' s'.
Proof. exact OptSimCallFacts.optimize_program_run. Qed.

(** non-vacuity: three functions, calls nested two deep; the reload of X after the call stays,
    the redundant load inside the callee goes; both programs executed by [Sem.run_function] *)
Definition C02_call_prog_optimized := OptSimCallFacts.call_prog_optimized.
Definition C02_call_prog_runs := OptSimCallFacts.call_prog_runs.

Theorem C02_optimize_program_example :
  ports sim_cfg = [] /\ bytes_ok sim_state /\ all_bodies (OptSimCallFacts.opt_ok sim_cfg) OptSimCallFacts.call_prog /\
  exists s' s'', run_halts sim_cfg OptSimCallFacts.call_prog "main" sim_state s' /\
                 run_halts sim_cfg (opt_prog OptSimCallFacts.call_prog) "main" sim_state s'' /\
                 eq_state s'' s' /\ rX s' = 5%Z /\ mget (mem s') 128 = 10%Z.
Proof. exact OptSimCallFacts.optimize_program_example. Qed.
