(** C01 — emitted 6502 code computes what the C source says: ELEMENTS of arrays of 16-bit objects
    (the forms the generator was repaired for: before, [sarr[2]++] and [pa[1] += 1] updated the
    low byte only).  An array of [n] 16-bit objects is [n] low bytes followed by [n] high bytes.
    The exact -O0 output for eleven statements over
    [short sarr[4]; unsigned char *pa[2]; unsigned char a;] (Model/GenElem.v, [elisting_NN]) is
    run on the executable 6502 semantics: for ALL byte-valued states, the [2n] cells of the array
    consecutive and outside the stack page ([arr16_wf]), [Sem.run] halts normally and element [k]
    holds the C value as a 16-bit number; every other cell and X, Y, S are unchanged.
    The template theorems are proved in Proofs/GenElemFacts.v; the listings are their instances. *)
From Coq Require Import String List Bool NArith ZArith Lia.
From CC Require Import Base.Str Asm.Lines M6502.Isa Asm.Operand M6502.Sem Model.OptSem
  Model.GenTemplates Proofs.GenTemplatesFacts Model.GenSplit Proofs.GenSplitFacts
  Proofs.GenCmp16Facts Model.GenLoops Proofs.GenLoopsFacts Model.GenElem Proofs.GenElemFacts.
Import ListNotations.
Open Scope string_scope.
Open Scope list_scope.
Open Scope Z_scope.

Theorem C01_elem_inc : forall cfg base n k lbl pb st,
  ports cfg = [] -> arr16_wf cfg base pb n -> 0 <= k < n -> lbl <> ""%string -> bytes_ok st ->
  exists st', halts_to cfg (elem_inc base n k lbl) st st' /\
    elem_val (mem st') pb n k = (elem_val (mem st) pb n k + 1) mod 65536 /\
    only_changes [pb + k; pb + n + k] st st' /\ keeps_xys st st'.
Proof. exact elem_inc_correct. Qed.
Print Assumptions C01_elem_inc.

Theorem C01_elem_dec : forall cfg base n k lbl pb st,
  ports cfg = [] -> arr16_wf cfg base pb n -> 0 <= k < n -> lbl <> ""%string -> bytes_ok st ->
  exists st', halts_to cfg (elem_dec base n k lbl) st st' /\
    elem_val (mem st') pb n k = (elem_val (mem st) pb n k - 1) mod 65536 /\
    only_changes [pb + k; pb + n + k] st st' /\ keeps_xys st st'.
Proof. exact elem_dec_correct. Qed.
Print Assumptions C01_elem_dec.

Theorem C01_elem_add_const : forall cfg base n k c pb st,
  ports cfg = [] -> arr16_wf cfg base pb n -> 0 <= k < n -> 0 <= c < 65536 -> bytes_ok st ->
  exists st', halts_to cfg (elem_add_const base n k c) st st' /\
    elem_val (mem st') pb n k = (elem_val (mem st) pb n k + c) mod 65536 /\
    only_changes [pb + k; pb + n + k] st st' /\ keeps_xys st st'.
Proof. exact elem_add_const_correct. Qed.
Print Assumptions C01_elem_add_const.

Theorem C01_elem_sub_const : forall cfg base n k c pb st,
  ports cfg = [] -> arr16_wf cfg base pb n -> 0 <= k < n -> 0 <= c < 65536 -> bytes_ok st ->
  exists st', halts_to cfg (elem_sub_const base n k c) st st' /\
    elem_val (mem st') pb n k = (elem_val (mem st) pb n k - c) mod 65536 /\
    only_changes [pb + k; pb + n + k] st st' /\ keeps_xys st st'.
Proof. exact elem_sub_const_correct. Qed.
Print Assumptions C01_elem_sub_const.

Theorem C01_elem_store_const : forall cfg base n k c pb st,
  ports cfg = [] -> arr16_wf cfg base pb n -> 0 <= k < n -> 0 <= c < 65536 ->
  exists st', halts_to cfg (elem_store_const base n k c) st st' /\
    elem_val (mem st') pb n k = c /\
    only_changes [pb + k; pb + n + k] st st' /\ keeps_xys st st'.
Proof. exact elem_store_const_correct. Qed.
Print Assumptions C01_elem_store_const.

Theorem C01_elem_hi_load : forall cfg dst base n k pb pd st,
  ports cfg = [] -> arr16_wf cfg base pb n -> 0 <= k < n ->
  var_name dst -> layout cfg dst = Some pd -> 0 <= pd < 65536 -> bytes_ok st ->
  exists st', halts_to cfg (elem_hi_load dst base n k) st st' /\
    mget (mem st') pd = elem_val (mem st) pb n k / 256 /\
    only_changes [pd] st st' /\ keeps_xys st st'.
Proof. exact elem_hi_load_correct. Qed.
Print Assumptions C01_elem_hi_load.

Theorem C01_elem_inc_x : forall cfg base n lbl pb st,
  ports cfg = [] -> arr16_wf cfg base pb n -> rX st < n -> lbl <> ""%string -> bytes_ok st ->
  exists st', halts_to cfg (elem_inc_x base n lbl) st st' /\
    elem_val (mem st') pb n (rX st) = (elem_val (mem st) pb n (rX st) + 1) mod 65536 /\
    only_changes [pb + rX st; pb + n + rX st] st st' /\ keeps_xys st st'.
Proof. exact elem_inc_x_correct. Qed.
Print Assumptions C01_elem_inc_x.

Theorem C01_elem_other : forall st st' pb n k j,
  only_changes [pb + k; pb + n + k] st st' -> 0 <= pb -> 0 <= k < n -> 0 <= j < n -> j <> k ->
  elem_val (mem st') pb n j = elem_val (mem st) pb n j.
Proof. exact elem_other. Qed.
Print Assumptions C01_elem_other.

Theorem C01_elisting_01 : forall cfg ps st,
  ports cfg = [] -> arr16_wf cfg "sarr" ps 4 -> bytes_ok st ->
  exists st', halts_to cfg (elem_inc "sarr" 4 2 ".ifend1") st st' /\
    elem_val (mem st') ps 4 2 = (elem_val (mem st) ps 4 2 + 1) mod 65536 /\
    only_changes [ps + 2; ps + 4 + 2] st st' /\ keeps_xys st st'.
Proof. intros. apply elem_inc_correct; try assumption; try lia. discriminate. Qed.
Print Assumptions C01_elisting_01.

Theorem C01_elisting_02 : forall cfg ps st,
  ports cfg = [] -> arr16_wf cfg "sarr" ps 4 -> bytes_ok st ->
  exists st', halts_to cfg (elem_dec "sarr" 4 1 ".ifend1") st st' /\
    elem_val (mem st') ps 4 1 = (elem_val (mem st) ps 4 1 - 1) mod 65536 /\
    only_changes [ps + 1; ps + 4 + 1] st st' /\ keeps_xys st st'.
Proof. intros. apply elem_dec_correct; try assumption; try lia. discriminate. Qed.
Print Assumptions C01_elisting_02.

Theorem C01_elisting_03 : forall cfg pq st,
  ports cfg = [] -> arr16_wf cfg "pa" pq 2 -> bytes_ok st ->
  exists st', halts_to cfg (elem_inc "pa" 2 1 ".ifend1") st st' /\
    elem_val (mem st') pq 2 1 = (elem_val (mem st) pq 2 1 + 1) mod 65536 /\
    only_changes [pq + 1; pq + 2 + 1] st st' /\ keeps_xys st st'.
Proof. intros. apply elem_inc_correct; try assumption; try lia. discriminate. Qed.
Print Assumptions C01_elisting_03.

Theorem C01_elisting_04 : forall cfg pq st,
  ports cfg = [] -> arr16_wf cfg "pa" pq 2 -> bytes_ok st ->
  exists st', halts_to cfg (elem_dec "pa" 2 0 ".ifend1") st st' /\
    elem_val (mem st') pq 2 0 = (elem_val (mem st) pq 2 0 - 1) mod 65536 /\
    only_changes [pq + 0; pq + 2 + 0] st st' /\ keeps_xys st st'.
Proof. intros. apply elem_dec_correct; try assumption; try lia. discriminate. Qed.
Print Assumptions C01_elisting_04.

Theorem C01_elisting_05 : forall cfg ps st,
  ports cfg = [] -> arr16_wf cfg "sarr" ps 4 -> bytes_ok st ->
  exists st', halts_to cfg (elem_add_const "sarr" 4 2 1) st st' /\
    elem_val (mem st') ps 4 2 = (elem_val (mem st) ps 4 2 + 1) mod 65536 /\
    only_changes [ps + 2; ps + 4 + 2] st st' /\ keeps_xys st st'.
Proof. intros. apply elem_add_const_correct; try assumption; lia. Qed.
Print Assumptions C01_elisting_05.

Theorem C01_elisting_06 : forall cfg ps st,
  ports cfg = [] -> arr16_wf cfg "sarr" ps 4 -> bytes_ok st ->
  exists st', halts_to cfg (elem_add_const "sarr" 4 1 300) st st' /\
    elem_val (mem st') ps 4 1 = (elem_val (mem st) ps 4 1 + 300) mod 65536 /\
    only_changes [ps + 1; ps + 4 + 1] st st' /\ keeps_xys st st'.
Proof. intros. apply elem_add_const_correct; try assumption; lia. Qed.
Print Assumptions C01_elisting_06.

Theorem C01_elisting_07 : forall cfg pq st,
  ports cfg = [] -> arr16_wf cfg "pa" pq 2 -> bytes_ok st ->
  exists st', halts_to cfg (elem_add_const "pa" 2 1 1) st st' /\
    elem_val (mem st') pq 2 1 = (elem_val (mem st) pq 2 1 + 1) mod 65536 /\
    only_changes [pq + 1; pq + 2 + 1] st st' /\ keeps_xys st st'.
Proof. intros. apply elem_add_const_correct; try assumption; lia. Qed.
Print Assumptions C01_elisting_07.

Theorem C01_elisting_08 : forall cfg pq st,
  ports cfg = [] -> arr16_wf cfg "pa" pq 2 -> bytes_ok st ->
  exists st', halts_to cfg (elem_sub_const "pa" 2 0 300) st st' /\
    elem_val (mem st') pq 2 0 = (elem_val (mem st) pq 2 0 - 300) mod 65536 /\
    only_changes [pq + 0; pq + 2 + 0] st st' /\ keeps_xys st st'.
Proof. intros. apply elem_sub_const_correct; try assumption; lia. Qed.
Print Assumptions C01_elisting_08.

Theorem C01_elisting_09 : forall cfg ps st,
  ports cfg = [] -> arr16_wf cfg "sarr" ps 4 -> rX st < 4 -> bytes_ok st ->
  exists st', halts_to cfg (elem_inc_x "sarr" 4 ".ifend1") st st' /\
    elem_val (mem st') ps 4 (rX st) = (elem_val (mem st) ps 4 (rX st) + 1) mod 65536 /\
    only_changes [ps + rX st; ps + 4 + rX st] st st' /\ keeps_xys st st'.
Proof. intros. apply elem_inc_x_correct; try assumption. discriminate. Qed.
Print Assumptions C01_elisting_09.

Theorem C01_elisting_10 : forall cfg ps st,
  ports cfg = [] -> arr16_wf cfg "sarr" ps 4 ->
  exists st', halts_to cfg (elem_store_const "sarr" 4 3 1000) st st' /\
    elem_val (mem st') ps 4 3 = 1000 /\
    only_changes [ps + 3; ps + 4 + 3] st st' /\ keeps_xys st st'.
Proof. intros. apply elem_store_const_correct; try assumption; lia. Qed.
Print Assumptions C01_elisting_10.

Theorem C01_elisting_11 : forall cfg ps pa st,
  ports cfg = [] -> arr16_wf cfg "sarr" ps 4 ->
  layout cfg "a" = Some pa -> 0 <= pa < 65536 -> bytes_ok st ->
  exists st', halts_to cfg (elem_hi_load "a" "sarr" 4 2) st st' /\
    mget (mem st') pa = elem_val (mem st) ps 4 2 / 256 /\
    only_changes [pa] st st' /\ keeps_xys st st'.
Proof.
  intros. apply elem_hi_load_correct; try assumption; try lia.
  apply ident_var_name; [discriminate|reflexivity].
Qed.
Print Assumptions C01_elisting_11.

Theorem C01_cfg_elem_wf : arr16_wf cfg_elem "sarr" 128 4 /\ arr16_wf cfg_elem "pa" 136 2.
Proof. exact cfg_elem_wf. Qed.
Print Assumptions C01_cfg_elem_wf.

Theorem C01_elem_inc_old_refuted :
  run_elem (elem_inc_old "sarr" 2) 128 4 2 (st_elem 130 134 255 0) = Some 0 /\
  run_elem (elem_inc "sarr" 4 2 ".ifend1") 128 4 2 (st_elem 130 134 255 0) = Some 256.
Proof. exact elem_inc_old_refuted. Qed.
Print Assumptions C01_elem_inc_old_refuted.

Theorem C01_elem_add_old_refuted :
  run_elem (elem_add_old "pa" 1 1) 136 2 1 (st_elem 137 139 255 0) = Some 0 /\
  run_elem (elem_add_const "pa" 2 1 1) 136 2 1 (st_elem 137 139 255 0) = Some 256.
Proof. exact elem_add_old_refuted. Qed.
Print Assumptions C01_elem_add_old_refuted.

Theorem C01_run_elem_inc_x :
  run_elem (elem_inc_x "sarr" 4 ".ifend1") 128 4 1 (st_elem 129 133 255 1) = Some 512.
Proof. exact run_elem_inc_x. Qed.
Print Assumptions C01_run_elem_inc_x.
