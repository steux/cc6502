(** C01 — emitted 6502 code computes what the C source says.
    The first part concerns the comparison lowering of the generator
    (src/generate/generate_conditions.rs), modelled by Model/GenTables.v and compared with the real
    generator cell by cell (corr-M, tools/props/c01.py): the branch sequences emitted after CMP
    (or after a load, for a comparison with 0) reach their label exactly when the C relation holds.
    The statements that are FALSE of the faithful model are stated as refutations: they are the
    known findings F-C01-signed8-compare and F-C01-cmp-order-zero.  The generator as a whole is not
    modelled: the rest of C01 is decided by co-execution (see DESIGN.md), hence "partial".
    Then the 39 lowering templates of Model/GenTemplates.v (Proofs/GenTemplatesFacts.v) and the 16-bit
    comparison forms of Model/GenCmp16.v (Proofs/GenCmp16Facts.v) on [Sem.run], for all states. *)
From Coq Require Import String List Bool NArith ZArith Lia.
From CC Require Import Base.Str Asm.Lines M6502.Isa Asm.Operand M6502.Sem Model.CheckBranches
  Model.CbSpec Model.GenTables Proofs.GenTablesFacts.
Import ListNotations.
Open Scope Z_scope.

(** the flags CMP leaves, for all bytes *)
Theorem C01_cmp_flags : forall s a b, 0 <= a < 256 -> 0 <= b < 256 ->
  fC (cmp s a b) = (b <=? a) /\ fZ (cmp s a b) = (a =? b) /\ fN (cmp s a b) = bit7 (byte (a - b)).
Proof. exact cmp_flags_spec. Qed.

(** unsigned comparisons: the sequence emitted for [o] jumps to [label] iff [a o b], all bytes *)
Theorem C01_unsigned_compare_correct : forall o s a b label here,
  0 <= a < 256 -> 0 <= b < 256 -> label <> here ->
  frag_flow 8 (cmp s a b) (branch_seq o false label here)
  = if rel_holds o a b then ExitLabel label else ExitFall.
Proof. exact branch_seq_unsigned_correct. Qed.

(** signed comparisons are right when the 8-bit subtraction does not overflow ... *)
Theorem C01_signed_compare_correct_partial : forall o s a b label here,
  0 <= a < 256 -> 0 <= b < 256 -> label <> here ->
  -128 <= sgn a - sgn b <= 127 ->
  frag_flow 8 (cmp s a b) (branch_seq o true label here)
  = if rel_holds o (sgn a) (sgn b) then ExitLabel label else ExitFall.
Proof. exact branch_seq_signed_correct. Qed.

(** ... and wrong otherwise: the full statement is refuted (known finding F-C01-signed8-compare;
    the witness -128 < 1 is replayed on the real compiler by the check) *)
Theorem C01_signed_compare_refuted :
  ~ (forall o s a b label here, 0 <= a < 256 -> 0 <= b < 256 -> label <> here ->
       frag_flow 8 (cmp s a b) (branch_seq o true label here)
       = if rel_holds o (sgn a) (sgn b) then ExitLabel label else ExitFall).
Proof. exact branch_seq_signed_needs_no_overflow. Qed.

(** comparison with 0 from the flags of a load (no CMP): signed operands, all six operators *)
Theorem C01_zero_compare_signed_correct : forall o s v label here, 0 <= v < 256 -> label <> here ->
  frag_flow 8 (set_nz s v) (branch_seq_alt o true label here)
  = if rel_holds o (sgn v) 0 then ExitLabel label else ExitFall.
Proof. exact branch_seq_alt_signed_correct. Qed.

(** unsigned operands: == != <= are right for all bytes; < > >= are exactly the wrong cells
    (known finding F-C01-cmp-order-zero) *)
Theorem C01_zero_compare_unsigned_cells : forall o,
  (forall s v label here, 0 <= v < 256 -> label <> here ->
     frag_flow 8 (set_nz s v) (branch_seq_alt o false label here)
     = if rel_holds o v 0 then ExitLabel label else ExitFall)
  <-> alt_unsigned_ok o = true.
Proof. exact branch_seq_alt_unsigned_cells. Qed.

(** the negation table (if / while / for test the negated condition) and the operand-swap table
    (constant or register on the left) are right for all integers *)
Theorem C01_negate_table : forall o a b, rel_holds (negate_op o) a b = negb (rel_holds o a b).
Proof. exact negate_op_correct. Qed.

Theorem C01_swap_table : forall o a b, rel_holds (switch_op o) b a = rel_holds o a b.
Proof. exact switch_op_correct. Qed.


(** * Lowering templates (Model/GenTemplates.v): the exact instruction sequences the generator emits
    for 39 statement forms (compared with the real generator's output on every run by
    tools/lib/gentpl.py), each proved on the 6502 semantics ([Sem.run]) to compute the C value for
    ALL machine states: the destination gets the value, no other cell changes, X Y S are kept.
    Proofs in Proofs/GenTemplatesFacts.v. *)
From CC Require Import Model.Optimize Model.OptSem Model.GenTemplates Proofs.GenTemplatesFacts.

Theorem C01_tpl_copy8 : forall cfg dst x pd px st,
  ports cfg = [] -> var_name dst -> var_name x ->
  layout cfg dst = Some pd -> layout cfg x = Some px ->
  0 <= pd < 65536 -> 0 <= px < 65536 ->
  exists st', runs_to cfg (template (SCopy8 dst x)) st st' /\
    mget (mem st') pd = mget (mem st) px /\
    only_changes [pd] st st' /\ keeps_xys st st'.
Proof. intros. apply (copy_gen _ (Cell px)); [apply cell_r, cell_var|apply cell_w, cell_var]; assumption. Qed.

Theorem C01_tpl_add8 : forall cfg dst x y pd px py st,
  ports cfg = [] -> var_name dst -> var_name x -> var_name y ->
  layout cfg dst = Some pd -> layout cfg x = Some px -> layout cfg y = Some py ->
  0 <= pd < 65536 -> 0 <= px < 65536 -> 0 <= py < 65536 ->
  exists st', runs_to cfg (template (SAdd8 dst x y)) st st' /\
    mget (mem st') pd = (mget (mem st) px + mget (mem st) py) mod 256 /\
    only_changes [pd] st st' /\ keeps_xys st st'.
Proof.
  intros. apply (bin8_gen ADC eq_refl _ (Cell px) (Cell py));
    [apply cell_r, cell_var|apply cell_r, cell_var|apply cell_w, cell_var]; assumption.
Qed.

Theorem C01_tpl_sub8 : forall cfg dst x y pd px py st,
  ports cfg = [] -> var_name dst -> var_name x -> var_name y ->
  layout cfg dst = Some pd -> layout cfg x = Some px -> layout cfg y = Some py ->
  0 <= pd < 65536 -> 0 <= px < 65536 -> 0 <= py < 65536 ->
  exists st', runs_to cfg (template (SSub8 dst x y)) st st' /\
    mget (mem st') pd = (mget (mem st) px - mget (mem st) py) mod 256 /\
    only_changes [pd] st st' /\ keeps_xys st st'.
Proof.
  intros. apply (bin8_gen SBC eq_refl _ (Cell px) (Cell py));
    [apply cell_r, cell_var|apply cell_r, cell_var|apply cell_w, cell_var]; assumption.
Qed.

Theorem C01_tpl_and8 : forall cfg dst x y pd px py st,
  ports cfg = [] -> var_name dst -> var_name x -> var_name y ->
  layout cfg dst = Some pd -> layout cfg x = Some px -> layout cfg y = Some py ->
  0 <= pd < 65536 -> 0 <= px < 65536 -> 0 <= py < 65536 ->
  exists st', runs_to cfg (template (SAnd8 dst x y)) st st' /\
    mget (mem st') pd = Z.land (mget (mem st) px) (mget (mem st) py) /\
    only_changes [pd] st st' /\ keeps_xys st st'.
Proof.
  intros. apply (bin8_gen AND eq_refl _ (Cell px) (Cell py));
    [apply cell_r, cell_var|apply cell_r, cell_var|apply cell_w, cell_var]; assumption.
Qed.

Theorem C01_tpl_or8 : forall cfg dst x y pd px py st,
  ports cfg = [] -> var_name dst -> var_name x -> var_name y ->
  layout cfg dst = Some pd -> layout cfg x = Some px -> layout cfg y = Some py ->
  0 <= pd < 65536 -> 0 <= px < 65536 -> 0 <= py < 65536 ->
  exists st', runs_to cfg (template (SOr8 dst x y)) st st' /\
    mget (mem st') pd = Z.lor (mget (mem st) px) (mget (mem st) py) /\
    only_changes [pd] st st' /\ keeps_xys st st'.
Proof.
  intros. apply (bin8_gen ORA eq_refl _ (Cell px) (Cell py));
    [apply cell_r, cell_var|apply cell_r, cell_var|apply cell_w, cell_var]; assumption.
Qed.

Theorem C01_tpl_xor8 : forall cfg dst x y pd px py st,
  ports cfg = [] -> var_name dst -> var_name x -> var_name y ->
  layout cfg dst = Some pd -> layout cfg x = Some px -> layout cfg y = Some py ->
  0 <= pd < 65536 -> 0 <= px < 65536 -> 0 <= py < 65536 ->
  exists st', runs_to cfg (template (SXor8 dst x y)) st st' /\
    mget (mem st') pd = Z.lxor (mget (mem st) px) (mget (mem st) py) /\
    only_changes [pd] st st' /\ keeps_xys st st'.
Proof.
  intros. apply (bin8_gen EOR eq_refl _ (Cell px) (Cell py));
    [apply cell_r, cell_var|apply cell_r, cell_var|apply cell_w, cell_var]; assumption.
Qed.

Theorem C01_tpl_addconst8 : forall cfg dst x k pd px st,
  ports cfg = [] -> var_name dst -> var_name x ->
  layout cfg dst = Some pd -> layout cfg x = Some px ->
  0 <= pd < 65536 -> 0 <= px < 65536 -> 0 <= k < 256 ->
  exists st', runs_to cfg (template (SAddConst8 dst x k)) st st' /\
    mget (mem st') pd = (mget (mem st) px + k) mod 256 /\
    only_changes [pd] st st' /\ keeps_xys st st'.
Proof.
  intros. apply (bin8_gen ADC eq_refl _ (Cell px) (Lit k));
    [apply cell_r, cell_var|apply imm_r|apply cell_w, cell_var]; assumption.
Qed.

Theorem C01_tpl_inc8 : forall cfg v pv st,
  ports cfg = [] -> var_name v -> layout cfg v = Some pv -> 0 <= pv < 65536 ->
  exists st', runs_to cfg (template (SInc8 v)) st st' /\
    mget (mem st') pv = (mget (mem st) pv + 1) mod 256 /\
    only_changes [pv] st st' /\ keeps_xys st st'.
Proof. exact inc8_correct. Qed.

Theorem C01_tpl_dec8 : forall cfg v pv st,
  ports cfg = [] -> var_name v -> layout cfg v = Some pv -> 0 <= pv < 65536 ->
  exists st', runs_to cfg (template (SDec8 v)) st st' /\
    mget (mem st') pv = (mget (mem st) pv - 1) mod 256 /\
    only_changes [pv] st st' /\ keeps_xys st st'.
Proof. intros. apply (rmw_gen cfg DEC pv); [reflexivity|apply cell_m, cell_var; assumption]. Qed.

Theorem C01_tpl_addassign8 : forall cfg v x pv px st,
  ports cfg = [] -> var_name v -> var_name x ->
  layout cfg v = Some pv -> layout cfg x = Some px ->
  0 <= pv < 65536 -> 0 <= px < 65536 ->
  exists st', runs_to cfg (template (SAddAssign8 v x)) st st' /\
    mget (mem st') pv = (mget (mem st) pv + mget (mem st) px) mod 256 /\
    only_changes [pv] st st' /\ keeps_xys st st'.
Proof.
  intros. apply (bin8_gen ADC eq_refl _ (Cell pv) (Cell px));
    [apply cell_r, cell_var|apply cell_r, cell_var|apply cell_w, cell_var]; assumption.
Qed.

Theorem C01_tpl_subassign8 : forall cfg v x pv px st,
  ports cfg = [] -> var_name v -> var_name x ->
  layout cfg v = Some pv -> layout cfg x = Some px ->
  0 <= pv < 65536 -> 0 <= px < 65536 ->
  exists st', runs_to cfg (template (SSubAssign8 v x)) st st' /\
    mget (mem st') pv = (mget (mem st) pv - mget (mem st) px) mod 256 /\
    only_changes [pv] st st' /\ keeps_xys st st'.
Proof.
  intros. apply (bin8_gen SBC eq_refl _ (Cell pv) (Cell px));
    [apply cell_r, cell_var|apply cell_r, cell_var|apply cell_w, cell_var]; assumption.
Qed.

Theorem C01_tpl_neg8 : forall cfg dst x pd px st,
  ports cfg = [] -> var_name dst -> var_name x ->
  layout cfg dst = Some pd -> layout cfg x = Some px ->
  0 <= pd < 65536 -> 0 <= px < 65536 ->
  exists st', runs_to cfg (template (SNeg8 dst x)) st st' /\
    mget (mem st') pd = (256 - mget (mem st) px) mod 256 /\
    only_changes [pd] st st' /\ keeps_xys st st'.
Proof.
  intros. replace (256 - mget (mem st) px) with (0 - mget (mem st) px + 1 * 256) by ring.
  rewrite Z_mod_plus_full.
  apply (bin8_gen SBC eq_refl _ (Lit 0) (Cell px));
    [apply imm_r; lia|apply cell_r, cell_var|apply cell_w, cell_var]; assumption.
Qed.

Theorem C01_tpl_not8 : forall cfg dst x pd px st,
  ports cfg = [] -> var_name dst -> var_name x ->
  layout cfg dst = Some pd -> layout cfg x = Some px ->
  0 <= pd < 65536 -> 0 <= px < 65536 -> bytes_ok st ->
  exists st', runs_to cfg (template (SNot8 dst x)) st st' /\
    mget (mem st') pd = 255 - mget (mem st) px /\
    only_changes [pd] st st' /\ keeps_xys st st'.
Proof.
  intros cfg dst x pd px st Hp Vd Vx Ld Lx Rd Rx Hb.
  rewrite <- (lxor_255 _ (proj2 (proj2 (proj2 (proj2 Hb))) px)).
  apply (bin8_gen EOR eq_refl _ (Cell px) (Lit 255));
    [apply cell_r, cell_var|apply imm_r; lia|apply cell_w, cell_var]; assumption.
Qed.

Theorem C01_tpl_shl8 : forall cfg dst x n pd px st,
  ports cfg = [] -> var_name dst -> var_name x ->
  layout cfg dst = Some pd -> layout cfg x = Some px ->
  0 <= pd < 65536 -> 0 <= px < 65536 -> bytes_ok st ->
  exists st', runs_to cfg (template (SShl8 dst x n)) st st' /\
    mget (mem st') pd = (mget (mem st) px * 2 ^ Z.of_nat n) mod 256 /\
    only_changes [pd] st st' /\ keeps_xys st st'.
Proof.
  intros cfg dst x n pd px st Hp Vd Vx Ld Lx Rd Rx (_ & _ & _ & _ & HM).
  apply (shift_gen ASL n (fun v => 0 <= v < 256) (fun v => (v * 2 ^ Z.of_nat n) mod 256) eq_refl (iter_asl_a n)
           _ (Cell px)); [apply cell_r, cell_var|apply cell_w, cell_var|apply HM]; assumption.
Qed.

Theorem C01_tpl_shr8 : forall cfg dst x n pd px st,
  ports cfg = [] -> var_name dst -> var_name x ->
  layout cfg dst = Some pd -> layout cfg x = Some px ->
  0 <= pd < 65536 -> 0 <= px < 65536 -> bytes_ok st ->
  exists st', runs_to cfg (template (SShr8 dst x n)) st st' /\
    mget (mem st') pd = mget (mem st) px / 2 ^ Z.of_nat n /\
    only_changes [pd] st st' /\ keeps_xys st st'.
Proof.
  intros cfg dst x n pd px st Hp Vd Vx Ld Lx Rd Rx (_ & _ & _ & _ & HM).
  apply (shift_gen LSR n (fun v => 0 <= v < 256) (fun v => v / 2 ^ Z.of_nat n) eq_refl (iter_lsr_a n)
           _ (Cell px)); [apply cell_r, cell_var|apply cell_w, cell_var|apply HM]; assumption.
Qed.

Theorem C01_tpl_sar8_1 : forall cfg dst x pd px st,
  ports cfg = [] -> var_name dst -> var_name x ->
  layout cfg dst = Some pd -> layout cfg x = Some px ->
  0 <= pd < 65536 -> 0 <= px < 65536 -> bytes_ok st ->
  exists st', runs_to cfg (template (SSar8_1 dst x)) st st' /\
    mget (mem st') pd = mget (mem st) px / 2 + (if 128 <=? mget (mem st) px then 128 else 0) /\
    only_changes [pd] st st' /\ keeps_xys st st'.
Proof. exact sar8_1_correct. Qed.

Theorem C01_tpl_loadx : forall cfg v pv st,
  ports cfg = [] -> var_name v -> layout cfg v = Some pv -> 0 <= pv < 65536 ->
  exists st', runs_to cfg (template (SLoadX v)) st st' /\
    rX st' = mget (mem st) pv /\
    only_changes [] st st' /\ rY st' = rY st /\ rS st' = rS st.
Proof. exact loadx_correct. Qed.

Theorem C01_tpl_loady : forall cfg v pv st,
  ports cfg = [] -> var_name v -> layout cfg v = Some pv -> 0 <= pv < 65536 ->
  exists st', runs_to cfg (template (SLoadY v)) st st' /\
    rY st' = mget (mem st) pv /\
    only_changes [] st st' /\ rX st' = rX st /\ rS st' = rS st.
Proof. exact loady_correct. Qed.

Theorem C01_tpl_storex : forall cfg v pv st,
  ports cfg = [] -> var_name v -> layout cfg v = Some pv -> 0 <= pv < 65536 ->
  exists st', runs_to cfg (template (SStoreX v)) st st' /\
    mget (mem st') pv = rX st /\
    only_changes [pv] st st' /\ keeps_xys st st'.
Proof. exact (store_reg_correct STX eq_refl). Qed.

Theorem C01_tpl_storey : forall cfg v pv st,
  ports cfg = [] -> var_name v -> layout cfg v = Some pv -> 0 <= pv < 65536 ->
  exists st', runs_to cfg (template (SStoreY v)) st st' /\
    mget (mem st') pv = rY st /\
    only_changes [pv] st st' /\ keeps_xys st st'.
Proof. exact (store_reg_correct STY eq_refl). Qed.

Theorem C01_tpl_copy16 : forall cfg dst x pd px st,
  ports cfg = [] -> var_name dst -> var_name x ->
  layout cfg dst = Some pd -> layout cfg x = Some px ->
  0 <= pd -> pd + 1 < 65536 -> 0 <= px -> px + 1 < 65536 ->
  pd <> px + 1 ->
  exists st', runs_to cfg (template (SCopy16 dst x)) st st' /\
    mget (mem st') pd = mget (mem st) px /\ mget (mem st') (pd + 1) = mget (mem st) (px + 1) /\
    word (mem st') pd = word (mem st) px /\
    only_changes [pd; pd + 1] st st' /\ keeps_xys st st'.
Proof.
  intros. apply (copy2_gen cfg (Cell px) pd (Cell (px + 1)) (pd + 1));
    [apply cell_r, cell_var|apply cell_w, cell_var|apply cell_r, cell_varh|apply cell_w, cell_varh|cbn; lia|
     lia]; try assumption; lia.
Qed.

Theorem C01_tpl_add16 : forall cfg dst x y pd px py st,
  ports cfg = [] -> var_name dst -> var_name x -> var_name y ->
  layout cfg dst = Some pd -> layout cfg x = Some px -> layout cfg y = Some py ->
  0 <= pd -> pd + 1 < 65536 -> 0 <= px -> px + 1 < 65536 -> 0 <= py -> py + 1 < 65536 ->
  pd <> px + 1 -> pd <> py + 1 -> bytes_ok st ->
  exists st', runs_to cfg (template (SAdd16 dst x y)) st st' /\
    word (mem st') pd = (word (mem st) px + word (mem st) py) mod 65536 /\
    only_changes [pd; pd + 1] st st' /\ keeps_xys st st'.
Proof.
  intros. apply (arith16_gen ADC (or_introl eq_refl) cfg (Cell px) (Cell py) pd (Cell (px + 1)) (Cell (py + 1)) (pd + 1));
    [apply cell_r, cell_var|apply cell_r, cell_var|apply cell_w, cell_var|apply cell_r, cell_varh|
     apply cell_r, cell_varh|apply cell_w, cell_varh|cbn; lia|cbn; lia|lia|]; try assumption; lia.
Qed.

Theorem C01_tpl_sub16 : forall cfg dst x y pd px py st,
  ports cfg = [] -> var_name dst -> var_name x -> var_name y ->
  layout cfg dst = Some pd -> layout cfg x = Some px -> layout cfg y = Some py ->
  0 <= pd -> pd + 1 < 65536 -> 0 <= px -> px + 1 < 65536 -> 0 <= py -> py + 1 < 65536 ->
  pd <> px + 1 -> pd <> py + 1 -> bytes_ok st ->
  exists st', runs_to cfg (template (SSub16 dst x y)) st st' /\
    word (mem st') pd = (word (mem st) px - word (mem st) py) mod 65536 /\
    only_changes [pd; pd + 1] st st' /\ keeps_xys st st'.
Proof.
  intros. apply (arith16_gen SBC (or_intror eq_refl) cfg (Cell px) (Cell py) pd (Cell (px + 1)) (Cell (py + 1)) (pd + 1));
    [apply cell_r, cell_var|apply cell_r, cell_var|apply cell_w, cell_var|apply cell_r, cell_varh|
     apply cell_r, cell_varh|apply cell_w, cell_varh|cbn; lia|cbn; lia|lia|]; try assumption; lia.
Qed.

Theorem C01_tpl_and16 : forall cfg dst x y pd px py st,
  ports cfg = [] -> var_name dst -> var_name x -> var_name y ->
  layout cfg dst = Some pd -> layout cfg x = Some px -> layout cfg y = Some py ->
  0 <= pd -> pd + 1 < 65536 -> 0 <= px -> px + 1 < 65536 -> 0 <= py -> py + 1 < 65536 ->
  pd <> px + 1 -> pd <> py + 1 -> bytes_ok st ->
  exists st', runs_to cfg (template (SAnd16 dst x y)) st st' /\
    mget (mem st') pd = Z.land (mget (mem st) px) (mget (mem st) py) /\
    mget (mem st') (pd + 1) = Z.land (mget (mem st) (px + 1)) (mget (mem st) (py + 1)) /\
    word (mem st') pd = Z.land (word (mem st) px) (word (mem st) py) /\
    only_changes [pd; pd + 1] st st' /\ keeps_xys st st'.
Proof.
  intros. apply (bitop16_gen AND (or_introl eq_refl) cfg (Cell px) (Cell py) pd (Cell (px + 1)) (Cell (py + 1)) (pd + 1));
    [apply cell_r, cell_var|apply cell_r, cell_var|apply cell_w, cell_var|apply cell_r, cell_varh|
     apply cell_r, cell_varh|apply cell_w, cell_varh|cbn; lia|cbn; lia|lia|]; try assumption; lia.
Qed.

Theorem C01_tpl_or16 : forall cfg dst x y pd px py st,
  ports cfg = [] -> var_name dst -> var_name x -> var_name y ->
  layout cfg dst = Some pd -> layout cfg x = Some px -> layout cfg y = Some py ->
  0 <= pd -> pd + 1 < 65536 -> 0 <= px -> px + 1 < 65536 -> 0 <= py -> py + 1 < 65536 ->
  pd <> px + 1 -> pd <> py + 1 -> bytes_ok st ->
  exists st', runs_to cfg (template (SOr16 dst x y)) st st' /\
    mget (mem st') pd = Z.lor (mget (mem st) px) (mget (mem st) py) /\
    mget (mem st') (pd + 1) = Z.lor (mget (mem st) (px + 1)) (mget (mem st) (py + 1)) /\
    word (mem st') pd = Z.lor (word (mem st) px) (word (mem st) py) /\
    only_changes [pd; pd + 1] st st' /\ keeps_xys st st'.
Proof.
  intros. apply (bitop16_gen ORA (or_intror eq_refl) cfg (Cell px) (Cell py) pd (Cell (px + 1)) (Cell (py + 1)) (pd + 1));
    [apply cell_r, cell_var|apply cell_r, cell_var|apply cell_w, cell_var|apply cell_r, cell_varh|
     apply cell_r, cell_varh|apply cell_w, cell_varh|cbn; lia|cbn; lia|lia|]; try assumption; lia.
Qed.

Theorem C01_tpl_inc16 : forall cfg v lbl pv st,
  ports cfg = [] -> var_name v -> lbl <> ""%string -> layout cfg v = Some pv ->
  0 <= pv -> pv + 1 < 65536 -> bytes_ok st ->
  exists st', runs_to cfg (template (SInc16 v lbl)) st st' /\
    word (mem st') pv = (word (mem st) pv + 1) mod 65536 /\
    only_changes [pv; pv + 1] st st' /\ keeps_xys st st'.
Proof.
  intros. apply (inc2_gen cfg pv (pv + 1)); [apply cell_m, cell_var|apply cell_m, cell_varh|lia| |];
    try assumption; lia.
Qed.

Theorem C01_tpl_dec16 : forall cfg v lbl pv st,
  ports cfg = [] -> var_name v -> lbl <> ""%string -> layout cfg v = Some pv ->
  0 <= pv -> pv + 1 < 65536 -> bytes_ok st ->
  exists st', runs_to cfg (template (SDec16 v lbl)) st st' /\
    word (mem st') pv = (word (mem st) pv - 1) mod 65536 /\
    only_changes [pv; pv + 1] st st' /\ keeps_xys st st'.
Proof.
  intros. apply (dec2_gen cfg pv (pv + 1));
    [apply cell_r, cell_var|apply cell_m, cell_var|apply cell_m, cell_varh|lia| |]; try assumption; lia.
Qed.

Theorem C01_tpl_addconst16 : forall cfg v k pv st,
  ports cfg = [] -> var_name v -> layout cfg v = Some pv ->
  0 <= pv -> pv + 1 < 65536 -> 0 <= k < 65536 -> bytes_ok st ->
  exists st', runs_to cfg (template (SAddConst16 v k)) st st' /\
    word (mem st') pv = (word (mem st) pv + k) mod 65536 /\
    only_changes [pv; pv + 1] st st' /\ keeps_xys st st'.
Proof.
  intros. apply (arith16c_gen ADC (or_introl eq_refl) cfg (Cell pv) pv (Cell (pv + 1)) (pv + 1));
    [apply cell_r, cell_var|apply cell_w, cell_var|apply cell_r, cell_varh|apply cell_w, cell_varh|cbn; lia|lia|
      |]; try assumption; lia.
Qed.

Theorem C01_tpl_subconst16 : forall cfg v k pv st,
  ports cfg = [] -> var_name v -> layout cfg v = Some pv ->
  0 <= pv -> pv + 1 < 65536 -> 0 <= k < 65536 -> bytes_ok st ->
  exists st', runs_to cfg (template (SSubConst16 v k)) st st' /\
    word (mem st') pv = (word (mem st) pv - k) mod 65536 /\
    only_changes [pv; pv + 1] st st' /\ keeps_xys st st'.
Proof.
  intros. apply (arith16c_gen SBC (or_intror eq_refl) cfg (Cell pv) pv (Cell (pv + 1)) (pv + 1));
    [apply cell_r, cell_var|apply cell_w, cell_var|apply cell_r, cell_varh|apply cell_w, cell_varh|cbn; lia|lia|
      |]; try assumption; lia.
Qed.

Theorem C01_tpl_zext : forall cfg dst x pd px st,
  ports cfg = [] -> var_name dst -> var_name x ->
  layout cfg dst = Some pd -> layout cfg x = Some px ->
  0 <= pd -> pd + 1 < 65536 -> 0 <= px < 65536 ->
  exists st', runs_to cfg (template (SZext dst x)) st st' /\
    mget (mem st') pd = mget (mem st) px /\ mget (mem st') (pd + 1) = 0 /\
    word (mem st') pd = mget (mem st) px /\
    only_changes [pd; pd + 1] st st' /\ keeps_xys st st'.
Proof.
  intros.
  destruct (copy2_gen cfg (Cell px) pd (Lit 0) (pd + 1) x dst (imm 0) (hi dst) st)
    as (st' & Hr & E1 & E2 & Ew & Hf);
      [apply cell_r, cell_var|apply cell_w, cell_var|apply imm_r|
       apply cell_w, cell_varh|exact I|lia|]; try assumption; try lia.
  exists st'. unfold word. rewrite Ew. cbn [srcv]. rewrite Z.add_0_r. auto.
Qed.

Theorem C01_tpl_sext : forall cfg dst x lbl pd px st,
  ports cfg = [] -> var_name dst -> var_name x -> lbl <> ""%string ->
  layout cfg dst = Some pd -> layout cfg x = Some px ->
  0 <= pd -> pd + 1 < 65536 -> 0 <= px < 65536 -> bytes_ok st ->
  exists st', runs_to cfg (template (SSext dst x lbl)) st st' /\
    mget (mem st') pd = mget (mem st) px /\
    mget (mem st') (pd + 1) = (if 128 <=? mget (mem st) px then 255 else 0) /\
    word (mem st') pd
    = (if 128 <=? mget (mem st) px then mget (mem st) px - 256 else mget (mem st) px) mod 65536 /\
    only_changes [pd; pd + 1] st st' /\ keeps_xys st st'.
Proof. exact sext_correct. Qed.

Theorem C01_tpl_shl16_1 : forall cfg v pv st,
  ports cfg = [] -> var_name v -> layout cfg v = Some pv ->
  0 <= pv -> pv + 1 < 65536 -> bytes_ok st ->
  exists st', runs_to cfg (template (SShl16_1 v)) st st' /\
    word (mem st') pv = (2 * word (mem st) pv) mod 65536 /\
    only_changes [pv; pv + 1] st st' /\ keeps_xys st st'.
Proof. exact shl16_1_correct. Qed.

Theorem C01_tpl_shr16_1 : forall cfg v pv st,
  ports cfg = [] -> var_name v -> layout cfg v = Some pv ->
  0 <= pv -> pv + 1 < 65536 -> bytes_ok st ->
  exists st', runs_to cfg (template (SShr16_1 v)) st st' /\
    word (mem st') pv = word (mem st) pv / 2 /\
    only_changes [pv; pv + 1] st st' /\ keeps_xys st st'.
Proof. exact shr16_1_correct. Qed.

Theorem C01_tpl_sar16_1 : forall cfg v pv st,
  ports cfg = [] -> var_name v -> layout cfg v = Some pv ->
  0 <= pv -> pv + 1 < 65536 -> bytes_ok st ->
  exists st', runs_to cfg (template (SSar16_1 v)) st st' /\
    word (mem st') pv
    = word (mem st) pv / 2 + (if 128 <=? mget (mem st) (pv + 1) then 32768 else 0) /\
    only_changes [pv; pv + 1] st st' /\ keeps_xys st st'.
Proof. exact sar16_1_correct. Qed.

Theorem C01_tpl_add16_8 : forall cfg dst x y pd px py st,
  ports cfg = [] -> var_name dst -> var_name x -> var_name y ->
  layout cfg dst = Some pd -> layout cfg x = Some px -> layout cfg y = Some py ->
  0 <= pd -> pd + 1 < 65536 -> 0 <= px -> px + 1 < 65536 -> 0 <= py < 65536 ->
  pd <> px + 1 -> bytes_ok st ->
  exists st', runs_to cfg (template (SAdd16_8 dst x y)) st st' /\
    word (mem st') pd = (word (mem st) px + mget (mem st) py) mod 65536 /\
    only_changes [pd; pd + 1] st st' /\ keeps_xys st st'.
Proof.
  intros. rewrite <- (Z.add_0_r (mget (mem st) py)).
  apply (arith16_gen ADC (or_introl eq_refl) cfg (Cell px) (Cell py) pd (Cell (px + 1)) (Lit 0) (pd + 1));
    [apply cell_r, cell_var|apply cell_r, cell_var|apply cell_w, cell_var|apply cell_r, cell_varh|apply imm_r|
     apply cell_w, cell_varh|cbn; lia|exact I|lia|]; try assumption; lia.
Qed.

Theorem C01_tpl_const16 : forall cfg v k pv st,
  ports cfg = [] -> var_name v -> layout cfg v = Some pv ->
  0 <= pv -> pv + 1 < 65536 -> 0 <= k < 65536 ->
  exists st', runs_to cfg (template (SConst16 v k)) st st' /\
    word (mem st') pv = k /\
    only_changes [pv; pv + 1] st st' /\ keeps_xys st st'.
Proof.
  intros cfg v k pv st Hp Vv Lv Rv Rv' Rk. destruct (split16 k Rk) as (Hl & Hh & Ek).
  destruct (copy2_gen cfg (Lit (k mod 256)) pv (Lit (k / 256)) (pv + 1)
              (imm (k mod 256)) v (imm (k / 256)) (hi v) st) as (st' & Hr & _ & _ & Ew & Hf);
    [apply imm_r|apply cell_w, cell_var|apply imm_r|apply cell_w, cell_varh|exact I|lia|]; try assumption; try lia.
  exists st'. unfold word. rewrite Ew. cbn [srcv]. rewrite <- Ek. auto.
Qed.

Theorem C01_tpl_hibyte : forall cfg dst x pd px st,
  ports cfg = [] -> var_name dst -> var_name x ->
  layout cfg dst = Some pd -> layout cfg x = Some px ->
  0 <= pd < 65536 -> 0 <= px -> px + 1 < 65536 -> bytes_ok st ->
  exists st', runs_to cfg (template (SHiByte dst x)) st st' /\
    mget (mem st') pd = mget (mem st) (px + 1) /\
    mget (mem st') pd = word (mem st) px / 256 /\
    only_changes [pd] st st' /\ keeps_xys st st'.
Proof.
  intros cfg dst x pd px st Hp Vd Vx Ld Lx Rd Rx Rx' (_ & _ & _ & _ & HM).
  destruct (copy_gen cfg (Cell (px + 1)) pd (hi x) dst st) as (st' & Hr & E & Hf);
    [apply cell_r, cell_varh|apply cell_w, cell_var|]; try assumption; try lia.
  exists st'. rewrite E. cbn [srcv]. split; [exact Hr|]. split; [reflexivity|]. split; [|exact Hf].
  unfold word. pose proof (HM px). pose proof (HM (px + 1)). Z.div_mod_to_equations. lia.
Qed.

Theorem C01_tpl_lobyte : forall cfg dst x pd px st,
  ports cfg = [] -> var_name dst -> var_name x ->
  layout cfg dst = Some pd -> layout cfg x = Some px ->
  0 <= pd < 65536 -> 0 <= px -> px + 1 < 65536 -> bytes_ok st ->
  exists st', runs_to cfg (template (SLoByte dst x)) st st' /\
    mget (mem st') pd = mget (mem st) px /\
    mget (mem st') pd = word (mem st) px mod 256 /\
    only_changes [pd] st st' /\ keeps_xys st st'.
Proof.
  intros cfg dst x pd px st Hp Vd Vx Ld Lx Rd Rx Rx' (_ & _ & _ & _ & HM).
  destruct (copy_gen cfg (Cell px) pd x dst st) as (st' & Hr & E & Hf);
    [apply cell_r, cell_var|apply cell_w, cell_var|]; try assumption; try lia.
  exists st'. rewrite E. cbn [srcv]. split; [exact Hr|]. split; [reflexivity|]. split; [|exact Hf].
  unfold word. pose proof (HM px). pose proof (HM (px + 1)). Z.div_mod_to_equations. lia.
Qed.

Theorem C01_tpl_shl16_8 : forall cfg dst x pd px st,
  ports cfg = [] -> var_name dst -> var_name x ->
  layout cfg dst = Some pd -> layout cfg x = Some px ->
  0 <= pd -> pd + 1 < 65536 -> 0 <= px < 65536 ->
  pd <> px -> bytes_ok st ->
  exists st', runs_to cfg (template (SShl16_8 dst x)) st st' /\
    mget (mem st') pd = 0 /\ mget (mem st') (pd + 1) = mget (mem st) px /\
    word (mem st') pd = (256 * word (mem st) px) mod 65536 /\
    only_changes [pd; pd + 1] st st' /\ keeps_xys st st'.
Proof.
  intros cfg dst x pd px st Hp Vd Vx Ld Lx Rd Rd' Rx Hne (_ & _ & _ & _ & HM).
  destruct (copy2_gen cfg (Lit 0) pd (Cell px) (pd + 1) (imm 0) dst x (hi dst) st)
    as (st' & Hr & E1 & E2 & Ew & Hf);
      [apply imm_r|apply cell_w, cell_var|apply cell_r, cell_var|
       apply cell_w, cell_varh|cbn; lia|lia|]; try assumption; try lia.
  exists st'. unfold word. rewrite Ew, E1, E2. cbn [srcv].
  split; [exact Hr|]. split; [reflexivity|]. split; [reflexivity|]. split; [|exact Hf].
  pose proof (HM px). pose proof (HM (px + 1)). Z.div_mod_to_equations. lia.
Qed.

(** known finding F-C01-shl8-self-assign on the model: with source = destination the template stores 0 *)
Theorem C01_tpl_shl16_8_alias_refuted :
  exists st st', bytes_ok st /\ runs_to cfg_listing (template (SShl16_8 "s" "s")) st st' /\
    word (mem st) 134 = 1 /\ (256 * word (mem st) 134) mod 65536 = 256 /\ word (mem st') 134 = 0.
Proof. exact shl16_8_alias_refuted. Qed.


(** * 16-bit comparisons (Model/GenCmp16.v: the sequences the generator emits for 20 conditional forms,
    compared with the real generator on every run).  Unsigned forms: proved correct on [Sem.run] for
    ALL states (the [>] / [<=] sequences are those of fix 4099f0d; the sequences before that fix are
    kept as [code16_old] with their exact failure set: known finding F-C01-cmp16-unsigned-borrow,
    fixed).  Signed forms: correct exactly when the 16-bit subtraction does not overflow; wrong on
    every overflowing pair (known finding F-C01-cmp16). *)
From CC Require Import Model.GenCmp16 Proofs.GenCmp16Facts.

Theorem C01_cmp16_if16_cc_correct : forall o cfg x y dst lend lstart px py pd pcc st,
  keeps_lo o = true ->
  ports cfg = [] -> var_name x -> var_name y -> var_name dst ->
  lend <> ""%string -> (o <> REq -> lstart <> ""%string /\ lstart <> lend) ->
  layout cfg x = Some px -> layout cfg y = Some py -> layout cfg dst = Some pd ->
  layout cfg cctmp = Some pcc ->
  0 <= px -> px + 1 < 65536 -> 0 <= py -> py + 1 < 65536 -> 0 <= pd < 65536 -> 0 <= pcc < 65536 ->
  pcc <> px + 1 -> pcc <> py + 1 -> pd <> pcc ->
  bytes_ok st ->
  exists st', runs_to cfg (code16 (CIf16 o x y dst lend lstart)) st st' /\
    mget (mem st') pd
    = (if rel16 o (word (mem st) px) (word (mem st) py) then 1 else mget (mem st) pd) /\
    only_changes [pd; pcc] st st' /\ keeps_xys st st'.
Proof. exact if16_cc_correct. Qed.

Theorem C01_cmp16_if16_nocc_correct : forall o cfg x y dst lend lstart px py pd st,
  keeps_lo o = false ->
  ports cfg = [] -> var_name x -> var_name y -> var_name dst ->
  lend <> ""%string ->
  layout cfg x = Some px -> layout cfg y = Some py -> layout cfg dst = Some pd ->
  0 <= px -> px + 1 < 65536 -> 0 <= py -> py + 1 < 65536 -> 0 <= pd < 65536 ->
  bytes_ok st ->
  exists st', runs_to cfg (code16 (CIf16 o x y dst lend lstart)) st st' /\
    mget (mem st') pd
    = (if rel16 o (word (mem st) px) (word (mem st) py) then 1 else mget (mem st) pd) /\
    only_changes [pd] st st' /\ keeps_xys st st'.
Proof.
  intros o cfg x y dst lend lstart px py pd st Hk Hp Vx Vy Vd Hle Lx Ly Ld Rx Rx' Ry Ry' Rd Hb.
  pose proof (if16_gen o cfg x y (hi y) (Cell py) (Cell (py + 1)) (word (mem st) py) dst lend lstart
                px pd 0 st Hp Vx Vd) as G.
  cbn [code16]. rewrite Hk in G |- *.
  apply G; try assumption; try discriminate; try reflexivity;
    [apply cell_r, cell_var|apply cell_r, cell_varh]; try assumption; lia.
Qed.

Theorem C01_cmp16_if16k_cc_correct : forall o cfg x k dst lend lstart px pd pcc st,
  keeps_lo o = true ->
  ports cfg = [] -> var_name x -> var_name dst ->
  lend <> ""%string -> (o <> REq -> lstart <> ""%string /\ lstart <> lend) ->
  layout cfg x = Some px -> layout cfg dst = Some pd -> layout cfg cctmp = Some pcc ->
  0 <= px -> px + 1 < 65536 -> 0 <= pd < 65536 -> 0 <= pcc < 65536 -> 0 <= k < 65536 ->
  pcc <> px + 1 -> pd <> pcc ->
  bytes_ok st ->
  exists st', runs_to cfg (code16 (CIf16K o x k dst lend lstart)) st st' /\
    mget (mem st') pd = (if rel16 o (word (mem st) px) k then 1 else mget (mem st) pd) /\
    only_changes [pd; pcc] st st' /\ keeps_xys st st'.
Proof. exact if16k_cc_correct. Qed.

Theorem C01_cmp16_if16k_nocc_correct : forall o cfg x k dst lend lstart px pd st,
  keeps_lo o = false ->
  ports cfg = [] -> var_name x -> var_name dst ->
  lend <> ""%string ->
  layout cfg x = Some px -> layout cfg dst = Some pd ->
  0 <= px -> px + 1 < 65536 -> 0 <= pd < 65536 -> 0 <= k < 65536 ->
  bytes_ok st ->
  exists st', runs_to cfg (code16 (CIf16K o x k dst lend lstart)) st st' /\
    mget (mem st') pd = (if rel16 o (word (mem st) px) k then 1 else mget (mem st) pd) /\
    only_changes [pd] st st' /\ keeps_xys st st'.
Proof.
  intros o cfg x k dst lend lstart px pd st Hk Hp Vx Vd Hle Lx Ld Rx Rx' Rd Rk Hb.
  destruct (split16 k Rk) as (Hl & Hh & Ek).
  pose proof (if16_gen o cfg x _ _ (Lit (k mod 256)) (Lit (k / 256)) k dst lend lstart px pd 0 st
                Hp Vx Vd (imm_r _ _ _ Hl) (imm_r _ _ _ Hh) Hle) as G.
  cbn [code16]. rewrite Hk in G |- *. apply G; try assumption; discriminate.
Qed.

Theorem C01_cmp16_ifnz16_correct : forall cfg x dst lend lstart px pd pcc st,
  ports cfg = [] -> var_name x -> var_name dst ->
  lend <> ""%string -> lstart <> ""%string -> lstart <> lend ->
  layout cfg x = Some px -> layout cfg dst = Some pd -> layout cfg cctmp = Some pcc ->
  0 <= px -> px + 1 < 65536 -> 0 <= pd < 65536 -> 0 <= pcc < 65536 ->
  pcc <> px + 1 -> pd <> pcc ->
  bytes_ok st ->
  exists st', runs_to cfg (code16 (CIfNz16 x dst lend lstart)) st st' /\
    mget (mem st') pd = (if negb (word (mem st) px =? 0) then 1 else mget (mem st) pd) /\
    only_changes [pd; pcc] st st' /\ keeps_xys st st'.
Proof. exact ifnz16_correct. Qed.

Theorem C01_cmp16_ifz16_correct : forall cfg x dst lend px pd pcc st,
  ports cfg = [] -> var_name x -> var_name dst ->
  lend <> ""%string ->
  layout cfg x = Some px -> layout cfg dst = Some pd -> layout cfg cctmp = Some pcc ->
  0 <= px -> px + 1 < 65536 -> 0 <= pd < 65536 -> 0 <= pcc < 65536 ->
  pcc <> px + 1 -> pd <> pcc ->
  bytes_ok st ->
  exists st', runs_to cfg (code16 (CIfZ16 x dst lend)) st st' /\
    mget (mem st') pd = (if word (mem st) px =? 0 then 1 else mget (mem st) pd) /\
    only_changes [pd; pcc] st st' /\ keeps_xys st st'.
Proof. exact ifz16_correct. Qed.

Theorem C01_cmp16_iflt16_8_correct : forall cfg x y dst lend px py pd st,
  ports cfg = [] -> var_name x -> var_name y -> var_name dst ->
  lend <> ""%string ->
  layout cfg x = Some px -> layout cfg y = Some py -> layout cfg dst = Some pd ->
  0 <= px -> px + 1 < 65536 -> 0 <= py < 65536 -> 0 <= pd < 65536 ->
  bytes_ok st ->
  exists st', runs_to cfg (code16 (CIfLt16_8 x y dst lend)) st st' /\
    mget (mem st') pd
    = (if word (mem st) px <? mget (mem st) py then 1 else mget (mem st) pd) /\
    only_changes [pd] st st' /\ keeps_xys st st'.
Proof.
  intros cfg x y dst lend px py pd st Hp Vx Vy Vd Hle Lx Ly Ld Rx Rx' Ry Rd Hb.
  apply (if16_gen RLt cfg x y (imm 0) (Cell py) (Lit 0) (mget (mem st) py) dst lend "" px pd 0 st);
    try assumption; try discriminate.
  - apply cell_r, cell_var; assumption.
  - apply imm_r. lia.
  - exact (eq_sym (Z.add_0_r _)).
Qed.

Theorem C01_cmp16_dolt16_iter : forall cfg x y v lloop lend px py pv st,
  ports cfg = [] -> var_name x -> var_name y -> var_name v ->
  lloop <> ""%string ->
  layout cfg x = Some px -> layout cfg y = Some py -> layout cfg v = Some pv ->
  0 <= px -> px + 1 < 65536 -> 0 <= py -> py + 1 < 65536 -> 0 <= pv < 65536 ->
  pv <> px -> pv <> px + 1 -> pv <> py -> pv <> py + 1 ->
  bytes_ok st ->
  exists st', iter_to cfg (code16 (CDoLt16 x y v lloop lend)) lloop st
                (word (mem st) px <? word (mem st) py) st' /\
    mget (mem st') pv = (mget (mem st) pv + 1) mod 256 /\
    only_changes [pv] st st' /\ keeps_xys st st'.
Proof. exact dolt16_iter. Qed.

Theorem C01_cmp16_dogt16_iter : forall cfg x y v lloop lstart lend px py pv pcc st,
  ports cfg = [] -> var_name x -> var_name y -> var_name v ->
  lloop <> ""%string -> lstart <> ""%string -> lstart <> lloop ->
  layout cfg x = Some px -> layout cfg y = Some py -> layout cfg v = Some pv ->
  layout cfg cctmp = Some pcc ->
  0 <= px -> px + 1 < 65536 -> 0 <= py -> py + 1 < 65536 -> 0 <= pv < 65536 -> 0 <= pcc < 65536 ->
  pv <> px -> pv <> px + 1 -> pv <> py -> pv <> py + 1 ->
  pcc <> px + 1 -> pcc <> py + 1 -> pv <> pcc ->
  bytes_ok st ->
  exists st', iter_to cfg (code16 (CDoGt16 x y v lloop lstart lend)) lloop st
                (word (mem st) py <? word (mem st) px) st' /\
    mget (mem st') pv = (mget (mem st) pv + 1) mod 256 /\
    only_changes [pv; pcc] st st' /\ keeps_xys st st'.
Proof. exact dogt16_iter. Qed.

Theorem C01_cmp16_ifslt16_correct_no_overflow : forall cfg x y dst lend px py pd st,
  ports cfg = [] -> var_name x -> var_name y -> var_name dst ->
  lend <> ""%string ->
  layout cfg x = Some px -> layout cfg y = Some py -> layout cfg dst = Some pd ->
  0 <= px -> px + 1 < 65536 -> 0 <= py -> py + 1 < 65536 -> 0 <= pd < 65536 ->
  bytes_ok st ->
  -32768 <= sval (word (mem st) px) - sval (word (mem st) py) <= 32767 ->
  exists st', runs_to cfg (code16 (CIfSLt16 x y dst lend)) st st' /\
    mget (mem st') pd
    = (if sval (word (mem st) px) <? sval (word (mem st) py) then 1 else mget (mem st) pd) /\
    only_changes [pd] st st' /\ keeps_xys st st'.
Proof. exact ifslt16_correct_no_overflow. Qed.

Theorem C01_cmp16_ifslt16_wrong_on_overflow : forall cfg x y dst lend px py pd st,
  ports cfg = [] -> var_name x -> var_name y -> var_name dst ->
  lend <> ""%string ->
  layout cfg x = Some px -> layout cfg y = Some py -> layout cfg dst = Some pd ->
  0 <= px -> px + 1 < 65536 -> 0 <= py -> py + 1 < 65536 -> 0 <= pd < 65536 ->
  bytes_ok st ->
  ~ (-32768 <= sval (word (mem st) px) - sval (word (mem st) py) <= 32767) ->
  exists st', runs_to cfg (code16 (CIfSLt16 x y dst lend)) st st' /\
    mget (mem st') pd
    = (if sval (word (mem st) px) <? sval (word (mem st) py) then mget (mem st) pd else 1).
Proof. exact ifslt16_wrong_on_overflow. Qed.

Theorem C01_cmp16_ifsge16_correct_no_overflow : forall cfg x y dst lend px py pd st,
  ports cfg = [] -> var_name x -> var_name y -> var_name dst ->
  lend <> ""%string ->
  layout cfg x = Some px -> layout cfg y = Some py -> layout cfg dst = Some pd ->
  0 <= px -> px + 1 < 65536 -> 0 <= py -> py + 1 < 65536 -> 0 <= pd < 65536 ->
  bytes_ok st ->
  -32768 <= sval (word (mem st) px) - sval (word (mem st) py) <= 32767 ->
  exists st', runs_to cfg (code16 (CIfSGe16 x y dst lend)) st st' /\
    mget (mem st') pd
    = (if sval (word (mem st) py) <=? sval (word (mem st) px) then 1 else mget (mem st) pd) /\
    only_changes [pd] st st' /\ keeps_xys st st'.
Proof. exact ifsge16_correct_no_overflow. Qed.

Theorem C01_cmp16_ifsge16_wrong_on_overflow : forall cfg x y dst lend px py pd st,
  ports cfg = [] -> var_name x -> var_name y -> var_name dst ->
  lend <> ""%string ->
  layout cfg x = Some px -> layout cfg y = Some py -> layout cfg dst = Some pd ->
  0 <= px -> px + 1 < 65536 -> 0 <= py -> py + 1 < 65536 -> 0 <= pd < 65536 ->
  bytes_ok st ->
  ~ (-32768 <= sval (word (mem st) px) - sval (word (mem st) py) <= 32767) ->
  exists st', runs_to cfg (code16 (CIfSGe16 x y dst lend)) st st' /\
    mget (mem st') pd
    = (if sval (word (mem st) py) <=? sval (word (mem st) px) then mget (mem st) pd else 1).
Proof. exact ifsge16_wrong_on_overflow. Qed.

Theorem C01_cmp16_ifslt16_refuted : exists st st',
  bytes_ok st /\
  runs_to cfg16 (code16 (CIfSLt16 "ss" "st" "a" ".ifend1")) st st' /\
  sval (word (mem st) 140) = -32768 /\ sval (word (mem st) 142) = 1 /\
  sval (word (mem st) 140) < sval (word (mem st) 142) /\
  mget (mem st) 128 = 0 /\ mget (mem st') 128 = 0.
Proof. exact ifslt16_refuted. Qed.

Theorem C01_cmp16_ifsge16_refuted : exists st st',
  bytes_ok st /\
  runs_to cfg16 (code16 (CIfSGe16 "ss" "st" "a" ".ifend1")) st st' /\
  sval (word (mem st) 140) = -32768 /\ sval (word (mem st) 142) = 1 /\
  ~ (sval (word (mem st) 142) <= sval (word (mem st) 140)) /\
  mget (mem st) 128 = 0 /\ mget (mem st') 128 = 1.
Proof. exact ifsge16_refuted. Qed.

Theorem C01_cmp16_old_le16_char : forall cfg x y dst lend lhere lstart px py pd pcc st,
  ports cfg = [] -> var_name x -> var_name y -> var_name dst ->
  lend <> ""%string -> lhere <> ""%string -> lstart <> ""%string ->
  lhere <> lend -> lhere <> lstart -> lstart <> lend ->
  layout cfg x = Some px -> layout cfg y = Some py -> layout cfg dst = Some pd ->
  layout cfg cctmp = Some pcc ->
  0 <= px -> px + 1 < 65536 -> 0 <= py -> py + 1 < 65536 -> 0 <= pd < 65536 -> 0 <= pcc < 65536 ->
  pcc <> px + 1 -> pcc <> py + 1 -> pd <> pcc ->
  bytes_ok st ->
  exists st', runs_to cfg (code16_old (OIfLe16 x y dst lend lhere lstart)) st st' /\
    mget (mem st') pd
    = (if (word (mem st) px <=? word (mem st) py) && (word (mem st) py - word (mem st) px <? 65281)
       then 1 else mget (mem st) pd) /\
    only_changes [pd; pcc] st st' /\ keeps_xys st st'.
Proof. exact old_le16_char. Qed.

Theorem C01_cmp16_old_le16_refuted : exists st st',
  bytes_ok st /\
  runs_to cfg16 (code16_old (OIfLe16 "s" "t" "a" ".ifend1" ".ifhere2" ".ifstart2")) st st' /\
  word (mem st) 134 = 0 /\ word (mem st) 136 = 65281 /\
  word (mem st) 134 <= word (mem st) 136 /\
  mget (mem st) 128 = 0 /\ mget (mem st') 128 = 0.
Proof. exact old_le16_refuted. Qed.

Theorem C01_cmp16_old_dogt16_iter_char : forall cfg x y v lloop lhere lstart lend px py pv pcc st,
  ports cfg = [] -> var_name x -> var_name y -> var_name v ->
  lloop <> ""%string -> lhere <> ""%string -> lstart <> ""%string ->
  lhere <> lloop -> lstart <> lloop -> lhere <> lstart ->
  layout cfg x = Some px -> layout cfg y = Some py -> layout cfg v = Some pv ->
  layout cfg cctmp = Some pcc ->
  0 <= px -> px + 1 < 65536 -> 0 <= py -> py + 1 < 65536 -> 0 <= pv < 65536 -> 0 <= pcc < 65536 ->
  pv <> px -> pv <> px + 1 -> pv <> py -> pv <> py + 1 ->
  pcc <> px + 1 -> pcc <> py + 1 -> pv <> pcc ->
  bytes_ok st ->
  exists st', iter_to cfg (code16_old (ODoGt16 x y v lloop lhere lstart lend)) lloop st
                ((word (mem st) py <? word (mem st) px)
                 || (65281 <=? word (mem st) py - word (mem st) px)) st' /\
    mget (mem st') pv = (mget (mem st) pv + 1) mod 256 /\
    only_changes [pv; pcc] st st' /\ keeps_xys st st'.
Proof. exact old_dogt16_iter_char. Qed.
