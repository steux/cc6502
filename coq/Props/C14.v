(** C14 — inlining is transparent: the shape of expansions, then label renaming, embedding and
    expansion on [Sem.run], then inline = call (see tools/props/c14.py for what is co-executed).
    Proofs in Proofs/InlineFacts.v, InlineSemFacts.v, InlineCallFacts.v. *)
From Coq Require Import String Ascii List Bool NArith ZArith.
From CC Require Import Base.Str Asm.Lines Model.Optimize Model.OptSpec Model.InlineRename Proofs.OptFacts.
Import ListNotations.

(** the optimiser never moves or changes a label (so an inlined block keeps its entry/exit labels) *)
Theorem C14_optimize_noninstr_fixed : forall (c : code) (k : nat) (l : line),
  nth_error c k = Some l -> is_ins l = false -> nth_error (fst (optimize c)) k = Some l.
Proof. exact optimize_noninstr_fixed. Qed.

(** inlining appends exactly the renamed body and the exit label; nothing of the caller changes *)
Theorem C14_push_code_shape : forall dst body n,
  push_code dst body n = dst ++ map (rename_line n) body ++ [Lbl (".endofinline" ++ string_of_N n)%string].
Proof. intros. unfold push_code, append_code. rewrite <- app_assoc. reflexivity. Qed.

(** renaming keeps every instruction except the operand text of branches and jumps *)
Theorem C14_rename_keeps_instructions : forall n i,
  renames_operand (i_mn i) = false -> rename_line n (Ins i) = Ins i.
Proof. intros n i H. unfold rename_line. rewrite H. reflexivity. Qed.

From CC Require Import Model.CbSpec Model.WfCode Proofs.InlineFacts.

(** ... of which it keeps the mnemonic, the [protected] flag, the cycles and the size: only the
    operand text gets the suffix *)
Theorem C14_rename_ins_shape : forall n i,
  exists i', rename_line n (Ins i) = Ins i' /\
             i_mn i' = i_mn i /\ i_prot i' = i_prot i /\
             i_cycles i' = i_cycles i /\ i_alt i' = i_alt i /\ i_bytes i' = i_bytes i /\
             i_op i' = if renames_operand (i_mn i) then suffix_of n (i_op i) else i_op i.
Proof. exact rename_ins_shape. Qed.

(** the expansion has exactly the protected instructions and inline-assembly lines of the caller
    followed by those of the body (renamed), in order *)
Theorem C14_push_code_marked : forall dst body n,
  marked (push_code dst body n) = marked dst ++ map (rename_line n) (marked body).
Proof. exact push_code_marked. Qed.

(** labels of the inlined body are exactly the suffixed labels; its branch targets likewise *)
Theorem C14_rename_labels : forall n c, all_labels (map (rename_line n) c) = map (suffix_of n) (all_labels c).
Proof. exact rename_labels. Qed.
Theorem C14_rename_targets : forall n c, local_targets (map (rename_line n) c) = map (suffix_of n) (local_targets c).
Proof. exact rename_targets. Qed.

(** the renaming is injective: two expansions (any counters, nested or not) never share a label *)
Theorem C14_suffix_inj : forall n1 n2 l1 l2,
  suffix_of n1 l1 = suffix_of n2 l2 -> n1 = n2 /\ l1 = l2.
Proof. exact suffix_of_inj. Qed.

(** control flow of the inlined body stays inside the block; its return lands on the exit label *)
Theorem C14_push_code_closed : forall (dst body : code) (n : N),
  (forall t, In t (local_targets body) -> In t (all_labels body) \/ t = ".endof"%string) ->
  forall t, In t (local_targets (map (rename_line n) body)) ->
            In t (all_labels (map (rename_line n) body ++ [Lbl (".endofinline" ++ string_of_N n)%string])).
Proof. exact push_code_closed. Qed.

(** * behaviour on the 6502 semantics (M6502/Sem.v): an inlined expansion executes like its body.
    Proofs in Proofs/InlineSemFacts.v; [runb] is [Sem.run] re-expressed with a call depth so that
    "the body reached its end" can be said ([run_runb] proves them equal). *)
From CC Require Import M6502.Sem Proofs.InlineSemFacts.

Theorem C14_runb_is_run : forall cfg prog inl_sem ext_call fuel fname c pc stack s tr cy,
  run cfg prog inl_sem ext_call fuel fname c pc stack s tr cy
  = out_of (runb cfg prog inl_sem ext_call fuel fname c pc stack (length stack) s tr cy).
Proof. exact run_runb. Qed.

(** renaming the local labels of a body injectively never changes its execution: same state, same
    cycles, same outcome kind, and the same trace event for event ([outcome_sim R]: traces related
    pointwise by [R]) except that the event of a protected branch/jump of the body carries the
    renamed operand text ([ev_ren r e e']: [e' = e], or [e = EvI m raw] of a branch/jump and
    [e' = EvI m (r raw)]); the renaming keeps the protection of every instruction *)
Theorem C14_rename_invariant : forall cfg prog inl_sem ext_call r c, inj_on r c ->
  forall fuel fname pc stack s tr cy,
  outcome_sim (ev_ren r) (run cfg prog inl_sem ext_call fuel fname c pc stack s tr cy)
                         (run cfg prog inl_sem ext_call fuel fname (map (rename_sline r) c) pc stack s tr cy).
Proof. exact run_rename. Qed.

(** hence the traces are equal once the operand text of the branch/jump events is erased
    ([same_erased t t' := map erase_jump_raw t = map erase_jump_raw t']) ... *)
Theorem C14_rename_invariant_erased : forall cfg prog inl_sem ext_call r c, inj_on r c ->
  forall fuel fname pc stack s tr cy,
  outcome_rel same_erased (run cfg prog inl_sem ext_call fuel fname c pc stack s tr cy)
                          (run cfg prog inl_sem ext_call fuel fname (map (rename_sline r) c) pc stack s tr cy).
Proof. exact run_rename_erased. Qed.

(** ... and, weaker still, once the branch/jump events are removed altogether
    ([same_nonjump t t' := filter keep_nonjump t = filter keep_nonjump t']) *)
Theorem C14_rename_invariant_weak : forall cfg prog inl_sem ext_call r c, inj_on r c ->
  forall fuel fname pc stack s tr cy,
  outcome_rel same_nonjump (run cfg prog inl_sem ext_call fuel fname c pc stack s tr cy)
                           (run cfg prog inl_sem ext_call fuel fname (map (rename_sline r) c) pc stack s tr cy).
Proof. exact run_rename_weak. Qed.

(** exactly equal when no branch of the body is protected *)

Theorem C14_rename_invariant_exact : forall cfg prog inl_sem ext_call r c, inj_on r c -> unprot_jumps c ->
  forall fuel fname pc stack s tr cy,
  run cfg prog inl_sem ext_call fuel fname (map (rename_sline r) c) pc stack s tr cy
  = run cfg prog inl_sem ext_call fuel fname c pc stack s tr cy.
Proof. exact run_rename_eq. Qed.

(** the model's renaming is that renaming (protected flags included) *)
Theorem C14_model_rename : forall n c sc, slines_of c = Some sc -> jump_ops_nonempty c ->
  slines_of (map (rename_line n) c) = Some (map (rename_sline (suffix_of n)) sc).
Proof. exact slines_of_rename. Qed.

(** a closed block with fresh labels placed inside a larger code runs exactly as it runs alone,
    and when it reaches its end the larger code continues right after it (calls, RTS, RTI included) *)
Theorem C14_embedding : forall cfg prog inl_sem ext_call fname0 pre body post base,
  sclosed body -> (forall l, In l (slabels body) -> ~ In l (slabels pre)) ->
  forall fuel k s tr cy, k <= length body ->
  emb_res cfg prog inl_sem ext_call fname0 pre body post base
          (runb cfg prog inl_sem ext_call fuel fname0 body k base 0 s tr cy)
          (run cfg prog inl_sem ext_call fuel fname0 (pre ++ body ++ post) (length pre + k) base s tr cy).
Proof. exact embed_run. Qed.

(** the expansion [push_code dst body n], entered at [length dst], behaves like the body followed by
    its exit label run on its own, for every state, fuel, caller stack and continuation [post];
    traces: event for event the same, up to the suffixed operand text in the events of the body's
    protected branches/jumps *)
Theorem C14_expansion_behaves_like_body : forall cfg prog inl_sem ext_call (dst body : code) (n : N) sd sb,
  slines_of dst = Some sd -> slines_of body = Some sb -> jump_ops_nonempty body ->
  (forall t, In t (local_targets body) -> In t (all_labels body) \/ t = ".endof"%string) ->
  (forall l, In l (all_labels dst) -> forall l0, l <> suffix_of n l0) ->
  let blk' := map (rename_sline (suffix_of n)) (sb ++ [SLbl ".endof"%string]) in
  slines_of (push_code dst body n) = Some (sd ++ blk') /\
  nth_error (sd ++ blk') (length sd + length sb) = Some (SLbl (endof_label n)) /\
  length blk' = S (length sb) /\
  forall post, block_spec cfg prog inl_sem ext_call (tsim (ev_ren (suffix_of n))) sd blk' post
                          (sb ++ [SLbl ".endof"%string]).
Proof. exact push_code_run. Qed.

(** ... in particular with traces equal once the operand text of branch/jump events is erased *)
Theorem C14_expansion_behaves_like_body_erased : forall cfg prog inl_sem ext_call (dst body : code) (n : N) sd sb,
  slines_of dst = Some sd -> slines_of body = Some sb -> jump_ops_nonempty body ->
  (forall t, In t (local_targets body) -> In t (all_labels body) \/ t = ".endof"%string) ->
  (forall l, In l (all_labels dst) -> forall l0, l <> suffix_of n l0) ->
  forall post, block_spec cfg prog inl_sem ext_call same_erased sd
                          (map (rename_sline (suffix_of n)) (sb ++ [SLbl ".endof"%string])) post
                          (sb ++ [SLbl ".endof"%string]).
Proof. exact push_code_run_erased. Qed.

(** ... and exactly equal when no branch/jump of the body is protected *)
Theorem C14_expansion_behaves_like_body_exact : forall cfg prog inl_sem ext_call (dst body : code) (n : N) sd sb,
  slines_of dst = Some sd -> slines_of body = Some sb -> jump_ops_nonempty body -> unprot_jumps sb ->
  (forall t, In t (local_targets body) -> In t (all_labels body) \/ t = ".endof"%string) ->
  (forall l, In l (all_labels dst) -> forall l0, l <> suffix_of n l0) ->
  forall post, block_spec_eq cfg prog inl_sem ext_call sd
                             (map (rename_sline (suffix_of n)) (sb ++ [SLbl ".endof"%string])) post
                             (sb ++ [SLbl ".endof"%string]).
Proof. exact push_code_run_eq. Qed.

From CC Require Import M6502.Isa Asm.Operand Model.OptSem Proofs.GenCmp16Facts Model.GenCall
  Proofs.GenCallFacts Model.InlineCall Proofs.InlineCallFacts.
Local Open Scope Z_scope.

(** * the other side: the OUT-OF-LINE spelling ([JSR f], the function in the program table)
    does what the expansion does.  Model/InlineCall.v: [ret_of_endof body] is the inline body with
    every unprotected [JMP .endof] ([return;] of an inline function) replaced by [RTS];
    [out_of_line body] adds the RTS line of the harness.  Proofs in Proofs/InlineCallFacts.v, on the
    call rule of Proofs/GenCallFacts.v ([goes]: a run inside a function under any call stack;
    [enter d s]: the state the [JSR] enters the callee with, the two markers pushed).
    [scallee sb] / [sinline sb]: the assembled lines of the out-of-line form / of the inline form
    followed by its [.endof] label. *)
Theorem C14_out_of_line_assembles :
  forall (body : code) (sb : list sline),
       slines_of body = Some sb -> slines_of (out_of_line body) = Some (scallee sb).
Proof. exact slines_of_out_of_line. Qed.

(** one instruction that uses neither the hardware stack nor an operand that can denote a cell of
    the stack page does the same in two states equal up to S and two cells of page 1 *)
Theorem C14_exec_up_to_markers :
  forall cfg : config,
       ports cfg = [] ->
       forall m1 m2 : Z,
       256 <= m1 < 512 ->
       256 <= m2 < 512 ->
       forall (m : mnem) (o : operand) (s sc : mstate),
       mrel m1 m2 s sc ->
       stack_free m = true ->
       op_safe cfg m o -> xres_rel m1 m2 s sc (exec cfg m o s) (exec cfg m o sc).
Proof. exact exec_mrel. Qed.

(** the out-of-line form, entered by a [JSR] (any call stack, any depth), reaches one of its RTS
    lines whenever the inline form reaches its end, in a state with the same A, X, Y, flags and
    memory except the two marker cells ([crel]); S as entered.  [body_ok]: the body uses neither
    the stack nor stack-page operands nor inline assembly, does not define [.endof], and refers to
    it by unprotected [JMP]s only *)
Theorem C14_ret_of_endof_runs :
  forall (cfg : config) (prog : sprogram) (body : code) (sb : list sline)
         (f : string) (stack : list frame) (d : Z) (s : mstate) (n : nat)
         (s' : mstate),
       ports cfg = [] ->
       slines_of body = Some sb ->
       body_ok cfg sb ->
       0 <= rS s < 256 ->
       stepn cfg (sinline sb) n 0 s = Some (S (Datatypes.length sb), s') ->
       slines_of (out_of_line body) = Some (scallee sb) /\
       (exists (pr : nat) (sc' : mstate),
          goes cfg prog f (scallee sb) stack 0 (enter d s) pr sc' /\
          is_rts (scallee sb) pr /\
          crel (256 + rS s) (256 + byte (rS s - 1)) (byte d) (byte (255 - d))
            (rS s) (rS (enter d s)) s' sc').
Proof. exact ret_of_endof_runs. Qed.

(** conversely *)
Theorem C14_ret_of_endof_runs_conv :
  forall (cfg : config) (body : code) (sb : list sline) (d : Z) (s : mstate)
         (n pr : nat) (sc' : mstate),
       ports cfg = [] ->
       slines_of body = Some sb ->
       body_ok cfg sb ->
       0 <= rS s < 256 ->
       stepn cfg (scallee sb) n 0 (enter d s) = Some (pr, sc') ->
       is_rts (scallee sb) pr ->
       exists (n' : nat) (s' : mstate),
         stepn cfg (sinline sb) n' 0 s = Some (S (Datatypes.length sb), s') /\
         crel (256 + rS s) (256 + byte (rS s - 1)) (byte d) (byte (255 - d))
           (rS s) (rS (enter d s)) s' sc'.
Proof. exact ret_of_endof_runs_conv. Qed.

(** the caller spelled with the call goes from the [JSR] to the next line, the caller spelled
    with the expansion from the first line of the expansion to the line after [.endofinlineN], in
    states equal but for the two stack-page cells where the [JSR] left its markers
    ([eq_but_markers]), whatever follows and whatever the call stack *)
Theorem C14_inline_equals_call :
  forall (cfg : config) (prog : sprogram)
         (inl_sem ext_call : string -> mstate -> option mstate) (dst body : code)
         (n : N) (sd sb : list sline) (f fname : string) (stack : list frame)
         (post1 post2 : list sline) (p : bool) (raw : string) (s : mstate)
         (k : nat) (s2 : mstate),
       ports cfg = [] ->
       slines_of dst = Some sd ->
       slines_of body = Some sb ->
       jump_ops_nonempty body ->
       (forall t : string, In t (local_targets body) -> In t (all_labels body) \/ t = ".endof") ->
       (forall l : string, In l (all_labels dst) -> forall l0 : string, l <> suffix_of n l0) ->
       body_ok cfg sb ->
       find_func f prog = Some (scallee sb) ->
       0 <= rS s < 256 ->
       stepn cfg (sinline sb) k 0 s = Some (S (Datatypes.length sb), s2) ->
       let blk' := map (rename_sline (suffix_of n)) (sinline sb) in
       slines_of (push_code dst body n) = Some (sd ++ blk') /\
       slines_of (out_of_line body) = Some (scallee sb) /\
       (exists s1 : mstate,
          goes cfg prog fname (sd ++ [SIns JSR (OLbl f) p raw] ++ post1) stack
            (Datatypes.length sd) s (S (Datatypes.length sd)) s1 /\ eq_but_markers s1 s2 (rS s)) /\
       (forall (fuel : nat) (tr : list event) (cy : N),
        exists (tr' : list event) (cy' : N),
          run cfg prog inl_sem ext_call (k + S fuel) fname (sd ++ blk' ++ post2)
            (Datatypes.length sd) stack s tr cy =
          run cfg prog inl_sem ext_call (S fuel) fname (sd ++ blk' ++ post2)
            (Datatypes.length sd + Datatypes.length blk') stack s2 tr' cy').
Proof. exact inline_equals_call. Qed.

(** conversely: if the callee reaches an RTS, the inline form ends, and the same holds *)
Theorem C14_inline_equals_call_conv :
  forall (cfg : config) (prog : sprogram)
         (inl_sem ext_call : string -> mstate -> option mstate) (dst body : code)
         (n : N) (sd sb : list sline) (f fname : string) (stack : list frame)
         (post1 post2 : list sline) (p : bool) (raw : string) (s : mstate)
         (j pr : nat) (sc' : mstate),
       ports cfg = [] ->
       slines_of dst = Some sd ->
       slines_of body = Some sb ->
       jump_ops_nonempty body ->
       (forall t : string, In t (local_targets body) -> In t (all_labels body) \/ t = ".endof") ->
       (forall l : string, In l (all_labels dst) -> forall l0 : string, l <> suffix_of n l0) ->
       body_ok cfg sb ->
       find_func f prog = Some (scallee sb) ->
       0 <= rS s < 256 ->
       stepn cfg (scallee sb) j 0 (enter (Z.of_nat (Datatypes.length stack) + 1) s) =
       Some (pr, sc') ->
       is_rts (scallee sb) pr ->
       let blk' := map (rename_sline (suffix_of n)) (sinline sb) in
       exists (k : nat) (s2 : mstate),
         stepn cfg (sinline sb) k 0 s = Some (S (Datatypes.length sb), s2) /\
         (exists s1 : mstate,
            goes cfg prog fname (sd ++ [SIns JSR (OLbl f) p raw] ++ post1) stack
              (Datatypes.length sd) s (S (Datatypes.length sd)) s1 /\ eq_but_markers s1 s2 (rS s)) /\
         (forall (fuel : nat) (tr : list event) (cy : N),
          exists (tr' : list event) (cy' : N),
            run cfg prog inl_sem ext_call (k + S fuel) fname (sd ++ blk' ++ post2)
              (Datatypes.length sd) stack s tr cy =
            run cfg prog inl_sem ext_call (S fuel) fname (sd ++ blk' ++ post2)
              (Datatypes.length sd + Datatypes.length blk') stack s2 tr' cy').
Proof. exact inline_equals_call_conv. Qed.

(** the compiler's example [inline void f() { if (a) return; c = 1; }  void main() { f(); b = 2; }]
    (Model/InlineCall.v: the exact -O0 output for both spellings) satisfies the hypotheses ... *)
Theorem C14_example_body_ok :
  body_ok cfg_calls ex_sb.
Proof. exact ex_body_ok. Qed.

Theorem C14_example_inline_equals_call :
  forall (prog : sprogram) (inl_sem ext_call : string -> mstate -> option mstate)
         (fname : string) (stack : list frame) (post1 post2 : list sline)
         (s : mstate) (k : nat) (s2 : mstate),
       find_func "f" prog = Some (scallee ex_sb) ->
       0 <= rS s < 256 ->
       stepn cfg_calls (sinline ex_sb) k 0 s = Some (S (Datatypes.length ex_sb), s2) ->
       let blk' := map (rename_sline (suffix_of 1)) (sinline ex_sb) in
       (exists s1 : mstate,
          goes cfg_calls prog fname ([SIns JSR (OLbl "f") false "f"] ++ post1) stack 0 s 1 s1 /\
          eq_but_markers s1 s2 (rS s)) /\
       (forall (fuel : nat) (tr : list event) (cy : N),
        exists (tr' : list event) (cy' : N),
          run cfg_calls prog inl_sem ext_call (k + S fuel) fname (blk' ++ post2) 0 stack s tr cy =
          run cfg_calls prog inl_sem ext_call (S fuel) fname (blk' ++ post2)
            (Datatypes.length blk') stack s2 tr' cy').
Proof. exact ex_inline_equals_call. Qed.

(** ... and both spellings of the whole program, run from a = 0 and from a = 1: the same variables,
    registers and S *)
Theorem C14_example_runs_a0 :
  run_ex ex_prog_call ex_main_call (st_calls 0 9) = Some (0, 2, 1, 2, 7, 2, 255) /\
       run_ex [] ex_main_inline (st_calls 0 9) = Some (0, 2, 1, 2, 7, 2, 255).
Proof. exact ex_both_spellings_a0. Qed.

Theorem C14_example_runs_a1 :
  run_ex ex_prog_call ex_main_call (st_calls 1 9) = Some (1, 2, 0, 2, 7, 2, 255) /\
       run_ex [] ex_main_inline (st_calls 1 9) = Some (1, 2, 0, 2, 7, 2, 255).
Proof. exact ex_both_spellings_a1. Qed.

