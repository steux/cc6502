(** C01 — emitted 6502 code computes what the C source says: POINTER operations.
    The exact -O0 output of the compiler for seventeen statements over
    [unsigned char a, b, c; unsigned char arr[8]; unsigned char *p, *q;] (Model/GenPtr.v,
    [plisting_NN], compared with the real compiler by tools/props) is run on the executable 6502
    semantics: for ALL byte-valued states, [Sem.run] halts normally ([halts_to]) and the state is
    what the C statement says, under explicit hypotheses: the pointer occupies two consecutive
    ZERO-PAGE cells ([zp_ptr]), the cells of the variables, of the pointer and of the scratch cell
    [cctmp] are distinct and outside the stack page ([ptr_wf], [var_wf]), and the cell the pointer
    designates is none of the pointer's own two cells nor [cctmp] ([no_self_alias]: it MAY be any
    variable or array element).
    One statement is FALSE of the emitted code and is stated as such: [if ( *p ) c = 1;] does not
    restore Y when [*p] is 0 ([C01_ptr_if_deref_zero_y_lost], [C01_ptr_if_deref_y_not_restored]).
    The template theorems are proved in Proofs/GenPtrFacts.v; the listings are their instances. *)
From Coq Require Import String List Bool NArith ZArith Lia.
From CC Require Import Base.Str Asm.Lines M6502.Isa Asm.Operand M6502.Sem Model.OptSem
  Model.GenTemplates Proofs.GenTemplatesFacts Proofs.GenCmp16Facts Model.GenLoops
  Proofs.GenLoopsFacts Model.GenTables Model.GenIf Proofs.GenIfFacts Model.GenPtr Proofs.GenPtrFacts.
Import ListNotations.
Open Scope string_scope.
Open Scope list_scope.
Open Scope Z_scope.

(** [dst = *p;]: dst holds the byte the pointer designates; Y (parked in cctmp) is restored, X and S
    are kept; only dst and cctmp changed *)
Theorem C01_ptr_deref_load : forall cfg dst p pd pp pt st,
  ports cfg = [] -> ptr_wf cfg p pp pt -> var_wf cfg dst pd pp pt ->
  bytes_ok st ->
  no_self_alias pp pt (ptr_val st pp) ->
  exists st', halts_to cfg (deref_load dst p) st st' /\
    mget (mem st') pd = mget (mem st) (ptr_val st pp) /\
    only_changes [pd; pt] st st' /\ keeps_xys st st'.
Proof. exact deref_load_correct. Qed.
Print Assumptions C01_ptr_deref_load.

(** [*p = src;]: the designated cell holds the source (a variable or a constant); only that cell and
    cctmp changed; Y restored *)
Theorem C01_ptr_deref_store : forall cfg p src pp pt st,
  ports cfg = [] -> ptr_wf cfg p pp pt -> src_wf cfg src pp pt ->
  bytes_ok st ->
  no_self_alias pp pt (ptr_val st pp) ->
  exists st', halts_to cfg (deref_store p src) st st' /\
    mget (mem st') (ptr_val st pp) = src_val cfg src st /\
    only_changes [ptr_val st pp; pt] st st' /\ keeps_xys st st'.
Proof. exact deref_store_correct. Qed.
Print Assumptions C01_ptr_deref_store.

(** the constant-index forms [dst = p[k];] / [p[k] = src;]: the cell at (p) + k mod 65536 *)
Theorem C01_ptr_idx_load : forall cfg dst p k pd pp pt st,
  ports cfg = [] -> ptr_wf cfg p pp pt -> var_wf cfg dst pd pp pt -> 0 <= k < 256 ->
  bytes_ok st ->
  no_self_alias pp pt (ptr_at (mem st) pp k) ->
  exists st', halts_to cfg (idx_load dst p k) st st' /\
    mget (mem st') pd = mget (mem st) (ptr_at (mem st) pp k) /\
    only_changes [pd; pt] st st' /\ keeps_xys st st'.
Proof. exact idx_load_correct. Qed.
Print Assumptions C01_ptr_idx_load.

Theorem C01_ptr_idx_store : forall cfg p k src pp pt st,
  ports cfg = [] -> ptr_wf cfg p pp pt -> src_wf cfg src pp pt -> 0 <= k < 256 ->
  bytes_ok st ->
  no_self_alias pp pt (ptr_at (mem st) pp k) ->
  exists st', halts_to cfg (idx_store p k src) st st' /\
    mget (mem st') (ptr_at (mem st) pp k) = src_val cfg src st /\
    only_changes [ptr_at (mem st) pp k; pt] st st' /\ keeps_xys st st'.
Proof. exact idx_store_correct. Qed.
Print Assumptions C01_ptr_idx_store.

(** Y is the index ([dst = p[Y];] / [p[Y] = src;]): no parking, no aliasing hypothesis *)
Theorem C01_ptr_idx_y_load : forall cfg dst p pd pp st,
  ports cfg = [] -> zp_ptr cfg p pp ->
  var_name dst -> layout cfg dst = Some pd -> 0 <= pd < 65536 ->
  exists st', halts_to cfg (idx_y_load dst p) st st' /\
    mget (mem st') pd = mget (mem st) (ptr_at (mem st) pp (rY st)) /\
    only_changes [pd] st st' /\ keeps_xys st st'.
Proof. exact idx_y_load_correct. Qed.
Print Assumptions C01_ptr_idx_y_load.

Theorem C01_ptr_idx_y_store : forall cfg p src pp st,
  ports cfg = [] -> zp_ptr cfg p pp -> src_ok cfg src ->
  exists st', halts_to cfg (idx_y_store p src) st st' /\
    mget (mem st') (ptr_at (mem st) pp (rY st)) = src_val cfg src st /\
    only_changes [ptr_at (mem st) pp (rY st)] st st' /\ keeps_xys st st'.
Proof. exact idx_y_store_correct. Qed.
Print Assumptions C01_ptr_idx_y_store.

(** [p = &x;] / [p = arr;]: the 16-bit value of the pointer is the address of the symbol; [q = p;] *)
Theorem C01_ptr_addr_of : forall cfg p x pp px st,
  ports cfg = [] -> var_name p -> sym_name x ->
  layout cfg p = Some pp -> layout cfg x = Some px ->
  0 <= pp -> pp + 1 < 65536 -> 0 <= px < 65536 ->
  exists st', halts_to cfg (addr_of_tpl p x) st st' /\
    ptr_val st' pp = px /\
    only_changes [pp; pp + 1] st st' /\ keeps_xys st st'.
Proof. exact addr_of_correct. Qed.
Print Assumptions C01_ptr_addr_of.

Theorem C01_ptr_ptr_copy : forall cfg q p pq pp st,
  ports cfg = [] -> var_name q -> var_name p ->
  layout cfg q = Some pq -> layout cfg p = Some pp ->
  0 <= pq -> pq + 1 < 65536 -> 0 <= pp -> pp + 1 < 65536 -> pq <> pp + 1 ->
  exists st', halts_to cfg (ptr_copy_tpl q p) st st' /\
    ptr_val st' pq = ptr_val st pp /\
    only_changes [pq; pq + 1] st st' /\ keeps_xys st st'.
Proof. exact ptr_copy_correct. Qed.
Print Assumptions C01_ptr_ptr_copy.

(** address-of composed with a load: after [p = &x; dst = *p;] dst = x; after [p = arr; dst = p[k];]
    dst = arr[k] *)
Theorem C01_ptr_addr_of_deref : forall cfg p x dst px pd pp pt st,
  ports cfg = [] -> ptr_wf cfg p pp pt -> sym_name x ->
  var_wf cfg x px pp pt -> var_wf cfg dst pd pp pt ->
  exists st', halts_to cfg (addr_of_tpl p x ++ deref_load dst p) st st' /\
    mget (mem st') pd = mget (mem st) px /\
    ptr_val st' pp = px /\
    only_changes [pp; pp + 1; pd; pt] st st' /\ keeps_xys st st'.
Proof. exact addr_of_deref_correct. Qed.
Print Assumptions C01_ptr_addr_of_deref.

Theorem C01_ptr_addr_of_idx_load : forall cfg p x dst k px pd pp pt st,
  ports cfg = [] -> ptr_wf cfg p pp pt -> sym_name x -> layout cfg x = Some px ->
  0 <= px -> 0 <= k < 256 -> px + k < 65536 ->
  var_wf cfg dst pd pp pt ->
  no_self_alias pp pt (px + k) ->
  exists st', halts_to cfg (addr_of_tpl p x ++ idx_load dst p k) st st' /\
    mget (mem st') pd = mget (mem st) (px + k) /\
    ptr_val st' pp = px /\
    only_changes [pp; pp + 1; pd; pt] st st' /\ keeps_xys st st'.
Proof. exact addr_of_idx_load_correct. Qed.
Print Assumptions C01_ptr_addr_of_idx_load.

(** pointer arithmetic: (v + 1), (v - 1), (v + k) mod 65536 *)
Theorem C01_ptr_ptr_inc : forall cfg p lbl pp st,
  ports cfg = [] -> var_name p -> lbl <> ""%string -> layout cfg p = Some pp ->
  0 <= pp -> pp + 1 < 65536 -> bytes_ok st ->
  exists st', halts_to cfg (ptr_inc p lbl) st st' /\
    ptr_val st' pp = (ptr_val st pp + 1) mod 65536 /\
    only_changes [pp; pp + 1] st st' /\ keeps_xys st st'.
Proof. exact ptr_inc_correct. Qed.
Print Assumptions C01_ptr_ptr_inc.

Theorem C01_ptr_ptr_dec : forall cfg p lbl pp st,
  ports cfg = [] -> var_name p -> lbl <> ""%string -> layout cfg p = Some pp ->
  0 <= pp -> pp + 1 < 65536 -> bytes_ok st ->
  exists st', halts_to cfg (ptr_dec p lbl) st st' /\
    ptr_val st' pp = (ptr_val st pp - 1) mod 65536 /\
    only_changes [pp; pp + 1] st st' /\ keeps_xys st st'.
Proof. exact ptr_dec_correct. Qed.
Print Assumptions C01_ptr_ptr_dec.

Theorem C01_ptr_ptr_add : forall cfg p k pp st,
  ports cfg = [] -> var_name p -> layout cfg p = Some pp ->
  0 <= pp -> pp + 1 < 65536 -> 0 <= k < 65536 -> bytes_ok st ->
  exists st', halts_to cfg (ptr_add p k) st st' /\
    ptr_val st' pp = (ptr_val st pp + k) mod 65536 /\
    only_changes [pp; pp + 1] st st' /\ keeps_xys st st'.
Proof. exact ptr_add_correct. Qed.
Print Assumptions C01_ptr_ptr_add.

(** [( *p )++;]: the designated cell is incremented mod 256; [*p += k;]; [dst = *p + y;] *)
Theorem C01_ptr_deref_inc : forall cfg p pp pt st,
  ports cfg = [] -> ptr_wf cfg p pp pt -> bytes_ok st ->
  no_self_alias pp pt (ptr_val st pp) ->
  exists st', halts_to cfg (deref_inc p) st st' /\
    mget (mem st') (ptr_val st pp) = (mget (mem st) (ptr_val st pp) + 1) mod 256 /\
    only_changes [ptr_val st pp; pt] st st' /\ keeps_xys st st'.
Proof. exact deref_inc_correct. Qed.
Print Assumptions C01_ptr_deref_inc.

Theorem C01_ptr_deref_add : forall cfg p k pp pt st,
  ports cfg = [] -> ptr_wf cfg p pp pt -> 0 <= k < 256 -> bytes_ok st ->
  no_self_alias pp pt (ptr_val st pp) ->
  exists st', halts_to cfg (deref_add p k) st st' /\
    mget (mem st') (ptr_val st pp) = (mget (mem st) (ptr_val st pp) + k) mod 256 /\
    only_changes [ptr_val st pp; pt] st st' /\ keeps_xys st st'.
Proof. exact deref_add_correct. Qed.
Print Assumptions C01_ptr_deref_add.

Theorem C01_ptr_deref_plus : forall cfg dst p y pd py pp pt st,
  ports cfg = [] -> ptr_wf cfg p pp pt -> var_wf cfg dst pd pp pt -> var_wf cfg y py pp pt ->
  bytes_ok st ->
  no_self_alias pp pt (ptr_val st pp) ->
  exists st', halts_to cfg (deref_plus dst p y) st st' /\
    mget (mem st') pd = (mget (mem st) (ptr_val st pp) + mget (mem st) py) mod 256 /\
    only_changes [pd; pt] st st' /\ keeps_xys st st'.
Proof. exact deref_plus_correct. Qed.
Print Assumptions C01_ptr_deref_plus.

(** the condition [if ( *p ) B], any body: not 0: the body runs from a state with Y restored; 0: the
    final state is [deref_tested st pt 0], where Y = 0 (the parked value is NOT restored) *)
Theorem C01_ptr_if_deref_tpl : forall cfg p B lbl pp pt (R : mstate -> mstate -> Prop) st,
  ports cfg = [] -> ptr_wf cfg p pp pt -> lbl <> ""%string ->
  no_ret B -> fresh_in lbl B ->
  (forall s, bytes_ok s -> exists s', halts_to cfg B s s' /\ R s s') ->
  bytes_ok st ->
  no_self_alias pp pt (ptr_val st pp) ->
  exists st', halts_to cfg (if_deref_tpl p B lbl) st st' /\
    (if mget (mem st) (ptr_val st pp) =? 0
     then st' = deref_tested st pt 0
     else R (deref_restored st pt (mget (mem st) (ptr_val st pp))) st').
Proof. exact if_deref_tpl_correct. Qed.
Print Assumptions C01_ptr_if_deref_tpl.

(** the two halves for the body [dst = k;] *)
Theorem C01_ptr_if_deref_taken : forall cfg p dst k lbl pd pp pt st,
  ports cfg = [] -> ptr_wf cfg p pp pt -> lbl <> ""%string ->
  var_wf cfg dst pd pp pt -> 0 <= k < 256 ->
  bytes_ok st ->
  no_self_alias pp pt (ptr_val st pp) ->
  mget (mem st) (ptr_val st pp) <> 0 ->
  exists st', halts_to cfg (if_deref_tpl p (assign8 dst k) lbl) st st' /\
    mget (mem st') pd = k /\
    only_changes [pd; pt] st st' /\ keeps_xys st st'.
Proof. exact if_deref_taken_correct. Qed.
Print Assumptions C01_ptr_if_deref_taken.

Theorem C01_ptr_if_deref_zero_y_lost : forall cfg p dst k lbl pd pp pt st,
  ports cfg = [] -> ptr_wf cfg p pp pt -> lbl <> ""%string ->
  var_wf cfg dst pd pp pt -> 0 <= k < 256 ->
  bytes_ok st ->
  no_self_alias pp pt (ptr_val st pp) ->
  mget (mem st) (ptr_val st pp) = 0 ->
  exists st', halts_to cfg (if_deref_tpl p (assign8 dst k) lbl) st st' /\
    rY st' = 0 /\ mget (mem st') pt = rY st /\
    rX st' = rX st /\ rS st' = rS st /\ only_changes [pt] st st'.
Proof. exact if_deref_zero_y_lost. Qed.
Print Assumptions C01_ptr_if_deref_zero_y_lost.

Theorem C01_ptr_if_deref_zero_y_changed : forall cfg p dst k lbl pd pp pt st,
  ports cfg = [] -> ptr_wf cfg p pp pt -> lbl <> ""%string ->
  var_wf cfg dst pd pp pt -> 0 <= k < 256 ->
  bytes_ok st ->
  no_self_alias pp pt (ptr_val st pp) ->
  mget (mem st) (ptr_val st pp) = 0 -> rY st <> 0 ->
  exists st', halts_to cfg (if_deref_tpl p (assign8 dst k) lbl) st st' /\ ~ keeps_xys st st'.
Proof. exact if_deref_zero_y_changed. Qed.
Print Assumptions C01_ptr_if_deref_zero_y_changed.

(** every C identifier is a pointer / symbol name *)
Theorem C01_ptr_ident_ptr_name : forall v, v <> ""%string -> all_ident v = true -> ptr_name v.
Proof. exact ident_ptr_name. Qed.
Print Assumptions C01_ptr_ident_ptr_name.

Theorem C01_ptr_ident_sym_name : forall v, v <> ""%string -> all_ident v = true -> sym_name v.
Proof. exact ident_sym_name. Qed.
Print Assumptions C01_ptr_ident_sym_name.

(** the closed forms of the 17 listings ([plisting_NN] of Model/GenPtr.v), compiler names and label,
    under the single layout hypothesis [ptr_layout] *)
Theorem C01_ptr_plisting_01 : forall cfg pa pb pc parr pp pq pt st,
  ptr_layout cfg pa pb pc parr pp pq pt ->
  exists st', halts_to cfg (addr_of_tpl "p" "a") st st' /\
    ptr_val st' pp = pa /\ only_changes [pp; pp + 1] st st' /\ keeps_xys st st'.
Proof. intros cfg pa pb pc parr pp pq pt st H. lay_p H. apply addr_of_correct; try assumption; lia. Qed.
Print Assumptions C01_ptr_plisting_01.

Theorem C01_ptr_plisting_02 : forall cfg pa pb pc parr pp pq pt st,
  ptr_layout cfg pa pb pc parr pp pq pt ->
  exists st', halts_to cfg (addr_of_tpl "p" "arr") st st' /\
    ptr_val st' pp = parr /\ only_changes [pp; pp + 1] st st' /\ keeps_xys st st'.
Proof. intros cfg pa pb pc parr pp pq pt st H. lay_p H. apply addr_of_correct; try assumption; lia. Qed.
Print Assumptions C01_ptr_plisting_02.

Theorem C01_ptr_plisting_03 : forall cfg pa pb pc parr pp pq pt st,
  ptr_layout cfg pa pb pc parr pp pq pt ->
  exists st', halts_to cfg (ptr_copy_tpl "q" "p") st st' /\
    ptr_val st' pq = ptr_val st pp /\ only_changes [pq; pq + 1] st st' /\ keeps_xys st st'.
Proof. intros cfg pa pb pc parr pp pq pt st H. lay_p H. apply ptr_copy_correct; try assumption; lia. Qed.
Print Assumptions C01_ptr_plisting_03.

Theorem C01_ptr_plisting_04 : forall cfg pa pb pc parr pp pq pt st,
  ptr_layout cfg pa pb pc parr pp pq pt -> bytes_ok st ->
  no_self_alias pp pt (ptr_val st pp) ->
  exists st', halts_to cfg (deref_load "a" "p") st st' /\
    mget (mem st') pa = mget (mem st) (ptr_val st pp) /\
    only_changes [pa; pt] st st' /\ keeps_xys st st'.
Proof. intros cfg pa pb pc parr pp pq pt st H Hb Hal. lay_p H. apply deref_load_correct; assumption. Qed.
Print Assumptions C01_ptr_plisting_04.

Theorem C01_ptr_plisting_05 : forall cfg pa pb pc parr pp pq pt st,
  ptr_layout cfg pa pb pc parr pp pq pt -> bytes_ok st ->
  no_self_alias pp pt (ptr_val st pp) ->
  exists st', halts_to cfg (deref_store "p" (SVar "a")) st st' /\
    mget (mem st') (ptr_val st pp) = mget (mem st) pa /\
    only_changes [ptr_val st pp; pt] st st' /\ keeps_xys st st'.
Proof.
  intros cfg pa pb pc parr pp pq pt st H Hb Hal. lay_p H. rewrite <- (var_val_at cfg "a" pa st La).
  exact (deref_store_correct cfg "p" (SVar "a") pp pt st Hp Wp (ex_intro _ pa Wa) Hb Hal).
Qed.
Print Assumptions C01_ptr_plisting_05.

Theorem C01_ptr_plisting_06 : forall cfg pa pb pc parr pp pq pt st,
  ptr_layout cfg pa pb pc parr pp pq pt -> bytes_ok st ->
  no_self_alias pp pt (ptr_val st pp) ->
  exists st', halts_to cfg (deref_store "p" (SConst 5)) st st' /\
    mget (mem st') (ptr_val st pp) = 5 /\
    only_changes [ptr_val st pp; pt] st st' /\ keeps_xys st st'.
Proof.
  intros cfg pa pb pc parr pp pq pt st H Hb Hal. lay_p H.
  exact (deref_store_correct cfg "p" (SConst 5) pp pt st Hp Wp ltac:(cbn; lia) Hb Hal).
Qed.
Print Assumptions C01_ptr_plisting_06.

Theorem C01_ptr_plisting_07 : forall cfg pa pb pc parr pp pq pt st,
  ptr_layout cfg pa pb pc parr pp pq pt ->
  exists st', halts_to cfg (idx_y_load "a" "p") st st' /\
    mget (mem st') pa = mget (mem st) ((ptr_val st pp + rY st) mod 65536) /\
    only_changes [pa] st st' /\ keeps_xys st st'.
Proof. intros cfg pa pb pc parr pp pq pt st H. lay_p H. exact (idx_y_load_correct cfg "a" "p" pa pp st Hp (proj1 Wp) Na La Ra). Qed.
Print Assumptions C01_ptr_plisting_07.

Theorem C01_ptr_plisting_08 : forall cfg pa pb pc parr pp pq pt st,
  ptr_layout cfg pa pb pc parr pp pq pt ->
  exists st', halts_to cfg (idx_y_store "p" (SVar "a")) st st' /\
    mget (mem st') ((ptr_val st pp + rY st) mod 65536) = mget (mem st) pa /\
    only_changes [(ptr_val st pp + rY st) mod 65536] st st' /\ keeps_xys st st'.
Proof.
  intros cfg pa pb pc parr pp pq pt st H. lay_p H. rewrite <- (var_val_at cfg "a" pa st La).
  exact (idx_y_store_correct cfg "p" (SVar "a") pp st Hp (proj1 Wp) (conj Na (ex_intro _ pa (conj La Ra)))).
Qed.
Print Assumptions C01_ptr_plisting_08.

Theorem C01_ptr_plisting_09 : forall cfg pa pb pc parr pp pq pt st,
  ptr_layout cfg pa pb pc parr pp pq pt -> bytes_ok st ->
  no_self_alias pp pt ((ptr_val st pp + 2) mod 65536) ->
  exists st', halts_to cfg (idx_load "a" "p" 2) st st' /\
    mget (mem st') pa = mget (mem st) ((ptr_val st pp + 2) mod 65536) /\
    only_changes [pa; pt] st st' /\ keeps_xys st st'.
Proof.
  intros cfg pa pb pc parr pp pq pt st H Hb Hal. lay_p H.
  exact (idx_load_correct cfg "a" "p" 2 pa pp pt st Hp Wp Wa ltac:(lia) Hb Hal).
Qed.
Print Assumptions C01_ptr_plisting_09.

Theorem C01_ptr_plisting_10 : forall cfg pa pb pc parr pp pq pt st,
  ptr_layout cfg pa pb pc parr pp pq pt -> bytes_ok st ->
  no_self_alias pp pt ((ptr_val st pp + 2) mod 65536) ->
  exists st', halts_to cfg (idx_store "p" 2 (SVar "a")) st st' /\
    mget (mem st') ((ptr_val st pp + 2) mod 65536) = mget (mem st) pa /\
    only_changes [(ptr_val st pp + 2) mod 65536; pt] st st' /\ keeps_xys st st'.
Proof.
  intros cfg pa pb pc parr pp pq pt st H Hb Hal. lay_p H. rewrite <- (var_val_at cfg "a" pa st La).
  exact (idx_store_correct cfg "p" 2 (SVar "a") pp pt st Hp Wp (ex_intro _ pa Wa) ltac:(lia) Hb Hal).
Qed.
Print Assumptions C01_ptr_plisting_10.

Theorem C01_ptr_plisting_11 : forall cfg pa pb pc parr pp pq pt st,
  ptr_layout cfg pa pb pc parr pp pq pt -> bytes_ok st ->
  exists st', halts_to cfg (ptr_inc "p" ".ifend1") st st' /\
    ptr_val st' pp = (ptr_val st pp + 1) mod 65536 /\
    only_changes [pp; pp + 1] st st' /\ keeps_xys st st'.
Proof. intros cfg pa pb pc parr pp pq pt st H Hb. lay_p H. apply ptr_inc_correct; try assumption; try lia. discriminate. Qed.
Print Assumptions C01_ptr_plisting_11.

Theorem C01_ptr_plisting_12 : forall cfg pa pb pc parr pp pq pt st,
  ptr_layout cfg pa pb pc parr pp pq pt -> bytes_ok st ->
  exists st', halts_to cfg (ptr_dec "p" ".ifend1") st st' /\
    ptr_val st' pp = (ptr_val st pp - 1) mod 65536 /\
    only_changes [pp; pp + 1] st st' /\ keeps_xys st st'.
Proof. intros cfg pa pb pc parr pp pq pt st H Hb. lay_p H. apply ptr_dec_correct; try assumption; try lia. discriminate. Qed.
Print Assumptions C01_ptr_plisting_12.

Theorem C01_ptr_plisting_13 : forall cfg pa pb pc parr pp pq pt st,
  ptr_layout cfg pa pb pc parr pp pq pt -> bytes_ok st ->
  exists st', halts_to cfg (ptr_add "p" 3) st st' /\
    ptr_val st' pp = (ptr_val st pp + 3) mod 65536 /\
    only_changes [pp; pp + 1] st st' /\ keeps_xys st st'.
Proof. intros cfg pa pb pc parr pp pq pt st H Hb. lay_p H. apply ptr_add_correct; try assumption; lia. Qed.
Print Assumptions C01_ptr_plisting_13.

Theorem C01_ptr_plisting_14 : forall cfg pa pb pc parr pp pq pt st,
  ptr_layout cfg pa pb pc parr pp pq pt -> bytes_ok st ->
  no_self_alias pp pt (ptr_val st pp) ->
  exists st', halts_to cfg (deref_inc "p") st st' /\
    mget (mem st') (ptr_val st pp) = (mget (mem st) (ptr_val st pp) + 1) mod 256 /\
    only_changes [ptr_val st pp; pt] st st' /\ keeps_xys st st'.
Proof. intros cfg pa pb pc parr pp pq pt st H Hb Hal. lay_p H. exact (deref_inc_correct cfg "p" pp pt st Hp Wp Hb Hal). Qed.
Print Assumptions C01_ptr_plisting_14.

Theorem C01_ptr_plisting_15 : forall cfg pa pb pc parr pp pq pt st,
  ptr_layout cfg pa pb pc parr pp pq pt -> bytes_ok st ->
  no_self_alias pp pt (ptr_val st pp) ->
  exists st', halts_to cfg (deref_add "p" 2) st st' /\
    mget (mem st') (ptr_val st pp) = (mget (mem st) (ptr_val st pp) + 2) mod 256 /\
    only_changes [ptr_val st pp; pt] st st' /\ keeps_xys st st'.
Proof. intros cfg pa pb pc parr pp pq pt st H Hb Hal. lay_p H. exact (deref_add_correct cfg "p" 2 pp pt st Hp Wp ltac:(lia) Hb Hal). Qed.
Print Assumptions C01_ptr_plisting_15.

Theorem C01_ptr_plisting_16_taken : forall cfg pa pb pc parr pp pq pt st,
  ptr_layout cfg pa pb pc parr pp pq pt -> bytes_ok st ->
  no_self_alias pp pt (ptr_val st pp) ->
  mget (mem st) (ptr_val st pp) <> 0 ->
  exists st', halts_to cfg (if_deref_tpl "p" (assign8 "c" 1) ".ifend1") st st' /\
    mget (mem st') pc = 1 /\ only_changes [pc; pt] st st' /\ keeps_xys st st'.
Proof.
  intros cfg pa pb pc parr pp pq pt st H Hb Hal Hv. lay_p H.
  exact (if_deref_taken_correct cfg "p" "c" 1 ".ifend1" pc pp pt st Hp Wp ltac:(discriminate) Wc ltac:(lia)
           Hb Hal Hv).
Qed.
Print Assumptions C01_ptr_plisting_16_taken.

Theorem C01_ptr_plisting_16_zero_y_lost : forall cfg pa pb pc parr pp pq pt st,
  ptr_layout cfg pa pb pc parr pp pq pt -> bytes_ok st ->
  no_self_alias pp pt (ptr_val st pp) ->
  mget (mem st) (ptr_val st pp) = 0 ->
  exists st', halts_to cfg (if_deref_tpl "p" (assign8 "c" 1) ".ifend1") st st' /\
    rY st' = 0 /\ mget (mem st') pt = rY st /\
    rX st' = rX st /\ rS st' = rS st /\ only_changes [pt] st st'.
Proof.
  intros cfg pa pb pc parr pp pq pt st H Hb Hal Hv. lay_p H.
  exact (if_deref_zero_y_lost cfg "p" "c" 1 ".ifend1" pc pp pt st Hp Wp ltac:(discriminate) Wc ltac:(lia)
           Hb Hal Hv).
Qed.
Print Assumptions C01_ptr_plisting_16_zero_y_lost.

Theorem C01_ptr_plisting_17 : forall cfg pa pb pc parr pp pq pt st,
  ptr_layout cfg pa pb pc parr pp pq pt -> bytes_ok st ->
  no_self_alias pp pt (ptr_val st pp) ->
  exists st', halts_to cfg (deref_plus "a" "p" "b") st st' /\
    mget (mem st') pa = (mget (mem st) (ptr_val st pp) + mget (mem st) pb) mod 256 /\
    only_changes [pa; pt] st st' /\ keeps_xys st st'.
Proof.
  intros cfg pa pb pc parr pp pq pt st H Hb Hal. lay_p H.
  exact (deref_plus_correct cfg "a" "p" "b" pa pb pp pt st Hp Wp Wa Wb Hb Hal).
Qed.
Print Assumptions C01_ptr_plisting_17.

Theorem C01_ptr_addr_of_a_deref : forall cfg pa pb pc parr pp pq pt st,
  ptr_layout cfg pa pb pc parr pp pq pt ->
  exists st', halts_to cfg (addr_of_tpl "p" "a" ++ deref_load "b" "p") st st' /\
    mget (mem st') pb = mget (mem st) pa /\ ptr_val st' pp = pa /\
    only_changes [pp; pp + 1; pb; pt] st st' /\ keeps_xys st st'.
Proof. intros cfg pa pb pc parr pp pq pt st H. lay_p H. exact (addr_of_deref_correct cfg "p" "a" "b" pa pb pp pt st Hp Wp Sa Wa Wb). Qed.
Print Assumptions C01_ptr_addr_of_a_deref.

Theorem C01_ptr_addr_of_arr_idx : forall cfg pa pb pc parr pp pq pt st,
  ptr_layout cfg pa pb pc parr pp pq pt ->
  exists st', halts_to cfg (addr_of_tpl "p" "arr" ++ idx_load "b" "p" 2) st st' /\
    mget (mem st') pb = mget (mem st) (parr + 2) /\ ptr_val st' pp = parr /\
    only_changes [pp; pp + 1; pb; pt] st st' /\ keeps_xys st st'.
Proof.
  intros cfg pa pb pc parr pp pq pt st H. lay_p H.
  apply (addr_of_idx_load_correct cfg "p" "arr" "b" 2 parr pb pp pt st Hp Wp Sarr Larr);
    try lia; try assumption. apply Warr. lia.
Qed.
Print Assumptions C01_ptr_addr_of_arr_idx.

(** the layout hypothesis is satisfiable; the defect of [if ( *p ) c = 1;], run: Y = 7 on entry,
    *p = 0: Y = 0 on exit (known open defect of the compiler; this is its Coq-checked witness) *)
Theorem C01_ptr_cfg_ptr_layout : ptr_layout cfg_ptr 128 129 130 131 140 142 144.
Proof. exact cfg_ptr_layout. Qed.
Print Assumptions C01_ptr_cfg_ptr_layout.

Theorem C01_ptr_if_deref_y_not_restored :
  run_ptr (if_deref_tpl "p" (assign8 "c" 1) ".ifend1") (st_ptr 0 0 0 7 128)
  = Some (0, 0, 0, 128, 1, 0, 255).
Proof. exact if_deref_y_not_restored. Qed.
Print Assumptions C01_ptr_if_deref_y_not_restored.

Theorem C01_ptr_if_deref_y_restored_when_taken :
  run_ptr (if_deref_tpl "p" (assign8 "c" 1) ".ifend1") (st_ptr 5 0 0 7 128)
  = Some (5, 0, 1, 128, 1, 7, 255).
Proof. exact if_deref_y_restored_when_taken. Qed.
Print Assumptions C01_ptr_if_deref_y_restored_when_taken.

Theorem C01_ptr_if_deref_y_not_restored_halts :
  exists st st', bytes_ok st /\ no_self_alias 140 144 (ptr_val st 140) /\
    halts_to cfg_ptr (if_deref_tpl "p" (assign8 "c" 1) ".ifend1") st st' /\
    rY st = 7 /\ rY st' = 0 /\ ~ keeps_xys st st'.
Proof. exact if_deref_y_not_restored_halts. Qed.
Print Assumptions C01_ptr_if_deref_y_not_restored_halts.
