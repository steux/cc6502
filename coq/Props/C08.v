(** C08 — macro expansion is token-exact.  The general theorems are proved in Proofs/MacroFacts.v. *)
From Coq Require Import String Ascii List Bool NArith.
From CC Require Import Base.Str Model.Cpp.
Import ListNotations.
Open Scope string_scope.

(** whole identifiers only: never inside a longer identifier, next to operators yes *)
Theorem C08_example_word_boundary :
  replace_all [("N", MObj "3")] "N+xN+Nx+N_+(N)+N1+-N" = "3+xN+Nx+N_+(3)+N1+-3".
Proof. vm_compute. reflexivity. Qed.

(** positional arguments, nested parentheses and nested calls *)
Theorem C08_example_function_like :
  match run_cpp [] "m.c" [] (map (fun l => l ++ nl)
        ["#define ADD(a,b) a+b"; "#define SQ(x) ((x)*(x))"; "ADD(1,(2,3))"; "SQ(ADD(p,q))"; "ADD(f((g(1))),2)"; "ADD(1)"]) with
  | POk p => p_out p = "1+(2,3)" ++ nl ++ "((p+q)*(p+q))" ++ nl ++ "f((g(1)))+2" ++ nl ++ "ADD(1)" ++ nl
  | PErr _ => False
  end.
Proof. vm_compute. reflexivity. Qed.

(** the known deviation, on the model: the body of F is macro-expanded before its parameters are
    templated, so the earlier macro x takes the place of the parameter x (known finding
    F-C08-param-shadow) *)
Theorem C08_param_shadow_refuted :
  match run_cpp [] "m.c" [] (map (fun l => l ++ nl) ["#define x 5"; "#define F(x) x+1"; "F(3)"]) with
  | POk p => p_out p = "5+1" ++ nl
  | PErr _ => False
  end.
Proof. vm_compute. reflexivity. Qed.

(** repaired: every replacement round computes its match set on the text at the beginning of
    the round, so a name brought in by a replacement is expanded in a later round *)
Theorem C08_dash_d_chain_fixed :
  match run_cpp [] "m.c" [("A", "1"); ("B", "A")] ["B" ++ nl] with
  | POk p => p_out p = "1" ++ nl
  | PErr _ => False
  end.
Proof. vm_compute. reflexivity. Qed.

Theorem C08_object_names_function_macro_fixed :
  match run_cpp [] "m.c" [] (map (fun l => l ++ nl) ["#define F(b) +1"; "#define G F"; "G(2)"]) with
  | POk p => p_out p = "+1" ++ nl
  | PErr _ => False
  end.
Proof. vm_compute. reflexivity. Qed.

From CC Require Import Model.MacroSpec Proofs.MacroFacts.

(** token exactness, for EVERY text: \bNAME\b replacement substitutes exactly the identifier
    tokens equal to the name, nothing else ... *)
Theorem C08_replace_word_token_exact : forall name value s, wordy name ->
  fst (replace_word name value s) = subst_tokens name value s.
Proof. exact replace_word_token_exact. Qed.

(** ... reports a change iff such a token exists ... *)
Theorem C08_replace_word_changed_iff : forall name value s, wordy name ->
  snd (replace_word name value s) = existsb (String.eqb name) (tokens s).
Proof. exact replace_word_changed_iff. Qed.

(** ... and never touches a longer identifier containing the name *)
Theorem C08_inside_identifier_untouched : forall name value pre post,
  wordy name -> wordy (pre ++ name ++ post) -> (pre <> "" \/ post <> "") ->
  replace_word name value (pre ++ name ++ post) = (pre ++ name ++ post, false).
Proof. exact replace_word_inside_identifier. Qed.

(** a set of object-like macros whose values mention no macro name: one simultaneous token
    substitution, complete after the rounds of replace_all *)
Theorem C08_replace_all_independent : forall (ms : list (string * string)) s,
  NoDup (map fst ms) -> (forall n v, In (n, v) ms -> wordy n) ->
  (forall n v m, In (n, v) ms -> In m (map fst ms) -> existsb (String.eqb m) (tokens v) = false) ->
  replace_all (map (fun nv => (fst nv, MObj (snd nv))) ms) s =
  String.concat "" (map (fun t => match find (fun nv => String.eqb (fst nv) t) ms with
                                  | Some nv => snd nv | None => t end) (tokens s)).
Proof. exact replace_all_independent. Qed.

(** chains: an acyclic set of object-like macros ([rank] strictly decreases from a macro to the
    macro names its value mentions) of depth below the 64-round cap is expanded completely, in
    whatever order the macros are listed: every token becomes its full recursive expansion ... *)
Theorem C08_replace_all_chain : forall (ms : list (string * string)) (rank : string -> nat) s,
  NoDup (map fst ms) -> (forall n v, In (n, v) ms -> wordy n) ->
  (forall n v t, In (n, v) ms -> In t (tokens v) -> In t (map fst ms) -> rank t < rank n) ->
  (forall n, In n (map fst ms) -> rank n < 64) ->
  replace_all (map (fun nv => (fst nv, MObj (snd nv))) ms) s = tsubst (expand_tok 64 ms) s.
Proof. exact replace_all_chain. Qed.

(** ... where the expansion of a macro name is its value with every token expanded, any other
    token is kept ... *)
Theorem C08_expand_tok_equations : forall (ms : list (string * string)) (rank : string -> nat),
  NoDup (map fst ms) -> (forall n v, In (n, v) ms -> wordy n) ->
  (forall n v t, In (n, v) ms -> In t (tokens v) -> In t (map fst ms) -> rank t < rank n) ->
  (forall n, In n (map fst ms) -> rank n < 64) ->
  (forall n v, In (n, v) ms -> expand_tok 64 ms n = tsubst (expand_tok 64 ms) v) /\
  (forall t, ~ In t (map fst ms) -> expand_tok 64 ms t = t).
Proof. exact expand_tok_equations. Qed.

(** ... and no macro name is left in the result *)
Theorem C08_replace_all_chain_closed : forall (ms : list (string * string)) (rank : string -> nat) s t,
  NoDup (map fst ms) -> (forall n v, In (n, v) ms -> wordy n) ->
  (forall n v t, In (n, v) ms -> In t (tokens v) -> In t (map fst ms) -> rank t < rank n) ->
  (forall n, In n (map fst ms) -> rank n < 64) ->
  In t (tokens (replace_all (map (fun nv => (fst nv, MObj (snd nv))) ms) s)) ->
  ~ In t (map fst ms).
Proof. exact replace_all_chain_closed. Qed.

(** the line processor calls the CAPPED driver [replace_all_c] (rounds abandoned once a round has
    left more than 64 KiB); it is the function above whenever every text that is followed by
    another round is within the cap ([rounds_within_cap], Proofs/MacroFacts.v, follows the
    recursion of [replace_rounds]) ... *)
Theorem C08_replace_all_c_small : forall ms s,
  rounds_within_cap 64 ms s s -> replace_all_c ms s = replace_all ms s.
Proof. exact replace_all_c_small. Qed.

(** ... in particular when no macro matches ... *)
Theorem C08_replace_all_c_no_change : forall ms s,
  (forall m, In m ms -> macro_matches m s = false) -> replace_all_c ms s = s.
Proof. exact replace_all_c_no_change. Qed.

(** ... or when the first round ends on a text no macro matches (no length hypothesis) ... *)
Theorem C08_replace_all_c_one_round : forall ms s r,
  fst (apply_all ms s s false) = r ->
  (forall m, In m ms -> macro_matches m r = false) ->
  replace_all_c ms s = r /\ replace_all ms s = r.
Proof. exact replace_all_c_one_round. Qed.

(** ... so independent object-like macros are one simultaneous token substitution for the capped
    driver too, whatever the length of the result *)
Theorem C08_replace_all_c_independent : forall (ms : list (string * string)) s,
  NoDup (map fst ms) -> (forall n v, In (n, v) ms -> wordy n) ->
  (forall n v m, In (n, v) ms -> In m (map fst ms) -> existsb (String.eqb m) (tokens v) = false) ->
  replace_all_c (map (fun nv => (fst nv, MObj (snd nv))) ms) s =
  String.concat "" (map (fun t => match find (fun nv => String.eqb (fst nv) t) ms with
                                  | Some nv => snd nv | None => t end) (tokens s)).
Proof. exact replace_all_c_independent. Qed.

(** chains need several rounds, hence the cap hypothesis *)
Theorem C08_replace_all_c_chain : forall (ms : list (string * string)) (rank : string -> nat) s,
  NoDup (map fst ms) -> (forall n v, In (n, v) ms -> wordy n) ->
  (forall n v t, In (n, v) ms -> In t (tokens v) -> In t (map fst ms) -> rank t < rank n) ->
  (forall n, In n (map fst ms) -> rank n < 64) ->
  rounds_within_cap 64 (map (fun nv => (fst nv, MObj (snd nv))) ms) s s ->
  replace_all_c (map (fun nv => (fst nv, MObj (snd nv))) ms) s = tsubst (expand_tok 64 ms) s.
Proof. exact replace_all_c_chain. Qed.

(** the cap does bite: a value mentioning its own name twice doubles the text at every round; the
    capped driver stops after round 16 with 131071 characters *)
Theorem C08_replace_all_c_cap_bites :
  N.of_nat (String.length (replace_all_c [("A", MObj "A A")] "A")) = 131071%N /\
  within_cap (replace_all_c [("A", MObj "A A")] "A") = false.
Proof. split; [exact (proj1 replace_all_c_cap_bites) | exact (proj1 (proj2 replace_all_c_cap_bites))]. Qed.

(** arguments are captured by position, nested parentheses (four levels) included *)
Theorem C08_capture_args_nested : forall args rest, Forall arg_ok args -> args <> [] ->
  capture_args (S (String.length (String.concat "," args ++ ")" ++ rest))) (List.length args)
               (String.concat "," args ++ ")" ++ rest) = Some (args, rest).
Proof. exact capture_args_nested. Qed.

(** and substituted by position *)
Theorem C08_expand_template_param : forall ps args p,
  NoDup ps -> List.length ps = List.length args -> In p ps -> wordy p ->
  expand_template (S (String.length ("$" ++ p))) ("$" ++ p) ps args = nth (index_of p ps) args "".
Proof. exact expand_template_param. Qed.

(** a whole call: NAME(args) becomes the instantiated template *)
Theorem C08_replace_call_whole : forall name ps tmpl args,
  wordy name -> Forall arg_ok args -> args <> [] -> List.length ps = List.length args ->
  replace_call name ps tmpl (name ++ "(" ++ String.concat "," args ++ ")")
  = (expand_template (S (String.length tmpl)) tmpl ps args, true).
Proof. exact replace_call_whole. Qed.

(** blanks (spaces and TABs) between the name of a function-like macro and the parenthesis of a
    call do not matter (repaired defect: "add (1,2)" was left unexpanded): NAME blanks (args)
    expands exactly like NAME(args).  [skip_blanks b = ""]: [b] is made of blanks and TABs *)
Theorem C08_blank_before_paren : forall name ps tmpl args b,
  wordy name -> Forall arg_ok args -> args <> [] -> List.length ps = List.length args ->
  skip_blanks b = "" ->
  replace_call name ps tmpl (name ++ b ++ "(" ++ String.concat "," args ++ ")")
  = replace_call name ps tmpl (name ++ "(" ++ String.concat "," args ++ ")").
Proof. exact replace_call_blank_before_paren. Qed.

(** the general form, at any position of the text: a hit of the call pattern *)
Theorem C08_call_pattern_hit : forall f name ps tmpl prev s b s' args rest,
  s = name ++ b ++ "(" ++ s' ->
  boundary_before prev = true -> name <> "" -> skip_blanks b = "" ->
  capture_args (String.length s) (List.length ps) s' = Some (args, rest) ->
  replace_call_aux (S f) name ps tmpl prev s =
  (expand_template (S (String.length tmpl)) tmpl ps args
     ++ fst (replace_call_aux f name ps tmpl (Some ")"%char) rest), true).
Proof. exact rca_hit_blanks. Qed.

Example C08_blank_before_paren_example :
  let TB := String (ascii_of_nat 9) "" in
  cpp_output (run_cpp [] "m.c" [] ["#define add(a,b) a+b" ++ nl; "x = add (1,2);" ++ nl]) = Some ("x = 1+2;" ++ nl)
  /\ cpp_output (run_cpp [] "m.c" [] ["#define add(a,b) a+b" ++ nl; "x = add" ++ TB ++ "(1,2);" ++ nl]) = Some ("x = 1+2;" ++ nl)
  /\ cpp_output (run_cpp [] "m.c" [] ["#define add(a,b) a+b" ++ nl; "x = add " ++ TB ++ " (1,2);" ++ nl]) = Some ("x = 1+2;" ++ nl)
  /\ cpp_output (run_cpp [] "m.c" [] ["#define add(a,b) a+b" ++ nl; "x = add(1,2);" ++ nl]) = Some ("x = 1+2;" ++ nl).
Proof. exact blank_before_paren_example. Qed.

(** a macro without parameters: blanks may also stand between the parentheses *)
Theorem C08_zero_param_blank : forall name tmpl b1 b2,
  wordy name -> skip_blanks b1 = "" -> skip_blanks b2 = "" ->
  replace_call name [] tmpl (name ++ b1 ++ "(" ++ b2 ++ ")")
  = (expand_template (S (String.length tmpl)) tmpl [] [], true).
Proof. exact replace_call_zero_param_blank. Qed.

Example C08_zero_param_blank_example :
  let TB := String (ascii_of_nat 9) "" in
  cpp_output (run_cpp [] "m.c" [] ["#define f() 7" ++ nl; "x = f( );" ++ nl]) = Some ("x = 7;" ++ nl)
  /\ cpp_output (run_cpp [] "m.c" [] ["#define f() 7" ++ nl; "x = f ( );" ++ nl]) = Some ("x = 7;" ++ nl)
  /\ cpp_output (run_cpp [] "m.c" [] ["#define f() 7" ++ nl; "x = f();" ++ nl]) = Some ("x = 7;" ++ nl)
  /\ cpp_output (run_cpp [] "m.c" [] ["#define f() 7" ++ nl; "x = f" ++ TB ++ "(" ++ TB ++ " );" ++ nl]) = Some ("x = 7;" ++ nl).
Proof. exact zero_param_blank_example. Qed.

(** what does not change: object-like macros, names without a parenthesis, other separators *)
Example C08_blank_before_paren_negative :
  cpp_output (run_cpp [] "m.c" [] ["#define A (x)" ++ nl; "A (1)" ++ nl]) = Some ("(x) (1)" ++ nl)
  /\ cpp_output (run_cpp [] "m.c" [] ["#define add(a,b) a+b" ++ nl; "y = add + 1;" ++ nl]) = Some ("y = add + 1;" ++ nl)
  /\ cpp_output (run_cpp [] "m.c" [] ["#define add(a,b) a+b" ++ nl; "y = add  ;" ++ nl]) = Some ("y = add  ;" ++ nl)
  /\ replace_call "add" ["a"; "b"] "$a+$b" ("add" ++ nl ++ "(1,2)") = ("add" ++ nl ++ "(1,2)", false)
  /\ replace_call "add" ["a"; "b"] "$a+$b" "xadd (1,2) add_ (1,2)" = ("xadd (1,2) add_ (1,2)", false)
  /\ replace_call "f" [] "7" "f(1) f(,)" = ("f(1) f(,)", false).
Proof. exact blank_before_paren_negative. Qed.

(** #undef removes exactly the named macro *)
Theorem C08_undefine_exact : forall ms n m, NoDup (map fst ms) ->
  get_macro (undefine ms n) m = if String.eqb m n then None else get_macro ms m.
Proof. exact undefine_exact. Qed.
