(** C03 — conditional branches always reach; long-branch repair preserves control flow, and (end
    of the file) the behaviour of the whole code.
    Proofs in Proofs/CbFacts.v, Proofs/CbSimFacts.v and (whole programs) Proofs/OptSimCallFacts.v.  Model: Model/CheckBranches.v
    (tied to src/assemble.rs check_branches by the unit correspondence of tools/props/c03.py). *)
From Coq Require Import String Ascii List Bool NArith ZArith.
From CC Require Import Base.Str Asm.Lines M6502.Isa Asm.Operand M6502.Sem
     Model.CheckBranches Model.CbSpec Proofs.CbFacts.
From CC Require Import Model.Optimize Model.OptSem Model.OptSim Model.OptSimCF Model.CbSim
     Model.OptSimCall Proofs.OptSimFacts Proofs.OptSimCFFacts Proofs.CbSimFacts.
From CC Require Proofs.OptSimCallFacts.
From CC Require Proofs.GenLoopsFacts.
Import ListNotations.

(** every conditional branch of the result whose label is defined exactly once is within the
    6502 displacement range, when sizes are the lines' [nb_bytes] (= real sizes by C04) *)
Theorem C03_in_range : forall (c c' : code) (n : N) (p : nat) (i : instr) (k : nat),
  check_branches c = CbOk c' n ->
  nth_error c' p = Some (Ins i) ->
  is_cond_branch (i_mn i) = true ->
  label_positions c' (i_op i) = [k] ->
  (-128 <= displacement c' p (i_bytes i) k <= 127)%Z.
Proof. exact cb_in_range. Qed.

(** the code emitted for a far branch (or a BCC/BMI + BEQ pair) leaves the fragment exactly where
    the original did, for every machine state (hence every N/Z/C combination) *)
Theorem C03_repair_flow_preserved :
  forall (s : mstate) (nfix : N) (b : instr) (tail mid tail' : list line),
  is_cond_branch (i_mn b) = true ->
  is_fix_label (i_op b) = false ->
  repair nfix b tail = (mid, tail') ->
  frag_flow 8 s (Ins b :: firstn (length tail - length tail') tail) = frag_flow 8 s mid
  /\ frag_flow 8 s mid <> ExitStuck.
Proof. exact repair_flow_preserved. Qed.

(** the label search never reaches its [unreachable!()] when every target is defined *)
Theorem C03_no_panic : forall c : code,
  (forall t, In t (branch_targets c) -> In t (all_labels c)) ->
  check_branches c <> CbPanic.
Proof. exact cb_no_panic. Qed.

(** labels stay unique, none disappears, every new branch target is defined *)
Theorem C03_labels : forall (c c' : code) (n : N),
  check_branches c = CbOk c' n ->
  (forall l, In l (all_labels c) -> is_fix_label l = false) ->
  NoDup (all_labels c) ->
  NoDup (all_labels c')
  /\ (forall l, In l (all_labels c) -> In l (all_labels c'))
  /\ (forall t, In t (branch_targets c') -> In t (branch_targets c) \/ In t (all_labels c')).
Proof. exact cb_labels. Qed.

(** the iteration terminates with a result on every well-formed input: cascading repairs included *)
Theorem C03_total : forall c : code,
  (forall l, In l (all_labels c) -> is_fix_label l = false) ->
  (forall t, In t (branch_targets c) -> In t (all_labels c)) ->
  exists c' n, check_branches c = CbOk c' n.
Proof. exact cb_total. Qed.

(** non-vacuity: a function with one far forward branch satisfies the hypotheses and is repaired *)
Definition far_example : code :=
  Ins (mkI BNE ".far" 2 (Some 3%N) 2 false)
  :: repeat (Ins (mkI STA "big" 4 None 3 false)) 50 ++ [Lbl ".far"].
Example C03_example_repaired :
  exists c', check_branches far_example = CbOk c' 1%N /\ length c' = 54.
Proof. vm_compute. eexists. split; reflexivity. Qed.

(** * The repair preserves the behaviour of the whole code *)

(** windows of different lengths: [D] without a label, the labels of [M] fresh, [M] leaving like
    [D] from the top of the window *)
Theorem C03_window_gen : forall (A D M T : code),
  all_labels D = [] ->
  (forall l, In l (all_labels M) -> ~ In l (all_labels (A ++ D ++ T))) ->
  forall cfg, D <> [] -> enters_alike cfg A D M T ->
  forall s s', halts cfg (A ++ D ++ T) s s' -> halts cfg (A ++ M ++ T) s s'.
Proof. exact window_gen. Qed.

(** whenever the original halts, the repaired code halts in the same state *)
Theorem C03_check_branches_sound : forall cfg c c' n s s',
  no_fix_labels c -> check_branches c = CbOk c' n ->
  halts cfg c s s' -> halts cfg c' s s'.
Proof. exact check_branches_sound. Qed.

(** the same on [Sem.run] *)
Theorem C03_check_branches_run : forall cfg c c' n s s',
  no_fix_labels c -> cf_ok cfg c = true -> check_branches c = CbOk c' n ->
  GenLoopsFacts.halts_to cfg c s s' -> GenLoopsFacts.halts_to cfg c' s s'.
Proof. exact check_branches_run. Qed.

(** what is emitted for a function body at -O1: optimise, then repair the far branches *)
Theorem C03_pipeline_sound : forall cfg c c2 n s s',
  ports cfg = [] -> bytes_ok s -> cf_ok cfg c = true -> NoDup (lbls c) -> rb_free c = true ->
  no_fix_labels c -> check_branches (fst (optimize c)) = CbOk c2 n ->
  halts cfg c s s' ->
  exists s'', halts cfg c2 s s'' /\ eq_state s'' s'.
Proof. exact pipeline_sound. Qed.

Theorem C03_pipeline_run : forall cfg c c2 n s s',
  ports cfg = [] -> bytes_ok s -> cf_ok cfg c = true -> NoDup (lbls c) -> rb_free c = true ->
  no_fix_labels c -> check_branches (fst (optimize c)) = CbOk c2 n ->
  GenLoopsFacts.halts_to cfg c s s' ->
  exists s'', GenLoopsFacts.halts_to cfg c2 s s'' /\ eq_state s'' s'.
Proof. exact pipeline_run. Qed.

(** non-vacuity: a branch over 65 "INC w" (130 bytes) is repaired; both versions run to the same
    state (the increments are executed, at shifted positions) *)
Theorem C03_check_branches_sound_example :
  no_fix_labels cb_code /\
  exists c' s', check_branches cb_code = CbOk c' 1%N /\
                halts sim_cfg cb_code sim_state s' /\ halts sim_cfg c' sim_state s' /\
                rA s' = 9%Z /\ rX s' = 2%Z /\ mget (mem s') 128 = 74%Z.
Proof. exact check_branches_sound_example. Qed.

Definition C03_cb_code_repaired := cb_code_repaired.
Definition C03_cb_pair_example := cb_pair_example.
Definition C03_pipeline_sound_example := pipeline_sound_example.

(** * Whole programs, with calls and returns *)

(** one body with calls, any oracle: the repaired body ends the same way in the same state *)
Theorem C03_check_branches_call_sound : forall Or cfg c c' n s r s',
  no_fix_labels c -> check_branches c = CbOk c' n ->
  ghalts Or cfg c s r s' -> ghalts Or cfg c' s r s'.
Proof. exact OptSimCallFacts.check_branches_call_sound. Qed.

(** every function repaired *)
Theorem C03_check_branches_program_sound : forall cfg P main s s',
  bytes_ok s -> all_bodies (OptSimCallFacts.cb_ok cfg) P ->
  phalts cfg P main s s' ->
  exists s'', phalts cfg (cb_prog P) main s s'' /\ eq_state s'' s'.
Proof. exact OptSimCallFacts.check_branches_program_sound. Qed.

Theorem C03_check_branches_program_run : forall cfg P main s s',
  bytes_ok s -> all_bodies (OptSimCallFacts.cb_ok cfg) P ->
  run_halts cfg P main s s' ->
  exists s'', run_halts cfg (cb_prog P) main s s'' /\ eq_state s'' s'.
Proof. exact OptSimCallFacts.check_branches_program_run. Qed.

(** what the compiler emits at -O1 for a whole program: every function optimised, then repaired *)
Theorem C03_pipeline_program_sound : forall cfg P main s s',
  ports cfg = [] -> bytes_ok s -> all_bodies (OptSimCallFacts.pipe_ok cfg) P ->
  phalts cfg P main s s' ->
  exists s'', phalts cfg (cb_prog (opt_prog P)) main s s'' /\ eq_state s'' s'.
Proof. exact OptSimCallFacts.pipeline_program_sound. Qed.

Theorem C03_pipeline_program_run : forall cfg P main s s',
  ports cfg = [] -> bytes_ok s -> all_bodies (OptSimCallFacts.pipe_ok cfg) P ->
  run_halts cfg P main s s' ->
  exists s'', run_halts cfg (cb_prog (opt_prog P)) main s s'' /\ eq_state s'' s'.
Proof. exact OptSimCallFacts.pipeline_program_run. Qed.
