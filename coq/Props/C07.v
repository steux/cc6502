(** C07 — conditional compilation keeps exactly the active text.  Statements only: the general
    theorem over all well-nested trees is in Proofs/CondFacts.v, the facts about text that is not
    selected in Proofs/SkipFacts.v; the first statements below are test vectors of the
    evaluator. *)
From Coq Require Import String Ascii List Bool NArith.
From CC Require Import Base.Str Model.Cpp.
Import ListNotations.
Open Scope string_scope.

(** numbers in #if are C integer constants: any non-zero value holds, == compares the values *)
Theorem C07_evaluate_numbers : evaluate "2" = EvOk true "" /\ evaluate "2 == 3" = EvOk false "".
Proof. split; vm_compute; reflexivity. Qed.

(** ! gives 0 or 1; hexadecimal and octal constants are read as such; malformed ones are rejected *)
Theorem C07_evaluate_number_forms :
  evaluate "!2" = EvOk false "" /\ evaluate "!!2 == 1" = EvOk true ""
  /\ evaluate "0x10 == 16" = EvOk true "" /\ evaluate "010 == 8" = EvOk true ""
  /\ evaluate "08" = EvErr "Invalid number".
Proof. vm_compute. repeat split; reflexivity. Qed.

(** a concrete nested arrangement: only the selected branches survive, inert directives ignored *)
Theorem C07_example_nested :
  match run_cpp [] "m.c" [] (map (fun l => l ++ nl)
        ["#if 1"; "a;"; "#if 0"; "#error no"; "#define a broken"; "#elif 1"; "b;"; "#else"; "c;"; "#endif";
         "#else"; "d;"; "#include <nofile.h>"; "#endif"; "e;"]) with
  | POk p => p_out p = "a;" ++ nl ++ "b;" ++ nl ++ "e;" ++ nl /\ p_stack p = [] /\ c_macros (p_ctx p) = []
  | PErr _ => False
  end.
Proof. vm_compute. repeat split; reflexivity. Qed.

From CC Require Import Model.CondSpec Proofs.CondFacts.

(** C07 for every well-nested tree (any depth and width, #if / #ifdef / #ifndef heads,
    any number of #elif, optional #else; conditions valued by the model's own evaluator; ordinary
    lines anywhere, #define/#undef/#include/#error lines in unselected regions): the text that
    reaches the compiler is exactly the text of the selected branches, the macro table is
    untouched, the machine is back in its initial state, one table entry per surviving line *)
Theorem C07_cond_machine_correct : forall (fname : string) (t : list item),
  tree_ok t ->
  exists p, run_cpp [] fname [] (flatten t) = POk p
            /\ p_out p = String.concat "" (spec_active t)
            /\ c_macros (p_ctx p) = []
            /\ p_state p = Active /\ p_stack p = []
            /\ List.length (p_map p) = List.length (spec_active t).
Proof. exact cond_machine_correct. Qed.

(** directives and ordinary lines in an unselected region change nothing (any include table, any
    macros that do not rewrite the line itself) *)
Theorem C07_inactive_is_inert : forall rec fs fname inc asm p line l,
  plain_ok l = true \/ inert_ok l = true ->
  sc_in_comment (c_scan (p_ctx p)) = false ->
  replace_all_c (c_macros (p_ctx p)) l = l ->
  p_state p <> Active ->
  line_step rec fs fname inc asm p line l = POk p.
Proof. exact inactive_is_inert. Qed.

(** #define and #undef are inert in unselected regions whatever macros exist *)
Theorem C07_inactive_define_undef_inert : forall rec fs fname inc asm p line l,
  one_line l = true -> text_ok l = true ->
  is_directive "#define" (trim l) || is_directive "#undef" (trim l) = true ->
  sc_in_comment (c_scan (p_ctx p)) = false ->
  p_state p <> Active ->
  line_step rec fs fname inc asm p line l = POk p.
Proof. exact inactive_define_undef_inert. Qed.

(** * the text and the directives of a group that is not selected raise no errors
    (the repaired defect: an apostrophe-and-quote text line and a #pragma inside an "#if 0" group
    stopped the compilation) *)
From CC Require Import Model.ScanSpec Proofs.SkipFacts.

(** In a state that is not Active, a line whose scanner output ([scan_parts]: the parts the
    scanner hands over whether the scan ended normally or at a string literal that never
    closes) is not a directive line -- its trimmed text does not start with "#", before and
    after macro substitution -- is processed without error and changes nothing but the scanner
    state.  Whatever the line contains (unterminated string literals included) and whatever the
    scanner state is (no hypothesis about an unfinished block comment is needed). *)
Theorem C07_skipped_text_never_errors : forall rec fs fname inc asm p line buf out ins sc,
  p_state p <> Active ->
  scan_parts (scan_line asm buf (c_scan (p_ctx p))) = (out, ins, sc) ->
  starts_with "#" (trim out) = false ->
  starts_with "#" (trim (replace_all_c (c_macros (p_ctx p)) out)) = false ->
  line_step rec fs fname inc asm p line buf = POk (set_scan p sc).
Proof. exact skipped_text_never_errors. Qed.

(** spelt out: same output text, line table, macros, conditional state and stack *)
Theorem C07_skipped_text_keeps_everything : forall rec fs fname inc asm p line buf out ins sc,
  p_state p <> Active ->
  scan_parts (scan_line asm buf (c_scan (p_ctx p))) = (out, ins, sc) ->
  starts_with "#" (trim out) = false ->
  starts_with "#" (trim (replace_all_c (c_macros (p_ctx p)) out)) = false ->
  exists p', line_step rec fs fname inc asm p line buf = POk p'
             /\ p_out p' = p_out p /\ p_map p' = p_map p
             /\ c_macros (p_ctx p') = c_macros (p_ctx p)
             /\ p_state p' = p_state p /\ p_stack p' = p_stack p
             /\ c_scan (p_ctx p') = sc.
Proof. exact skipped_text_keeps_everything. Qed.

(** an unterminated string literal in SELECTED text is still an error *)
Theorem C07_unterminated_string_selected_is_error : forall rec fs fname inc asm p line buf out ins sc,
  p_state p = Active ->
  scan_line asm buf (c_scan (p_ctx p)) = ScanUnterminated out ins sc ->
  line_step rec fs fname inc asm p line buf = PErr (mkErr ESyntax fname line inc "Unterminated string").
Proof. exact unterminated_string_selected_is_error. Qed.

(** a directive the machine does not know (#pragma ...) is ignored in a state that is not Active
    ([hash_blanks out]: the scanned text without the blanks between a leading '#' and the
    directive name; [directive_name_arg]: '#' and the letters that follow it, then the argument) *)
Theorem C07_skipped_unknown_directive_ignored : forall rec fs fname inc asm p line buf out ins sc,
  p_state p <> Active ->
  scan_parts (scan_line asm buf (c_scan (p_ctx p))) = (out, ins, sc) ->
  early_directive (trim (hash_blanks out)) = false ->
  known_directive (fst (directive_name_arg (trim (replace_all_c (c_macros (p_ctx p)) (hash_blanks out))))) = false ->
  line_step rec fs fname inc asm p line buf = POk (set_scan p sc).
Proof. exact skipped_unknown_directive_ignored. Qed.

(** ... and still an error in selected text *)
Theorem C07_unknown_directive_selected_is_error : forall rec fs fname inc asm p line buf out sc,
  p_state p = Active ->
  scan_line asm buf (c_scan (p_ctx p)) = ScanOk out true sc ->
  early_directive (trim (hash_blanks out)) = false ->
  starts_with "#" (trim (replace_all_c (c_macros (p_ctx p)) (hash_blanks out))) = true ->
  known_directive (fst (directive_name_arg (trim (replace_all_c (c_macros (p_ctx p)) (hash_blanks out))))) = false ->
  line_step rec fs fname inc asm p line buf
  = PErr (mkErr ESyntax fname line inc "Unrecognised preprocessor directive").
Proof. exact unknown_directive_selected_is_error. Qed.

(** #if in a state that is not Active: pushed, Skip -- with or without an expression
    ([arg = None]), which is not looked at *)
Theorem C07_skipped_if_pushes_skip : forall rec fs fname inc asm p line buf out sc arg,
  p_state p <> Active ->
  scan_parts (scan_line asm buf (c_scan (p_ctx p))) = (out, true, sc) ->
  early_directive (trim (hash_blanks out)) = false ->
  directive_name_arg (trim (replace_all_c (c_macros (p_ctx p)) (hash_blanks out))) = ("#if", arg) ->
  line_step rec fs fname inc asm p line buf
  = POk (set_state (set_scan p sc) Skip (p_state p :: p_stack p)).
Proof. exact skipped_if_pushes_skip. Qed.

Theorem C07_if_without_expression_selected_is_error : forall rec fs fname inc asm p line buf out sc,
  p_state p = Active ->
  scan_line asm buf (c_scan (p_ctx p)) = ScanOk out true sc ->
  early_directive (trim (hash_blanks out)) = false ->
  directive_name_arg (trim (replace_all_c (c_macros (p_ctx p)) (hash_blanks out))) = ("#if", None) ->
  line_step rec fs fname inc asm p line buf
  = PErr (mkErr ESyntax fname line inc "Expected expression after `#if`").
Proof. exact if_without_expression_selected_is_error. Qed.

(** #elif in a state that is not Inactive: Skip, same stack -- with or without an expression *)
Theorem C07_elif_not_inactive_skips : forall rec fs fname inc asm p line buf out sc arg,
  p_state p <> Inactive ->
  scan_gives (p_state p) (scan_line asm buf (c_scan (p_ctx p))) out true sc ->
  early_directive (trim (hash_blanks out)) = false ->
  directive_name_arg (trim (replace_all_c (c_macros (p_ctx p)) (hash_blanks out))) = ("#elif", arg) ->
  line_step rec fs fname inc asm p line buf = POk (set_state (set_scan p sc) Skip (p_stack p)).
Proof. exact elif_not_inactive_skips. Qed.

Theorem C07_elif_without_expression_inactive_is_error : forall rec fs fname inc asm p line buf out sc,
  p_state p = Inactive ->
  scan_parts (scan_line asm buf (c_scan (p_ctx p))) = (out, true, sc) ->
  early_directive (trim (hash_blanks out)) = false ->
  directive_name_arg (trim (replace_all_c (c_macros (p_ctx p)) (hash_blanks out))) = ("#elif", None) ->
  line_step rec fs fname inc asm p line buf
  = PErr (mkErr ESyntax fname line inc "Expected expression after `#elif`").
Proof. exact elif_without_expression_inactive_is_error. Qed.

(** the reported input, and the same lines in selected text *)
Example C07_skipped_group_example :
  match run_cpp [] "m.c" [] (map (fun l => l ++ nl)
        ["#if 0"; "this isn't ""closed"; "#pragma once"; "#endif"; "ok"]) with
  | POk p => p_out p = "ok" ++ nl
  | PErr _ => False
  end.
Proof. vm_compute. reflexivity. Qed.

Example C07_unterminated_selected_example :
  run_cpp [] "m.c" [] (map (fun l => l ++ nl) ["this isn't ""closed"; "#pragma once"; "ok"])
  = PErr (mkErr ESyntax "m.c" 1 None "Unterminated string").
Proof. vm_compute. reflexivity. Qed.

(** blanks after the '#' and directive names that end at the first non-letter *)
Example C07_blank_after_hash_else_example :
  match run_cpp [] "m.c" [] (map (fun l => l ++ nl) ["#if 0"; "A"; "# else"; "B"; "#endif"; "tail"]) with
  | POk p => p_out p = "B" ++ nl ++ "tail" ++ nl /\ p_state p = Active /\ p_stack p = []
  | PErr _ => False
  end.
Proof. exact blank_after_hash_else_example. Qed.

Example C07_nested_if_bang_example :
  match run_cpp [] "m.c" [] (map (fun l => l ++ nl) ["#if 0"; "#if!FOO"; "x"; "#endif"; "#endif"; "tail"]) with
  | POk p => p_out p = "tail" ++ nl /\ p_state p = Active /\ p_stack p = []
  | PErr _ => False
  end.
Proof. exact nested_if_bang_example. Qed.

Example C07_if_bang_defined_example :
  match run_cpp [] "m.c" [("N", "1")] (map (fun l => l ++ nl) ["#if!N"; "a"; "#else"; "b"; "#endif"]) with
  | POk p => p_out p = "b" ++ nl
  | PErr _ => False
  end.
Proof. vm_compute. reflexivity. Qed.

(** the evaluator is C's on expressions over 0, 1, ! and == *)
Theorem C07_evaluate_bool_correct : forall e : bexp, evaluate (print e) = EvOk (value e) "".
Proof. exact evaluate_bool_correct. Qed.

(** the evaluator is C's on chains [u1 == u2 == ... == uk] (left associative) of constants below
    2^63, printed in decimal, under any number of prefix [!]: the condition holds exactly when
    the C value ([value_n]: [!x] is 1 when x is 0, else 0; [a == b] is 1 when equal, else 0) is
    not 0 *)
Theorem C07_evaluate_int_correct : forall e : nexp,
  small_n e -> evaluate (print_n e) = EvOk (negb (N.eqb (value_n e) 0)) "".
Proof. exact evaluate_int_correct. Qed.

(** a printed decimal below 2^63 is read back as itself (never as an octal or hexadecimal) *)
Theorem C07_parse_c_int_print_dec : forall n : N, (n < 2 ^ 63)%N -> parse_c_int (print_dec n) = Some n.
Proof. exact parse_c_int_print_dec. Qed.

(** non-vacuity of tree_ok: a nested example with inert directives in dead regions *)
Example C07_tree_ok_example :
  tree_ok [Plain ("a" ++ nl);
           group (HIf "0") [Inert ("#error boom" ++ nl); Plain ("b" ++ nl)]
                 [("1 == 1", [Plain ("c" ++ nl); group (HIfdef "X") [Plain ("d" ++ nl)] [] (Some [Plain ("e" ++ nl)])]);
                  ("1", [Inert ("#define X 1" ++ nl); Plain ("f" ++ nl)])]
                 (Some [Plain ("g" ++ nl)]);
           Plain ("h" ++ nl)].
Proof. vm_compute. split; reflexivity. Qed.
