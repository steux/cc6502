(** C01 — emitted 6502 code computes what the C source says: FUNCTION CALLS with arguments and
    return values, on the real semantics [Sem.run] with a NON-EMPTY program table.
    The exact -O0 output of the compiler for six callee bodies and eleven call statements
    (Model/GenCall.v, [flisting_NN], compared with the real compiler by tools/props) under the
    calling convention of the generator: parameters are static cells [fn_param], arguments are
    evaluated into A and stored in order, [JSR fn], result in A.  The program table holds every
    function as the harness lays it out: the body followed by one RTS ([harness_fun], [prog_has]).
    [JSR] pushes two marker bytes in page 1 and enters the callee with the caller's frame on the
    call stack; [RTS] pulls them, checks them, resumes the caller.
    [goes cfg prog fname c stack pc s pc' s']: inside function [fname] (lines [c]) under the call
    stack [stack], [Sem.run] goes from line [pc], state [s], to line [pc'], state [s'], the call
    stack being [stack] again.  [calls_to cfg prog C st st']: main = the lines of [C], run with the
    table from an empty call stack, halts normally in [st'].
    The variables and parameter cells are anywhere outside the stack page ([off_stack]); the frame
    conditions ([only_changes_off]) are about the memory outside page 1, where the markers are
    written; S, X, Y are unchanged by every statement ([keeps_xys]): the calls are balanced, for
    all byte-valued states, whatever S.
    Statements only; proofs in Proofs/GenCallFacts.v. *)
From Coq Require Import String List Bool NArith ZArith Lia.
From CC Require Import Base.Str Asm.Lines M6502.Isa Asm.Operand M6502.Sem Model.OptSem
  Model.GenTemplates Proofs.GenTemplatesFacts Proofs.GenCmp16Facts Model.GenLoops
  Proofs.GenLoopsFacts Model.GenTables Model.GenIf Proofs.GenIfFacts Model.GenCtl Proofs.GenCtlFacts
  Model.GenCall Proofs.GenCallFacts.
Import ListNotations.
Open Scope Z_scope.

(** the call rule with the two pulls explicit: arbitrary call stack (any depth) *)
Theorem C01_call_rule_raw :
  forall (cfg : config) (prog : sprogram) (fname : string) (c : list sline)
         (stack : list (string * list sline * nat)) (i : nat) (s : mstate)
         (f : string) (cf : list sline) (p : bool) (raw : string) (pr : nat)
         (s2 s3 s4 : mstate),
       nth_error c i = Some (SIns JSR (OLbl f) p raw) ->
       find_func f prog = Some cf ->
       goes cfg prog f cf ((fname, c, S i) :: stack) 0
         (enter (Z.of_nat (Datatypes.length stack) + 1) s) pr s2 ->
       is_rts cf pr ->
       pull s2 = (s3, byte (255 - (Z.of_nat (Datatypes.length stack) + 1))) ->
       pull s3 = (s4, byte (Z.of_nat (Datatypes.length stack) + 1)) ->
       goes cfg prog fname c stack i s (S i) s4.
Proof. exact call_rule_raw. Qed.

(** THE CALL RULE.  [s]: the state at the [JSR], line [i] of the caller, under ANY call stack; the
    callee, entered in [enter d s] (the two markers pushed: [d] = new depth at [256 + S], [255 - d]
    at [256 + byte (S - 1)]), goes to one of its RTS lines in [s2], with the S it was entered with
    and the two marker cells intact.  Then the caller goes on at line [i + 1] in the state the
    callee left, S restored: every register and every cell of memory as the callee left it. *)
Theorem C01_call_rule :
  forall (cfg : config) (prog : sprogram) (fname : string) (c : list sline)
         (stack : list (string * list sline * nat)) (i : nat) (s : mstate)
         (f : string) (cf : list sline) (p : bool) (raw : string) (pr : nat)
         (s2 : mstate),
       nth_error c i = Some (SIns JSR (OLbl f) p raw) ->
       find_func f prog = Some cf ->
       0 <= rS s < 256 ->
       goes cfg prog f cf ((fname, c, S i) :: stack) 0
         (enter (Z.of_nat (Datatypes.length stack) + 1) s) pr s2 ->
       is_rts cf pr ->
       rS s2 = rS (enter (Z.of_nat (Datatypes.length stack) + 1) s) ->
       mget (mem s2) (256 + rS s) = byte (Z.of_nat (Datatypes.length stack) + 1) ->
       mget (mem s2) (256 + byte (rS s - 1)) = byte (255 - (Z.of_nat (Datatypes.length stack) + 1)) ->
       goes cfg prog fname c stack i s (S i) (set_sp s2 (rS s)).
Proof. exact call_rule. Qed.

(** what the call rule says of the stack page: the state after the call has the memory the callee
    left; the two cells below the caller's S hold the markers of the call (depth, 255 - depth) *)
Theorem C01_call_rule_stack_cells :
  forall (d : Z) (s s2 : mstate),
       mget (mem s2) (256 + rS s) = byte d ->
       mget (mem s2) (256 + byte (rS s - 1)) = byte (255 - d) ->
       mem (set_sp s2 (rS s)) = mem s2 /\
       rS (set_sp s2 (rS s)) = rS s /\
       rA (set_sp s2 (rS s)) = rA s2 /\
       rX (set_sp s2 (rS s)) = rX s2 /\
       rY (set_sp s2 (rS s)) = rY s2 /\
       mget (mem (set_sp s2 (rS s))) (256 + rS s) = byte d /\
       mget (mem (set_sp s2 (rS s))) (256 + byte (rS s - 1)) = byte (255 - d).
Proof. intros d s s2 H1 H2. repeat split; assumption. Qed.

(** the [JSR] of a function with a specification, anywhere, under any call stack: balanced *)
Theorem C01_call_seg :
  forall (cfg : config) (prog : sprogram) (f : string) (W : list Z)
         (res : mstate -> Z) (eff : list (Z * (mstate -> Z))) (p : bool)
         (raw : string) (s : mstate),
       fun_ok cfg prog f W res eff ->
       (forall a : Z, In a W -> off_stack a) ->
       res_off res ->
       eff_off eff ->
       bytes_ok s -> seg_wp cfg prog [SIns JSR (OLbl f) p raw] s (call_rel W res eff s).
Proof. exact call_seg. Qed.

(** the call template: arguments with specifications, then the call *)
Theorem C01_call_tpl :
  forall (cfg : config) (prog : sprogram),
       ports cfg = [] ->
       forall (fn : string) (args : list arg_sem) (D Wf : list Z) (res : mstate -> Z)
         (eff : list (Z * (mstate -> Z))),
       fn <> "" ->
       fun_ok cfg prog fn Wf res eff ->
       (forall a : Z, In a Wf -> off_stack a) ->
       res_off res ->
       eff_off eff ->
       args_ok cfg prog fn D [] args ->
       code_ok cfg prog (call_tpl fn (map as_arg args))
         (fun s s' : mstate =>
          exists s1 : mstate,
            pass_rel D args [] s s1 /\
            call_rel Wf res eff s1 s' /\ only_changes_off (D ++ Wf) s s' /\ keeps_xys s s').
Proof. exact call_tpl_correct. Qed.

(** a call is an expression again: calls nest as arguments *)
Theorem C01_call_expr :
  forall (cfg : config) (prog : sprogram),
       ports cfg = [] ->
       forall (fn : string) (args : list arg_sem) (D Wf : list Z) (res : mstate -> Z)
         (eff : list (Z * (mstate -> Z))) (val : mstate -> Z),
       fn <> "" ->
       fun_ok cfg prog fn Wf res eff ->
       (forall a : Z, In a Wf -> off_stack a) ->
       res_off res ->
       eff_off eff ->
       args_ok cfg prog fn D [] args ->
       (forall s s1 : mstate, bytes_ok s -> pass_rel D args [] s s1 -> res s1 = val s) ->
       expr_ok cfg prog (call_tpl fn (map as_arg args)) (D ++ Wf) val.
Proof. exact call_expr_ok. Qed.

(** a statement with a specification, run as main with the program table *)
Theorem C01_call_code_ok_calls_to :
  forall (cfg : config) (prog : sprogram) (C : code) (R : mstate -> mstate -> Prop)
         (st : mstate),
       code_ok cfg prog C R ->
       bytes_ok st -> exists st' : mstate, calls_to cfg prog C st st' /\ R st st'.
Proof. exact code_ok_calls_to. Qed.

(** the final state is unique, and byte-valued again *)
Theorem C01_call_calls_to_det :
  forall (cfg : config) (prog : sprogram) (C : code) (st s1 s2 : mstate),
       calls_to cfg prog C st s1 -> calls_to cfg prog C st s2 -> s1 = s2.
Proof. exact calls_to_det. Qed.

Theorem C01_call_calls_to_bytes :
  forall (cfg : config) (prog : sprogram) (C : code) (st st' : mstate),
       calls_to cfg prog C st st' -> bytes_ok st -> bytes_ok st'.
Proof. exact calls_to_bytes_ok. Qed.

(** the six functions of the listing, as the harness lays them out (body, RTS) *)
Theorem C01_call_fun_f :
  forall (cfg : config) (prog : sprogram) (pc : Z),
       ports cfg = [] ->
       var_cell cfg "c" pc ->
       prog_has prog "f" fun_f ->
       fun_ok cfg prog "f" [pc] (fun _ : mstate => 1) [(pc, fun _ : mstate => 1)].
Proof. exact fun_f_ok. Qed.

Theorem C01_call_fun_g :
  forall (cfg : config) (prog : sprogram) (pa : Z),
       ports cfg = [] ->
       var_cell cfg "a" pa ->
       prog_has prog "g" fun_g -> fun_ok cfg prog "g" [] (fun s : mstate => mget (mem s) pa) [].
Proof. exact fun_g_ok. Qed.

Theorem C01_call_fun_h :
  forall (cfg : config) (prog : sprogram) (px : Z),
       ports cfg = [] ->
       var_cell cfg "h_x" px ->
       prog_has prog "h" fun_h ->
       fun_ok cfg prog "h" [] (fun s : mstate => (mget (mem s) px + 1) mod 256) [].
Proof. exact fun_h_ok. Qed.

Theorem C01_call_fun_k :
  forall (cfg : config) (prog : sprogram) (px py : Z),
       ports cfg = [] ->
       var_cell cfg "k_x" px ->
       var_cell cfg "k_y" py ->
       prog_has prog "k" fun_k ->
       fun_ok cfg prog "k" [] (fun s : mstate => (mget (mem s) px + mget (mem s) py) mod 256) [].
Proof. exact fun_k_ok. Qed.

Theorem C01_call_fun_set :
  forall (cfg : config) (prog : sprogram) (px pc : Z),
       ports cfg = [] ->
       var_cell cfg "set_x" px ->
       var_cell cfg "c" pc ->
       prog_has prog "set" fun_set ->
       fun_ok cfg prog "set" [pc] (fun s : mstate => mget (mem s) px)
         [(pc, fun s : mstate => mget (mem s) px)].
Proof. exact fun_set_ok. Qed.

Theorem C01_call_fun_m :
  forall (cfg : config) (prog : sprogram) (px pb : Z),
       ports cfg = [] ->
       var_cell cfg "m_x" px ->
       var_cell cfg "b" pb ->
       prog_has prog "m" fun_m ->
       fun_ok cfg prog "m" [] (fun s : mstate => Z.max (mget (mem s) px) (mget (mem s) pb)) [].
Proof. exact fun_m_ok. Qed.

(** the eleven call statements of the listing.  f(); *)
Theorem C01_call_stmt_f :
  forall (cfg : config) (prog : sprogram) (A : call_addrs) (st : mstate),
       call_env cfg prog A ->
       bytes_ok st ->
       exists st' : mstate,
         calls_to cfg prog (call_tpl "f" []) st st' /\
         mget (mem st') (ad_c A) = 1 /\ only_changes_off [ad_c A] st st' /\ keeps_xys st st'.
Proof. exact stmt_f_correct. Qed.

(** c = g(); *)
Theorem C01_call_stmt_g :
  forall (cfg : config) (prog : sprogram) (A : call_addrs) (st : mstate),
       call_env cfg prog A ->
       bytes_ok st ->
       exists st' : mstate,
         calls_to cfg prog (assign_call "c" "g" []) st st' /\
         mget (mem st') (ad_c A) = mget (mem st) (ad_a A) /\
         only_changes_off [ad_c A] st st' /\ keeps_xys st st'.
Proof. exact stmt_g_correct. Qed.

(** c = h(a); *)
Theorem C01_call_stmt_h :
  forall (cfg : config) (prog : sprogram) (A : call_addrs) (st : mstate),
       call_env cfg prog A ->
       bytes_ok st ->
       exists st' : mstate,
         calls_to cfg prog (assign_call "c" "h" [{| arg_param := "x"; arg_eval := evar "a" |}]) st
           st' /\
         mget (mem st') (ad_c A) = (mget (mem st) (ad_a A) + 1) mod 256 /\
         mget (mem st') (ad_hx A) = mget (mem st) (ad_a A) /\
         mget (mem st') (ad_a A) = mget (mem st) (ad_a A) /\
         mget (mem st') (ad_b A) = mget (mem st) (ad_b A) /\
         mget (mem st') (ad_i A) = mget (mem st) (ad_i A) /\
         only_changes_off [ad_c A; ad_hx A] st st' /\ keeps_xys st st'.
Proof. intros cfg prog A st He. apply (stmt_h_correct cfg prog A He). Qed.

(** c = k(a, b); *)
Theorem C01_call_stmt_k :
  forall (cfg : config) (prog : sprogram) (A : call_addrs),
       call_env cfg prog A ->
       forall st : mstate,
       bytes_ok st ->
       exists st' : mstate,
         calls_to cfg prog
           (assign_call "c" "k"
              [{| arg_param := "x"; arg_eval := evar "a" |};
               {| arg_param := "y"; arg_eval := evar "b" |}]) st st' /\
         mget (mem st') (ad_c A) = (mget (mem st) (ad_a A) + mget (mem st) (ad_b A)) mod 256 /\
         only_changes_off [ad_c A; ad_kx A; ad_ky A] st st' /\ keeps_xys st st'.
Proof. exact stmt_k_correct. Qed.

(** set(5); *)
Theorem C01_call_stmt_set :
  forall (cfg : config) (prog : sprogram) (A : call_addrs),
       call_env cfg prog A ->
       forall st : mstate,
       bytes_ok st ->
       exists st' : mstate,
         calls_to cfg prog (call_tpl "set" [{| arg_param := "x"; arg_eval := econst 5 |}]) st st' /\
         mget (mem st') (ad_c A) = 5 /\
         only_changes_off [ad_c A; ad_sx A] st st' /\ keeps_xys st st'.
Proof. exact stmt_set_correct. Qed.

(** c = h(h(a)); *)
Theorem C01_call_stmt_hh :
  forall (cfg : config) (prog : sprogram) (A : call_addrs),
       call_env cfg prog A ->
       forall st : mstate,
       bytes_ok st ->
       exists st' : mstate,
         calls_to cfg prog
           (assign_call "c" "h"
              [{|
                 arg_param := "x";
                 arg_eval := call_tpl "h" [{| arg_param := "x"; arg_eval := evar "a" |}]
               |}]) st st' /\
         mget (mem st') (ad_c A) = (mget (mem st) (ad_a A) + 2) mod 256 /\
         only_changes_off [ad_c A; ad_hx A] st st' /\ keeps_xys st st'.
Proof. exact stmt_hh_correct. Qed.

(** c = k(g(), 3); *)
Theorem C01_call_stmt_kg3 :
  forall (cfg : config) (prog : sprogram) (A : call_addrs),
       call_env cfg prog A ->
       forall st : mstate,
       bytes_ok st ->
       exists st' : mstate,
         calls_to cfg prog
           (assign_call "c" "k"
              [{| arg_param := "x"; arg_eval := call_tpl "g" [] |};
               {| arg_param := "y"; arg_eval := econst 3 |}]) st st' /\
         mget (mem st') (ad_c A) = (mget (mem st) (ad_a A) + 3) mod 256 /\
         only_changes_off [ad_c A; ad_kx A; ad_ky A] st st' /\ keeps_xys st st'.
Proof. exact stmt_kg3_correct. Qed.

(** if (g()) c = 1; *)
Theorem C01_call_stmt_if_g :
  forall (cfg : config) (prog : sprogram) (A : call_addrs) (st : mstate),
       call_env cfg prog A ->
       bytes_ok st ->
       exists st' : mstate,
         calls_to cfg prog (if_expr_tpl (call_tpl "g" []) (assign8 "c" 1) 1) st st' /\
         mget (mem st') (ad_c A) =
         (if mget (mem st) (ad_a A) =? 0 then mget (mem st) (ad_c A) else 1) /\
         only_changes_off [ad_c A] st st' /\ keeps_xys st st'.
Proof. exact stmt_if_g_correct. Qed.

(** for (i = 0; i != 3; i++) f(); *)
Theorem C01_call_stmt_for_f :
  forall (cfg : config) (prog : sprogram) (A : call_addrs) (st : mstate),
       call_env cfg prog A ->
       bytes_ok st ->
       exists st' : mstate,
         calls_to cfg prog
           (for_tpl (assign8 "i" 0) (CConst RNeq "i" 3) (template (SInc8 "i")) (call_tpl "f" []) 1)
           st st' /\
         mget (mem st') (ad_i A) = 3 /\
         mget (mem st') (ad_c A) = 1 /\
         only_changes_off [ad_i A; ad_c A] st st' /\ keeps_xys st st'.
Proof. exact stmt_for_f_correct. Qed.

(** c = m(a);  (two RTS in the callee) *)
Theorem C01_call_stmt_m :
  forall (cfg : config) (prog : sprogram) (A : call_addrs),
       call_env cfg prog A ->
       forall st : mstate,
       bytes_ok st ->
       exists st' : mstate,
         calls_to cfg prog (assign_call "c" "m" [{| arg_param := "x"; arg_eval := evar "a" |}]) st
           st' /\
         mget (mem st') (ad_c A) = Z.max (mget (mem st) (ad_a A)) (mget (mem st) (ad_b A)) /\
         only_changes_off [ad_c A; ad_mx A] st st' /\ keeps_xys st st'.
Proof. exact stmt_m_correct. Qed.

(** a = h(a) + 1; *)
Theorem C01_call_stmt_h_plus1 :
  forall (cfg : config) (prog : sprogram) (A : call_addrs),
       call_env cfg prog A ->
       forall st : mstate,
       bytes_ok st ->
       exists st' : mstate,
         calls_to cfg prog
           (assign_expr "a"
              (eadd_const (call_tpl "h" [{| arg_param := "x"; arg_eval := evar "a" |}]) 1)) st st' /\
         mget (mem st') (ad_a A) = (mget (mem st) (ad_a A) + 2) mod 256 /\
         only_changes_off [ad_a A; ad_hx A] st st' /\ keeps_xys st st'.
Proof. exact stmt_h_plus1_correct. Qed.

(** S, X, Y after every statement of the listing are what they were before, for ALL byte-valued
    states (no lower bound on S) *)
Theorem C01_call_listing_balanced :
  forall (cfg : config) (prog : sprogram) (A : call_addrs) (C : code) (st : mstate),
       call_env cfg prog A ->
       In C listing_stmts ->
       bytes_ok st ->
       exists st' : mstate,
         calls_to cfg prog C st st' /\ rS st' = rS st /\ rX st' = rX st /\ rY st' = rY st.
Proof. exact listing_balanced. Qed.

(** the environment is satisfiable *)
Theorem C01_call_env_listing :
  call_env cfg_calls prog_calls addrs_calls.
Proof. exact call_env_listing. Qed.
