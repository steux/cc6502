(** Specification-side definitions for the GLOBAL simulation theorem of the peephole optimiser on
    code WITH labels, conditional branches and JMP (one function body; no JSR/RTS/RTI, no stack
    operation, no inline assembly) (C02): an executor of line lists that follows any branch, the
    syntactic side condition, the check that the known-compare rule does not fire, and the
    invariant of the zipper walk as it reads for code without calls.  [crun] is [grun] of
    Model/OptSimCall.v under the oracle that never answers, and Proofs/OptSimCFFacts.v obtains
    the theorems on [crun] as corollaries of the call level: the proofs go through that level's
    invariant ([InvCall], [KInvC]) and use none of [InvCF], [KInv], [bfall], [blk]. *)
From Coq Require Import String Ascii List Bool NArith ZArith.
From CC Require Import Base.Str Asm.Lines M6502.Isa Asm.Operand M6502.Sem
     Model.Optimize Model.OptSpec Model.OptSem Model.OptSim.
Import ListNotations.
Open Scope Z_scope.

(** * Execution of a line list, following branches *)

(** position of the first definition of label [l] *)
Fixpoint find_lbl (l : string) (c : code) : option nat :=
  match c with
  | [] => None
  | Lbl x :: r => if String.eqb x l then Some O else option_map S (find_lbl l r)
  | _ :: r => option_map S (find_lbl l r)
  end.

(** [n] steps from line [pc] (a label, a comment, a removed line count for one step each, as in
    [Sem.run]); [None]: an instruction does not parse, faults, is a call or a return, a branch
    target is undefined, an inline-assembly line is met, or [pc] is past the end *)
Fixpoint crun (cfg : config) (c : code) (n : nat) (pc : nat) (s : mstate) : option (nat * mstate) :=
  match n with
  | O => Some (pc, s)
  | S n' =>
      match nth_error c pc with
      | Some (Lbl _) | Some (Cmt _) | Some Dummy => crun cfg c n' (S pc) s
      | Some (Ins i) =>
          match parse_operand (i_mn i) (i_op i) with
          | Some op =>
              match exec cfg (i_mn i) op s with
              | XOk s' _ FNext => crun cfg c n' (S pc) s'
              | XOk s' _ (FGoto l) =>
                  match find_lbl l c with
                  | Some k => crun cfg c n' k s'
                  | None => None
                  end
              | _ => None
              end
          | None => None
          end
      | _ => None
      end
  end.

(** the code, started at its first line in state [s], falls off its end in state [s'] *)
Definition halts (cfg : config) (c : code) (s s' : mstate) : Prop :=
  exists n, crun cfg c n 0 s = Some (length c, s').

(** * The side condition: a boolean scan of the code *)

(** mnemonics: the straight-line ones, the six conditional branches, JMP *)
Definition cf_mnem (m : mnem) : bool := plain m || is_cond_branch m || mnem_eqb m JMP.

(** a load must be executable (its symbol is laid out, its addressing mode exists); whether it
    is does not depend on the state, so one probe decides *)
Definition probe : mstate := mkS 0 0 0 255 false false false false mem_empty.

Definition load_wf (cfg : config) (i : instr) : bool :=
  if is_load (i_mn i) then
    match parse_operand (i_mn i) (i_op i) with
    | Some op => match exec cfg (i_mn i) op probe with XOk _ _ _ => true | XFault _ => false end
    | None => false
    end
  else true.

Definition cf_ins_ok (cfg : config) (i : instr) : bool :=
  cf_mnem (i_mn i) && (if takes_label (i_mn i) then true else ins_ok cfg i) && load_wf cfg i.

Definition cf_line_ok (cfg : config) (l : line) : bool :=
  match l with
  | Ins i => cf_ins_ok cfg i
  | Lbl _ | Cmt _ | Dummy => true
  | Inl _ _ => false
  end.

Definition cf_ok (cfg : config) (c : code) : bool := forallb (cf_line_ok cfg) c.

(** the label names, in order; they must be pairwise different (the removal of a JMP to the label
    that follows it relies on it: a branch goes to the FIRST definition) *)
Fixpoint lbls (c : code) : list string :=
  match c with
  | [] => []
  | Lbl l :: r => l :: lbls r
  | _ :: r => lbls r
  end.

(** * The known-compare rule (remove_both) does not fire

    "CMP #n; BNE l" is removed when the register is known to hold "#n": the branch is not taken,
    but the compare also sets N, Z and C, which the removal leaves as they were
    ([Proofs/OptSimCFFacts.cmp_rule_changes_c]).  The check below runs the optimiser and reports
    whether the rule ever fires. *)
Definition rb_here (z : zst) : bool :=
  match step_jmp z with
  | Done _ _ => false
  | Next z1 =>
      match step_second (z_pre z1) (z_f z1) (z_mid z1) (z_rest z1) (z_k z1) (z_removed z1) with
      | Done _ _ => false
      | Next z2 =>
          match z_rest z2 with
          | Ins i2 :: _ => fst (fst (fst (pair_rules (z_k z2) (z_f z2) i2)))
          | _ => false
          end
      end
  end.

Fixpoint run_rb_free (fuel : nat) (z : zst) : bool :=
  match fuel with
  | O => true
  | S f => negb (rb_here z) && match step z with Done _ _ => true | Next z' => run_rb_free f z' end
  end.

Definition rb_free (c : code) : bool :=
  match skip_to_ins [] c with
  | None => true
  | Some (pre, i, r) => run_rb_free (optimize_fuel c) (mkZ pre i [] r (analyse_load AlStart k_init i) 0%N)
  end.

(** * Blocks: label-free stretches of code *)

Inductive bres :=
| BFall (s : mstate)                 (* fell off the end of the block *)
| BJump (l : string) (s : mstate).   (* left it by a taken branch or a JMP to [l] *)

Fixpoint bexec (cfg : config) (w : code) (s : mstate) : option bres :=
  match w with
  | [] => Some (BFall s)
  | Ins i :: r =>
      match parse_operand (i_mn i) (i_op i) with
      | Some op =>
          match exec cfg (i_mn i) op s with
          | XOk s' _ FNext => bexec cfg r s'
          | XOk s' _ (FGoto l) => Some (BJump l s')
          | _ => None
          end
      | None => None
      end
  | Cmt _ :: r | Dummy :: r => bexec cfg r s
  | _ => None
  end.

Definition bfall (cfg : config) (w : code) (s : mstate) : option mstate :=
  match bexec cfg w s with Some (BFall s') => Some s' | _ => None end.

(** the lines of a reversed prefix that follow its last label, in program order *)
Fixpoint blk (pre : list line) : list line :=
  match pre with
  | [] => []
  | Lbl _ :: _ => []
  | x :: r => blk r ++ [x]
  end.

(** * The invariant of the walk, for code without calls

    No proof uses [KInv] or [InvCF]: the walk is proved to keep [OptSimCall.InvCall], which is
    this invariant with [cfc_ok], [cfc_equiv], [KInvC] for [cf_ok], [cf_equiv], [KInv], and
    which agrees with it on code without JSR and RTS.

    As in the straight-line case the walk is a sequence of rewritings of the whole code.
    [c0] is the original code.  (i) Whenever [c0] halts, the code [z_code z] halts in an equal
    state.  (ii) The knowledge is sound after [z_f] for EVERY state in which the block that ends
    with [z_f] can be entered: knowledge is reset at labels, so what is known after [z_f] only
    depends on the lines since the last label, executed without a taken branch. *)
Definition k_none : know := mkK None None None FUnknown.

Definition cf_equiv (cfg : config) (c c' : code) : Prop :=
  forall s s', bytes_ok s -> halts cfg c s s' -> exists s'', halts cfg c' s s'' /\ eq_state s'' s'.

(** [lev = true]: only the register part of the knowledge is claimed (just after the swap) *)
Definition KInv (cfg : config) (lev : bool) (pre : list line) (f : instr) (k : know) : Prop :=
  forall t s2, bytes_ok t -> bfall cfg (blk pre ++ [Ins f]) t = Some s2 ->
               know_sound cfg (if lev then kregs k else k) s2.

Definition InvCF (cfg : config) (c0 : code) (z : zst) : Prop :=
  cf_ok cfg (z_code z) = true /\
  forallb skip_line (z_mid z) = true /\
  NoDup (lbls (z_code z)) /\
  know_ops_ok cfg (z_k z) /\
  (i_mn (z_f z) = JMP -> z_k z = k_none) /\
  cf_equiv cfg c0 (z_code z) /\
  KInv cfg (pswap z) (z_pre z) (z_f z) (z_k z).
