(** Correctness of the statement templates of the code generator (Model/GenTemplates.v) on the
    executable 6502 semantics (M6502/Sem.v).

    A template is an instruction sequence over operand TEXTS.  It is proved once, over what the
    texts denote: [reads cfg st t x] (an accumulator instruction with the text [t] reads [x], a
    cell or a constant), [writes cfg st t a] ([STA t] sets the cell [a]), [rmws cfg st t a] (a
    read-modify-write instruction works on [a]).  The shapes: [copy_gen], [bin8_gen] (the five
    binary operations, [-x] and [~x] among them), [shift_gen], [rmw_gen], [copy2_gen] (two bytes),
    [arith16_gen] / [arith16c_gen], [bitop16_gen], [inc2_gen], [dec2_gen]; each of the shape

        reads cfg st tr x -> writes cfg st tw d -> ... ->
        sfree x2 d1 ...                    (only the non-overlap the template really needs: what is
                                            read for the high byte is not the low cell just
                                            written; dst = x, dst = y are allowed, so [s = s + t]
                                            is covered)
        bytes_ok st ->                     (only where the arithmetic needs byte-valued cells)
        exists st',
          runs_to cfg <the sequence> st st'  (it assembles ([slines_of]) and [Sem.run], inside any
                                            program, from an empty call stack, with any fuel above
                                            its length, halts normally in st')
          /\ <the destination holds the C value, as an equation on [mget]>
          /\ only_changes [cells of dst] st st'   (every other memory cell is unchanged)
          /\ keeps_xys st st'                     (X, Y, S unchanged; A and the flags may change)

    The accesses of a plain variable, [ports cfg = []]: [cell_var] ("v": any address, page zero or
    not), [cell_varh] ("v+1": 16-bit variables are the cells pv, pv+1, low byte first), for names
    that are plain symbols ([var_name]; true of every C identifier, [ident_var_name]); of a
    constant: [imm_r].  The 39 statements on [template] are instances (Props/C01.v); so are the
    split-port templates (Proofs/GenSplitFacts.v, Props/C17.v), the array elements
    (Proofs/GenElemFacts.v), the pointer variables (Proofs/GenPtrFacts.v) and the right operands of
    the 16-bit comparisons (Proofs/GenCmp16Facts.v).  The schemas that are no instance of a shape
    have a theorem of their own on plain variables ([sar8_1_correct], [loadx_correct],
    [store_reg_correct], [shl16_1_correct] ..., [sext_correct]).

    [runs_to_bytes_ok] adds that st' is byte-valued again, so the theorems compose.
    Infrastructure: [exec_bytes_ok], one instruction keeps a byte-valued state byte-valued, whatever
    the mnemonic; [exec_fwd], a big-step executor for code whose branches go
    forward, proved to agree with [Sem.run] ([run_exec_fwd]); one one-step lemma per class of
    instruction on the cell its operand designates ([exec_rd_eff] ...), applied by [run_tac].
    No template of the listing is wrong for some byte values; the only refutation is that of the
    aliased instance [SShl16_8 v v] ([shl16_8_alias_refuted]). *)
From Coq Require Import String Ascii List Bool Arith NArith ZArith Lia ZifyBool.
From CC Require Import Base.Str Asm.Lines M6502.Isa Asm.Operand M6502.Sem
  Model.OptSem Model.CheckBranches Model.CbSpec Proofs.StrFacts Proofs.ExecFacts Proofs.CbFacts Proofs.OptSemFacts Model.GenTemplates.
From CC Require Model.GenSplit.
Import ListNotations.
Open Scope string_scope.
Open Scope list_scope.
Open Scope Z_scope.

Lemma byte_cases : forall P : Z -> bool,
  forallb P (map Z.of_nat (seq 0 256)) = true -> forall v, 0 <= v < 256 -> P v = true.
Proof.
  intros P H v Hv. rewrite forallb_forall in H. apply H. apply in_map_iff.
  exists (Z.to_nat v). split; [lia|]. apply in_seq. lia.
Qed.

Lemma lxor_255 : forall v, 0 <= v < 256 -> Z.lxor v 255 = 255 - v.
Proof.
  intros v Hv. apply Z.eqb_eq.
  apply (byte_cases (fun v => Z.lxor v 255 =? 255 - v)); [vm_compute; reflexivity|exact Hv].
Qed.

Lemma lor_127 : forall v, 0 <= v < 256 -> Z.lor v 127 = if 128 <=? v then 255 else 127.
Proof.
  intros v Hv. apply Z.eqb_eq.
  apply (byte_cases (fun v => Z.lor v 127 =? if 128 <=? v then 255 else 127));
    [vm_compute; reflexivity|exact Hv].
Qed.

(** a bitwise operation that maps two clear bits to a clear bit keeps bytes bytes: the bits
    from 8 on are clear *)
Lemma byte_bits_high : forall x n, 0 <= x < 256 -> 8 <= n -> Z.testbit x n = false.
Proof.
  intros x n Hx Hn. rewrite <- (Z.mod_small x (2 ^ 8)) by exact Hx.
  apply Z.mod_pow2_bits_high. lia.
Qed.

Lemma bitop_byte : forall (op : Z -> Z -> Z) (f : bool -> bool -> bool),
  (forall a b n, Z.testbit (op a b) n = f (Z.testbit a n) (Z.testbit b n)) ->
  f false false = false ->
  forall a b, 0 <= a < 256 -> 0 <= b < 256 -> 0 <= op a b < 256.
Proof.
  intros op f Hop Hf a b Ha Hb.
  replace (op a b) with (op a b mod 2 ^ 8); [apply Z.mod_pos_bound; reflexivity|].
  apply Z.bits_inj'. intros n Hn. destruct (Z.ltb_spec n 8).
  - apply Z.mod_pow2_bits_low. lia.
  - rewrite Z.mod_pow2_bits_high by lia.
    rewrite Hop, !byte_bits_high by assumption. symmetry. exact Hf.
Qed.

Lemma land_byte : forall a b, 0 <= a < 256 -> 0 <= b < 256 -> 0 <= Z.land a b < 256.
Proof. exact (bitop_byte Z.land andb Z.land_spec eq_refl). Qed.
Lemma lor_byte : forall a b, 0 <= a < 256 -> 0 <= b < 256 -> 0 <= Z.lor a b < 256.
Proof. exact (bitop_byte Z.lor orb Z.lor_spec eq_refl). Qed.
Lemma lxor_byte : forall a b, 0 <= a < 256 -> 0 <= b < 256 -> 0 <= Z.lxor a b < 256.
Proof. exact (bitop_byte Z.lxor xorb Z.lxor_spec eq_refl). Qed.

Lemma read_operand_range : forall cfg m s o v c,
  read_operand cfg m s o = Some (v, c) -> (forall a, 0 <= mget (mem s) a < 256) -> 0 <= v < 256.
Proof.
  intros cfg m s o v c H HM. unfold read_operand in H.
  destruct o as [|iv|y k ix|y k|l]; try discriminate H.
  - destruct (imm_value cfg iv) as [x|] eqn:E; [|discriminate H].
    destruct (legal m Imm); [|discriminate H]. inversion H; subst.
    apply (imm_value_range cfg iv v E).
  - destruct (eff_addr cfg m s (OMem y k ix)) as [[[a md] cr]|]; [|discriminate H].
    destruct (read_addr (ports cfg) a) as [a'|]; [|discriminate H]. inversion H; subst. apply HM.
  - destruct (eff_addr cfg m s (OInd y k)) as [[[a md] cr]|]; [|discriminate H].
    destruct (read_addr (ports cfg) a) as [a'|]; [|discriminate H]. inversion H; subst. apply HM.
Qed.

Lemma bytes_ok_flags : forall s n v z c,
  bytes_ok s -> bytes_ok (mkS (rA s) (rX s) (rY s) (rS s) n v z c (mem s)).
Proof. intros s n v z c H. exact H. Qed.

Lemma bytes_ok_mk : forall a x y sp n v z c m,
  0 <= a < 256 -> 0 <= x < 256 -> 0 <= y < 256 -> 0 <= sp < 256 ->
  (forall b, 0 <= mget m b < 256) -> bytes_ok (mkS a x y sp n v z c m).
Proof.
  intros a x y sp n v z c m Ha Hx Hy Hsp Hm. unfold bytes_ok. cbn [rA rX rY rS mem].
  repeat split; try apply Hm; lia.
Qed.

Lemma ror_byte : forall v c, 0 <= v < 256 -> 0 <= v / 2 + 128 * b2z c < 256.
Proof. intros v c Hv. arith_tac. Qed.

Lemma status_byte_range : forall s, 0 <= status_byte s < 256.
Proof. intros s. unfold status_byte. arith_tac. Qed.

(** [bytes_ok] of a state built by setters from a byte-valued one, whose five facts are [HA] .. [HM] *)
Ltac bytes_tac HA HX HY HS HM :=
  apply bytes_ok_mk; cbn [rA rX rY rS mem set_nz set_a set_x set_y set_sp set_c set_v set_mem];
  try assumption; try apply byte_range;
  try (apply land_byte; assumption); try (apply lor_byte; assumption);
  try (apply lxor_byte; assumption); try (apply ror_byte; assumption);
  try (apply mget_mset_bytes; [exact HM|]);
  try apply status_byte_range; try (Z.div_mod_to_equations; lia).

Lemma rmw_val_range : forall m v c, 0 <= v < 256 -> 0 <= rmw_val m v c < 256.
Proof.
  intros m v c Hv. destruct m; try exact Hv; cbn [rmw_val]; try apply byte_range;
    [Z.div_mod_to_equations; lia|apply ror_byte; exact Hv].
Qed.

Lemma push_bytes_ok : forall s v, bytes_ok s -> 0 <= v < 256 -> bytes_ok (push s v).
Proof.
  intros s v (HA & HX & HY & HS & HM) Hv. unfold push. bytes_tac HA HX HY HS HM.
Qed.

Lemma pull_bytes_ok : forall s, bytes_ok s -> bytes_ok (fst (pull s)).
Proof.
  intros s (HA & HX & HY & HS & HM). unfold pull. cbn [fst]. bytes_tac HA HX HY HS HM.
Qed.

Theorem exec_bytes_ok : forall cfg m o s s' k fl,
  exec cfg m o s = XOk s' k fl -> bytes_ok s -> bytes_ok s'.
Proof.
  intros cfg m o s s' k fl E Hb. pose proof Hb as (HA & HX & HY & HS & HM).
  rewrite exec_eq_nf in E. unfold exec_nf, write_operand in E.
  destruct (iclass_of m) eqn:Hc.
  - destruct (read_operand cfg m s o) as [[v c]|] eqn:R; [|discriminate E]. injection E as <- _ _.
    pose proof (read_operand_range _ _ _ _ _ _ R HM) as Hv.
    destruct m; try discriminate Hc; unfold rd_sem, adc, sbc, cmp; bytes_tac HA HX HY HS HM.
  - destruct (eff_addr cfg m s o) as [[[e md] cr]|]; [|discriminate E].
    destruct (write_addr (ports cfg) e); [|discriminate E]. injection E as <- _ _.
    destruct m; try discriminate Hc; cbn [st_reg]; bytes_tac HA HX HY HS HM.
  - pose proof (fun v => rmw_val_range m v (fC s)) as Hr.
    destruct o; [destruct (is_shift m); [|discriminate E]; injection E as <- _ _; unfold rmw_acc_sem|..];
      [|(destruct (eff_addr cfg m s _) as [[[e md] cr]|]; [|discriminate E]);
        (destruct (read_addr (ports cfg) e); [|discriminate E]);
        (destruct (write_addr (ports cfg) e); [|discriminate E]); injection E as <- _ _; unfold rmw_sem..];
      bytes_tac HA HX HY HS HM; apply Hr; first [exact HA|apply HM].
  - injection E as <- _ _. destruct m; try discriminate Hc; try exact Hb; unfold reg_sem; bytes_tac HA HX HY HS HM.
  - destruct o; try discriminate E. destruct (jump_taken m s); injection E as <- _ _; exact Hb.
  - destruct o; try discriminate E. injection E as <- _ _; exact Hb.
  - injection E as <- _ _; exact Hb.
  - injection E as <- _ _; exact Hb.
  - injection E as <- _ _. apply push_bytes_ok; [exact Hb|].
    destruct m; try discriminate Hc; [exact HA|apply status_byte_range].
  - injection E as <- _ _. pose proof (pull_bytes_ok s Hb) as (PA & PX & PY & PS & PM).
    unfold pull_sem, pull in *. cbn [fst] in *. destruct m; try discriminate Hc; unfold set_status;
      bytes_tac PA PX PY PS PM; apply HM.
Qed.
Print Assumptions exec_bytes_ok.

Fixpoint drop_to_slbl (l : string) (c : list sline) : option (list sline) :=
  match c with
  | [] => None
  | SLbl x :: r => if String.eqb x l then Some c else drop_to_slbl l r
  | _ :: r => drop_to_slbl l r
  end.

Fixpoint exec_fwd (cfg : config) (fuel : nat) (c : list sline) (s : mstate) : option mstate :=
  match fuel with
  | O => None
  | S f =>
      match c with
      | [] => Some s
      | SLbl _ :: r | SSkip :: r => exec_fwd cfg f r s
      | SInl _ :: _ => None
      | SIns m o _ _ :: r =>
          match exec cfg m o s with
          | XOk s' _ FNext => exec_fwd cfg f r s'
          | XOk s' _ (FGoto l) =>
              match drop_to_slbl l r with
              | Some r' => exec_fwd cfg f r' s'
              | None => None
              end
          | _ => None
          end
      end
  end.

Fixpoint targets (c : list sline) : list string :=
  match c with
  | [] => []
  | SIns _ (OLbl l) _ _ :: r => l :: targets r
  | _ :: r => targets r
  end.

(** no label is defined again further down *)
Fixpoint lbls_once (c : list sline) : Prop :=
  match c with
  | [] => True
  | SLbl x :: r => find_label x r 0 = None /\ lbls_once r
  | _ :: r => lbls_once r
  end.

(** then a label is found where it stands *)
Lemma lbls_once_find : forall l a b k, lbls_once (a ++ SLbl l :: b) ->
  find_label l (a ++ SLbl l :: b) k = Some (k + length a)%nat.
Proof.
  intros l a b. induction a as [|x a IH]; intros k H; cbn [app length find_label] in *.
  - rewrite String.eqb_refl, Nat.add_0_r. reflexivity.
  - rewrite Nat.add_succ_r. destruct x as [y|m o p raw|t|]; try (apply (IH (S k) H)).
    destruct H as [Hy H]. destruct (String.eqb_spec y l) as [->|_]; [|apply (IH (S k) H)].
    rewrite (IH O H) in Hy. discriminate Hy.
Qed.

Lemma drop_to_slbl_spec : forall l c c', drop_to_slbl l c = Some c' ->
  exists mid r, c = mid ++ c' /\ c' = SLbl l :: r.
Proof.
  intros l c. induction c as [|x c IH]; intros c' H; [discriminate H|].
  assert (Hrec : drop_to_slbl l c = Some c' -> exists mid r, x :: c = mid ++ c' /\ c' = SLbl l :: r).
  { intros H'. destruct (IH c' H') as (mid & r & -> & E2). exists (x :: mid), r. split; [reflexivity|exact E2]. }
  cbn [drop_to_slbl] in H. destruct x as [y|m o p raw|t|]; try (apply Hrec; exact H).
  destruct (String.eqb_spec y l) as [->|_]; [|apply Hrec; exact H].
  injection H as <-. exists [], c. split; reflexivity.
Qed.

Lemma nth_error_mid : forall (A : Type) (pre : list A) (x : A) (r : list A),
  nth_error (pre ++ x :: r) (length pre) = Some x.
Proof. intros A pre x r. rewrite nth_error_app2 by lia. rewrite Nat.sub_diag. reflexivity. Qed.

Lemma app_cons_assoc : forall (A : Type) (pre : list A) (x : A) (r : list A),
  pre ++ x :: r = (pre ++ [x]) ++ r.
Proof. intros A pre x r. rewrite <- app_assoc. reflexivity. Qed.

Lemma length_snoc : forall (A : Type) (pre : list A) (x : A), length (pre ++ [x]) = S (length pre).
Proof. intros A pre x. rewrite app_length. cbn [length]. lia. Qed.

Section RunFwd.
  Variable cfg : config.
  Variable prog : sprogram.
  Variable inl_sem : string -> mstate -> option mstate.
  Variable ext_call : string -> mstate -> option mstate.

  Lemma run_S : forall fuel fname c pc stack s tr cy,
    Sem.run cfg prog inl_sem ext_call (S fuel) fname c pc stack s tr cy =
    match nth_error c pc with
    | None => match stack with
              | [] => Halt s (rev tr) cy
              | _ => Faulted "fell off the end of a called function" fname pc s
              end
    | Some (SLbl _) | Some SSkip => Sem.run cfg prog inl_sem ext_call fuel fname c (S pc) stack s tr cy
    | Some (SInl t) =>
        match inl_sem t s with
        | Some s' => Sem.run cfg prog inl_sem ext_call fuel fname c (S pc) stack s' (EvN t :: tr) cy
        | None => Faulted "unknown inline assembly" fname pc s
        end
    | Some (SIns m o prot raw) =>
        let tr' := if prot then EvI m raw :: tr else tr in
        match exec cfg m o s with
        | XFault why => Faulted why fname pc s
        | XOk s' k fl =>
            let cy' := (cy + k)%N in
            match fl with
            | FNext => Sem.run cfg prog inl_sem ext_call fuel fname c (S pc) stack s' tr' cy'
            | FGoto l =>
                match find_label l c 0 with
                | Some k' => Sem.run cfg prog inl_sem ext_call fuel fname c k' stack s' tr' cy'
                | None => Faulted "undefined label" fname pc s
                end
            | FCall f =>
                match find_func f prog with
                | Some c' =>
                    let d := Z.of_nat (length stack) + 1 in
                    let s1 := push (push s' (byte d)) (byte (255 - d)) in
                    Sem.run cfg prog inl_sem ext_call fuel f c' 0 ((fname, c, S pc) :: stack) s1 tr' cy'
                | None =>
                    match ext_call f s' with
                    | Some s2 => Sem.run cfg prog inl_sem ext_call fuel fname c (S pc) stack s2 tr' cy'
                    | None => Faulted "call of an unknown function" fname pc s
                    end
                end
            | FRet =>
                match stack with
                | [] => Halt s' (rev tr') cy'
                | (fn, c0, pc0) :: st' =>
                    let d := Z.of_nat (length stack) in
                    let '(s1, lo) := pull s' in
                    let '(s2, hi) := pull s1 in
                    if (lo =? byte (255 - d)) && (hi =? byte d)
                    then Sem.run cfg prog inl_sem ext_call fuel fn c0 pc0 st' s2 tr' cy'
                    else Faulted "RTS with a corrupted stack" fname pc s
                end
            | FRti => Halt s' (rev tr') cy'
            end
        end
    end.
  Proof. reflexivity. Qed.

  Lemma run_off_end : forall fuel fname c s tr cy,
    Sem.run cfg prog inl_sem ext_call (S fuel) fname c (length c) [] s tr cy = Halt s (rev tr) cy.
  Proof. intros. rewrite run_S, (proj2 (nth_error_None c (length c)) (le_n _)). reflexivity. Qed.

  (** [exec_fwd] agrees with [Sem.run]: whatever precedes the fragment, if no label of the whole is
      defined twice (a branch of [exec_fwd] goes to the first definition further down, one of
      [Sem.run] to the first of all), with an empty call stack and enough fuel, [run] halts in the
      state [exec_fwd] computes *)
  Theorem run_exec_fwd : forall n l pre s s' fuel fname tr cy,
    exec_fwd cfg n l s = Some s' -> lbls_once (pre ++ l) -> (length l < fuel)%nat ->
    exists tr' cy',
      Sem.run cfg prog inl_sem ext_call fuel fname (pre ++ l) (length pre) [] s tr cy = Halt s' tr' cy'.
  Proof.
    induction n as [|n IH]; intros l pre s s' fuel fname tr cy He Hok Hfuel; [discriminate He|].
    destruct fuel as [|fuel]; [lia|].
    cbn [exec_fwd] in He.
    destruct l as [|x r].
    - inversion He; subst s'. rewrite app_nil_r, run_off_end. eauto.
    - rewrite run_S, nth_error_mid. cbn [length] in Hfuel.
      assert (Hnext : forall s1 tr1 cy1, exec_fwd cfg n r s1 = Some s' -> exists tr' cy',
                Sem.run cfg prog inl_sem ext_call fuel fname (pre ++ x :: r) (S (length pre)) [] s1 tr1 cy1
                = Halt s' tr' cy').
      { intros s1 tr1 cy1 He1. rewrite app_cons_assoc in Hok |- *. rewrite <- (length_snoc _ pre x).
        apply (IH r (pre ++ [x]) s1 s' fuel fname tr1 cy1 He1 Hok). lia. }
      destruct x as [y|m o p raw|t|]; [apply Hnext; exact He| |discriminate He|apply Hnext; exact He].
      destruct (exec cfg m o s) as [s1 k fl|why] eqn:Ex; [|discriminate He]. cbv zeta.
      destruct fl as [|lbl|f| |]; try discriminate He; [apply Hnext; exact He|].
      destruct (drop_to_slbl lbl r) as [r'|] eqn:Ed; [|discriminate He].
      destruct (drop_to_slbl_spec lbl r r' Ed) as (mid & r2 & -> & ->).
      assert (Ec : pre ++ SIns m o p raw :: mid ++ SLbl lbl :: r2
                   = (pre ++ SIns m o p raw :: mid) ++ SLbl lbl :: r2)
        by (rewrite <- app_assoc; reflexivity).
      rewrite Ec in Hok |- *. rewrite (lbls_once_find lbl _ r2 O Hok).
      apply (IH _ _ s1 s' fuel fname _ _ He Hok). rewrite app_length in Hfuel. lia.
  Qed.
End RunFwd.
Print Assumptions run_exec_fwd.

(** mnemonics with a zero-page and an absolute form *)
Definition is_memop (m : mnem) : bool :=
  match m with
  | LDA | LDX | LDY | STA | STX | STY | ADC | SBC | EOR | AND | ORA | CMP | CPX | CPY
  | ASL | LSR | ROL | ROR | INC | DEC => true
  | _ => false
  end.

Lemma resolve_mem : forall m zp, is_memop m = true ->
  resolve m ShMem zp = Some (if zp then Zp else Abs).
Proof. intros m zp H. destruct m; try discriminate H; destruct zp; reflexivity. Qed.

(** the address mode the assembler picks for a plain memory operand at address [a] *)
Definition amode (a : Z) : mode := if a <? 256 then Zp else Abs.

Lemma eff_addr_mem : forall cfg m s y k a0, is_memop m = true ->
  layout cfg y = Some a0 -> 0 <= a0 + k < 65536 ->
  eff_addr cfg m s (OMem y k IxNone) = Some (a0 + k, amode (a0 + k), false).
Proof.
  intros cfg m s y k a0 Hm Hl Ha. unfold eff_addr, amode. rewrite Hl. cbn [shape_of].
  rewrite (resolve_mem m _ Hm). rewrite Z.add_0_r.
  rewrite Z.mod_small by exact Ha. rewrite Z.eqb_refl.
  destruct (a0 + k <? 256); reflexivity.
Qed.

Definition is_rd (m : mnem) : bool :=
  match m with
  | LDA | LDX | LDY | ADC | SBC | EOR | AND | ORA | CMP | CPX | CPY => true
  | _ => false
  end.

Lemma is_rd_memop : forall m, is_rd m = true -> is_memop m = true.
Proof. intros m H. destruct m; try discriminate H; reflexivity. Qed.

Lemma exec_rd_eff : forall cfg m o s a md cr a', is_rd m = true ->
  eff_addr cfg m s o = Some (a, md, cr) -> read_addr (ports cfg) a = Some a' ->
  exec cfg m o s = XOk (rd_sem m s (mget (mem s) a')) (cyc m md cr) FNext.
Proof.
  intros cfg m o s a md cr a' Hm He Hr. rewrite exec_eq_nf. unfold exec_nf, read_operand.
  replace (iclass_of m) with CRd by (destruct m; try discriminate Hm; reflexivity).
  destruct o; try discriminate He; rewrite He, Hr; reflexivity.
Qed.

Lemma exec_rd_mem : forall cfg m s y k a0, ports cfg = [] -> is_rd m = true ->
  layout cfg y = Some a0 -> 0 <= a0 + k < 65536 ->
  exec cfg m (OMem y k IxNone) s
  = XOk (rd_sem m s (mget (mem s) (a0 + k))) (cyc m (amode (a0 + k)) false) FNext.
Proof.
  intros cfg m s y k a0 Hp Hm Hl Ha. apply (exec_rd_eff cfg m _ s (a0 + k)); [exact Hm| |rewrite Hp; reflexivity].
  apply eff_addr_mem; [apply is_rd_memop; exact Hm|exact Hl|exact Ha].
Qed.

Lemma exec_rd_imm : forall cfg m s n, is_rd m = true ->
  exec cfg m (OImm (INum n)) s = XOk (rd_sem m s (byte n)) (base_cycles m Imm) FNext.
Proof. intros cfg m s n Hm. destruct m; try discriminate Hm; reflexivity. Qed.

Definition is_st (m : mnem) : bool := match m with STA | STX | STY => true | _ => false end.

Lemma is_st_memop : forall m, is_st m = true -> is_memop m = true.
Proof. intros m H. destruct m; try discriminate H; reflexivity. Qed.

Lemma exec_st_eff : forall cfg m o s a md cr a', is_st m = true ->
  eff_addr cfg m s o = Some (a, md, cr) -> write_addr (ports cfg) a = Some a' ->
  exec cfg m o s = XOk (set_mem s (mset (mem s) a' (st_reg m s))) (cyc m md cr) FNext.
Proof.
  intros cfg m o s a md cr a' Hm He Hw. rewrite exec_eq_nf. unfold exec_nf, write_operand.
  replace (iclass_of m) with CSt by (destruct m; try discriminate Hm; reflexivity).
  rewrite He, Hw. reflexivity.
Qed.

Lemma exec_st_mem : forall cfg m s y k a0, ports cfg = [] -> is_st m = true ->
  layout cfg y = Some a0 -> 0 <= a0 + k < 65536 ->
  exec cfg m (OMem y k IxNone) s
  = XOk (set_mem s (mset (mem s) (a0 + k) (st_reg m s))) (cyc m (amode (a0 + k)) false) FNext.
Proof.
  intros cfg m s y k a0 Hp Hm Hl Ha. apply (exec_st_eff cfg m _ s (a0 + k)); [exact Hm| |rewrite Hp; reflexivity].
  apply eff_addr_mem; [apply is_st_memop; exact Hm|exact Hl|exact Ha].
Qed.

Definition is_rmw_m (m : mnem) : bool :=
  match m with ASL | LSR | ROL | ROR | INC | DEC => true | _ => false end.

Lemma is_rmw_memop : forall m, is_rmw_m m = true -> is_memop m = true.
Proof. intros m H. destruct m; try discriminate H; reflexivity. Qed.

Definition rmw_mem_sem (m : mnem) (s : mstate) (a : Z) : mstate :=
  let v := mget (mem s) a in
  set_nz (set_c (set_mem s (mset (mem s) a (rmw_val m v (fC s)))) (rmw_carry m v (fC s)))
         (rmw_val m v (fC s)).

Lemma exec_rmw_eff : forall cfg m o s a md cr, ports cfg = [] -> is_rmw_m m = true ->
  eff_addr cfg m s o = Some (a, md, cr) ->
  exec cfg m o s = XOk (rmw_mem_sem m s a) (cyc m md cr) FNext.
Proof.
  intros cfg m o s a md cr Hp Hm He. rewrite exec_eq_nf. unfold exec_nf.
  replace (iclass_of m) with CRmw by (destruct m; try discriminate Hm; reflexivity).
  destruct o; try discriminate He; rewrite He, Hp; reflexivity.
Qed.

Lemma exec_rmw_mem : forall cfg m s y k a0, ports cfg = [] -> is_rmw_m m = true ->
  layout cfg y = Some a0 -> 0 <= a0 + k < 65536 ->
  exec cfg m (OMem y k IxNone) s
  = XOk (rmw_mem_sem m s (a0 + k)) (cyc m (amode (a0 + k)) false) FNext.
Proof.
  intros cfg m s y k a0 Hp Hm Hl Ha. apply exec_rmw_eff; [exact Hp|exact Hm|].
  apply eff_addr_mem; [apply is_rmw_memop; exact Hm|exact Hl|exact Ha].
Qed.

Lemma exec_rmw_acc : forall cfg m s, is_shift m = true ->
  exec cfg m ONone s = XOk (rmw_acc_sem m s) 2%N FNext.
Proof. intros cfg m s Hm. destruct m; try discriminate Hm; reflexivity. Qed.

(** the instructions on registers and flags alone: CLC, SEC, INX, DEY, TAX ... *)
Lemma exec_reg : forall cfg m o s, iclass_of m = CReg ->
  exec cfg m o s = XOk (reg_sem m s) 2%N FNext.
Proof. intros cfg m o s Hm. rewrite exec_eq_nf. unfold exec_nf. rewrite Hm. reflexivity. Qed.

Lemma exec_branch : forall cfg m l s, is_cond_branch m = true ->
  exec cfg m (OLbl l) s = if branch_taken m s then XOk s 3%N (FGoto l) else XOk s 2%N FNext.
Proof. intros cfg m l s Hm. destruct m; try discriminate Hm; reflexivity. Qed.

(** [v] is a plain symbol: the texts "v" and "v+1" denote the cells [v] and [v+1] *)
Definition var_name (v : string) : Prop :=
  forall m, takes_label m = false ->
    parse_operand m v = Some (OMem v 0 IxNone) /\ parse_operand m (hi v) = Some (OMem v 1 IxNone).

Lemma vn_lo : forall v m, var_name v -> takes_label m = false ->
  parse_operand m v = Some (OMem v 0 IxNone).
Proof. intros v m H Hm. exact (proj1 (H m Hm)). Qed.
Lemma vn_hi : forall v m, var_name v -> takes_label m = false ->
  parse_operand m (hi v) = Some (OMem v 1 IxNone).
Proof. intros v m H Hm. exact (proj2 (H m Hm)). Qed.

Lemma parse_empty : forall m, parse_operand m "" = Some ONone.
Proof. reflexivity. Qed.

Lemma parse_lbl : forall m l, takes_label m = true -> l <> ""%string ->
  parse_operand m l = Some (OLbl l).
Proof.
  intros m l Hm Hl. unfold parse_operand. rewrite Hm.
  destruct (String.eqb_spec l ""); [contradiction|reflexivity].
Qed.

Lemma string_of_Z_nonneg : forall k, 0 <= k -> string_of_Z k = string_of_N (Z.to_N k).
Proof. intros k Hk. destruct k as [|p|p]; [reflexivity|reflexivity|lia]. Qed.

Lemma parse_imm_digit : forall r, starts_digit r = true ->
  parse_imm r = match parse_dec r with Some n => Some (OImm (INum (Z.of_N n))) | None => None end.
Proof.
  intros r H. destruct r as [|c r']; [discriminate H|].
  cbn [starts_digit] in H. unfold parse_imm.
  destruct c as [b0 b1 b2 b3 b4 b5 b6 b7].
  destruct b0, b1, b2, b3, b4, b5, b6, b7; try reflexivity; discriminate H.
Qed.

(** the decimal text of a number that is not negative *)
Lemma string_of_Z_dec : forall k, 0 <= k ->
  starts_digit (string_of_Z k) = true /\ parse_dec (string_of_Z k) = Some (Z.to_N k).
Proof.
  intros k Hk. rewrite (string_of_Z_nonneg k Hk).
  pose proof (string_of_N_starts (Z.to_N k)) as Hs. split; [exact Hs|].
  unfold parse_dec. destruct (string_of_N (Z.to_N k)) eqn:E; [discriminate Hs|].
  rewrite <- E. apply parse_string_of_N.
Qed.

Lemma parse_imm_num : forall m k, takes_label m = false -> 0 <= k ->
  parse_operand m (imm k) = Some (OImm (INum k)).
Proof.
  intros m k Hm Hk. destruct (string_of_Z_dec k Hk) as [Hs Hp].
  rewrite parse_operand_eq, Hm. unfold imm. cbn [append String.eqb]. rewrite Ascii.eqb_refl.
  rewrite (parse_imm_digit _ Hs), Hp, Z2N.id by exact Hk. reflexivity.
Qed.

Lemma slines_nil : slines_of [] = Some [].
Proof. reflexivity. Qed.
(** an instruction whatever its annotations: [ins m op], [pins m op], [br m l p] *)
Lemma slines_ins : forall m op c a b p o r sr, parse_operand m op = Some o -> slines_of r = Some sr ->
  slines_of (Ins (mkI m op c a b p) :: r) = Some (SIns m o p op :: sr).
Proof.
  intros m op c a b p o r sr Hp Hr. cbn [slines_of sline_of i_mn i_op i_prot]. rewrite Hp, Hr. reflexivity.
Qed.
Lemma slines_lbl : forall l r sr, slines_of r = Some sr -> slines_of (Lbl l :: r) = Some (SLbl l :: sr).
Proof. intros l r sr Hr. cbn [slines_of sline_of]. rewrite Hr. reflexivity. Qed.

Definition runs_to (cfg : config) (c : code) (st st' : mstate) : Prop :=
  exists sl, slines_of c = Some sl /\
    forall prog inl_sem ext_call fname fuel, (length sl < fuel)%nat ->
      exists tr cy, Sem.run cfg prog inl_sem ext_call fuel fname sl 0 [] st [] 0%N = Halt st' tr cy.

Lemma runs_to_intro : forall cfg c sl n st st',
  slines_of c = Some sl -> lbls_once sl -> exec_fwd cfg n sl st = Some st' -> runs_to cfg c st st'.
Proof.
  intros cfg c sl n st st' Hs Hok He. exists sl. split; [exact Hs|].
  intros prog inl_sem ext_call fname fuel Hf.
  exact (run_exec_fwd cfg prog inl_sem ext_call n sl [] st st' fuel fname [] 0%N He Hok Hf).
Qed.

Lemma xf_nil : forall cfg f s, exec_fwd cfg (S f) [] s = Some s.
Proof. reflexivity. Qed.
Lemma xf_lbl : forall cfg f l r s, exec_fwd cfg (S f) (SLbl l :: r) s = exec_fwd cfg f r s.
Proof. reflexivity. Qed.
Lemma xf_next : forall cfg f m o p raw r s s' k, exec cfg m o s = XOk s' k FNext ->
  exec_fwd cfg (S f) (SIns m o p raw :: r) s = exec_fwd cfg f r s'.
Proof. intros cfg f m o p raw r s s' k H. cbn [exec_fwd]. rewrite H. reflexivity. Qed.
Lemma xf_branch : forall cfg f m l p raw r s, is_cond_branch m = true ->
  exec_fwd cfg (S f) (SIns m (OLbl l) p raw :: r) s
  = if branch_taken m s
    then match drop_to_slbl l r with Some r' => exec_fwd cfg f r' s | None => None end
    else exec_fwd cfg f r s.
Proof.
  intros cfg f m l p raw r s Hm. cbn [exec_fwd]. rewrite (exec_branch cfg m l s Hm).
  destruct (branch_taken m s); reflexivity.
Qed.

Definition only_changes (dest : list Z) (st st' : mstate) : Prop :=
  forall a, 0 <= a -> ~ In a dest -> mget (mem st') a = mget (mem st) a.
Definition keeps_xys (st st' : mstate) : Prop :=
  rX st' = rX st /\ rY st' = rY st /\ rS st' = rS st.

Definition word (m : memory) (p : Z) : Z := mget m p + 256 * mget m (p + 1).

(** what an instruction reads: a memory cell or a constant *)
Inductive src := Cell (a : Z) | Lit (n : Z).
Definition srcv (x : src) (m : memory) : Z := match x with Cell a => mget m a | Lit n => n end.
Definition srcv_ok (x : src) : Prop := match x with Cell a => 0 <= a | Lit n => 0 <= n < 256 end.
(** a write to the cell [d] does not change [x] *)
Definition sfree (x : src) (d : Z) : Prop := match x with Cell a => a <> d | Lit _ => True end.

Lemma srcv_range : forall x m, srcv_ok x -> (forall a, 0 <= mget m a < 256) -> 0 <= srcv x m < 256.
Proof. intros [a|n] m Hx H; [apply H|exact Hx]. Qed.

Lemma srcv_mset : forall x m d v, srcv_ok x -> sfree x d -> 0 <= d -> srcv x (mset m d v) = srcv x m.
Proof.
  intros [a|n] m d v Ha Hf Hd; [|reflexivity].
  apply mget_mset_other; [intros E; apply Hf; symmetry; exact E|exact Hd|exact Ha].
Qed.

(** * Tactics: symbolic execution of a template

    [run_tac] proves [runs_to cfg c st ?st']: it assembles the template ([slines_tac], one operand
    text at a time by [parse_tac]), checks that no label is defined twice, and runs [exec_fwd] one
    line at a time ([xstep]); the final state is left as a term over [st].  The effect of an
    instruction is given by the equation of an opened access ([acc_open], below) when there is one
    about its operand (or another equation about it in the context: so Proofs/GenPtrFacts.v runs
    [(p),Y]), else by the one-step lemma for its form ([exec_solve]).  [post_tac] then opens
    the frame conditions and [state_simp] / [mem_simp] read registers and cells off that term. *)

Ltac parse_tac :=
  first [ apply parse_empty
        | apply vn_lo; [assumption|reflexivity]
        | apply vn_hi; [assumption|reflexivity]
        | apply parse_imm_num; [reflexivity|lia]
        | apply parse_lbl; [reflexivity|assumption]
        | eassumption
        | match goal with P : forall m, _ -> parse_operand m ?t = _ |- parse_operand _ ?t = _ =>
            apply P; reflexivity end ].

Ltac slines_tac :=
  repeat first [ apply slines_nil
               | eapply slines_ins; [parse_tac|]
               | eapply slines_lbl ].

(** the effect of the instruction at hand, by the one-step lemma for its form; the form is read off
    the goal first ([apply] of the wrong lemma can be slow to fail: it unfolds [exec]; a branch or
    jump, which the steppers for [reach] also try this tactic on, is refused at once).  After
    [exec_reg] the state [reg_sem m s] is computed at once: left for a later [cbn] of the whole
    goal, [Qed] has to find the two forms of every later state convertible (seconds, in a loop) *)
Ltac exec_solve :=
  lazymatch goal with
  | |- exec _ _ (OImm (INum _)) _ = _ => eapply exec_rd_imm; reflexivity
  | |- exec _ _ ONone _ = _ =>
      first [ etransitivity; [apply exec_reg; reflexivity|cbn [reg_sem]; reflexivity]
            | eapply exec_rmw_acc; first [assumption|reflexivity] ]
  | |- exec _ _ (OLbl _) _ = _ => fail
  | |- exec _ _ ?o _ = _ =>
      first [ match goal with E : context [exec _ _ o _ = _] |- _ => apply E; reflexivity end
            | eapply exec_rd_mem; [assumption|reflexivity|eassumption|lia]
            | eapply exec_st_mem; [assumption|reflexivity|eassumption|lia]
            | eapply exec_rmw_mem; [assumption|reflexivity|eassumption|lia] ]
  end.

Ltac xstep :=
  first [ rewrite xf_nil | rewrite xf_lbl | erewrite xf_next by exec_solve ].

Ltac state_simp :=
  cbn [mem rA rX rY rS fN fZ fC fV set_nz set_a set_x set_y set_c set_v set_mem
       rd_sem st_reg reg_sem rmw_mem_sem rmw_acc_sem rmw_val rmw_carry adc sbc cmp srcv];
  change (b2z true) with 1; change (b2z false) with 0;
  change (1 - 1) with 0; change (1 - 0) with 1;
  rewrite ?Z.add_0_r, ?Z.sub_0_r.

Lemma mget_mset_eq : forall m a b v, a = b -> mget (mset m a v) b = v.
Proof. intros m a b v ->. apply mget_mset_same. Qed.

Ltac mem_simp :=
  repeat first
  [ rewrite mget_mset_same
  | rewrite mget_mset_eq by lia
  | rewrite mget_mset_other by lia ].

(** frame conditions, one write after the other: a write to a cell of [D] keeps what holds of the
    cells outside [D] *)
Lemma mset_frame : forall (D : list Z) (m0 m : memory) p v, 0 <= p -> In p D ->
  (forall a, 0 <= a -> ~ In a D -> mget m a = mget m0 a) ->
  forall a, 0 <= a -> ~ In a D -> mget (mset m p v) a = mget m0 a.
Proof.
  intros D m0 m p v Hp Hin H a Ha Hn.
  rewrite mget_mset_other; [apply H; assumption| |assumption|assumption].
  intros E. apply Hn. rewrite <- E. exact Hin.
Qed.
Ltac mset_frames :=
  repeat (apply mset_frame; [lia|cbn [In]; repeat first [left; reflexivity|right]|]).
(** the [only_changes d] part of a postcondition: one [mset_frame] per write, each at a cell of [d] *)
Ltac msets_frame := mset_frames; intros; reflexivity.

(** 20 steps are more than any template has lines; [branch]: the step at a conditional branch, for
    the templates that have one *)
Ltac run_with branch :=
  eapply runs_to_intro with (n := 20%nat);
  [ cbn [template bin8 bin16 app]; slines_tac
  | cbn [lbls_once find_label]; tauto
  | repeat first [xstep | branch]; reflexivity ].
Ltac run_tac := run_with fail.
(** [E] rewrites the flag that the branch tests, as [state_simp] shows it, to [true] or [false] *)
Ltac run_branch_tac E :=
  run_with ltac:(rewrite xf_branch by reflexivity; cbn [branch_taken]; state_simp;
                 rewrite E; cbn [negb drop_to_slbl]; rewrite ?String.eqb_refl).

(** pose the byte range of every memory cell of [st] the goal mentions *)
Ltac mem_ranges HM :=
  repeat match goal with
  | |- context [mget (mem ?s) ?p] =>
      let H := constr:(HM p) in
      lazymatch goal with
      | _ : 0 <= mget (mem s) p < 256 |- _ => fail
      | _ => pose proof H
      end
  end.

Ltac post_tac := unfold only_changes, keeps_xys; state_simp.
(** [keeps_xys], after [post_tac]: each register is syntactically the old one *)
Ltac kept := repeat split; reflexivity.

(** the frame part of a postcondition, after [post_tac] *)
Ltac frame_tac := split; [msets_frame|kept].

(** * Cells through operand texts

    A template does not depend on where its operands live, only on the operand texts through which
    they are read and written.  [reads cfg st t x]: in every state with the X and Y of [st] (the
    text may be indexed) an accumulator instruction with the operand text [t] reads [x];
    [writes cfg st t a]: [STA t] sets the cell [a]; [rmws cfg st t a]: a read-modify-write
    instruction with the operand [t] works on the cell [a].  The template shapes below are proved
    once over such accesses; a plain variable ([cell_var], [cell_varh]), a constant ([imm_r]), a variable or an
    array element in split-port RAM (Proofs/GenSplitFacts.v), an element of an array of words
    (Proofs/GenElemFacts.v) supply them. *)

(** the accumulator instructions that read: they have all the address modes of [LDA] *)
Definition acc_rd (m : mnem) : bool :=
  match m with LDA | ADC | SBC | EOR | AND | ORA | CMP => true | _ => false end.

Lemma acc_rd_rd : forall m, acc_rd m = true -> is_rd m = true.
Proof. intros m H. destruct m; try discriminate H; reflexivity. Qed.

Definition reads_at (cfg : config) (st : mstate) (o : operand) (x : src) : Prop :=
  srcv_ok x /\ exists cy : mnem -> mstate -> N,
    forall m s, acc_rd m = true -> rX s = rX st -> rY s = rY st ->
      exec cfg m o s = XOk (rd_sem m s (srcv x (mem s))) (cy m s) FNext.

Definition reads (cfg : config) (st : mstate) (t : string) (x : src) : Prop :=
  exists o, (forall m, takes_label m = false -> parse_operand m t = Some o) /\ reads_at cfg st o x.

Definition writes (cfg : config) (st : mstate) (t : string) (a : Z) : Prop :=
  0 <= a /\ exists o (cy : mstate -> N),
    parse_operand STA t = Some o /\
    forall s, rX s = rX st -> rY s = rY st ->
      exec cfg STA o s = XOk (set_mem s (mset (mem s) a (rA s))) (cy s) FNext.

Definition rmws (cfg : config) (st : mstate) (t : string) (a : Z) : Prop :=
  0 <= a /\ exists o (cy : mnem -> mstate -> N),
    (forall m, takes_label m = false -> parse_operand m t = Some o) /\
    forall m s, is_rmw_m m = true -> rX s = rX st -> rY s = rY st ->
      exec cfg m o s = XOk (rmw_mem_sem m s a) (cy m s) FNext.

(** [acc_open H] opens the access [H]: the operand [o] its text parses to ([P]) and the equation [E]
    for one instruction on it, which [exec_solve] finds in the context by the operand *)
Ltac acc_open H :=
  let R := fresh "R" in let o := fresh "o" in let cy := fresh "cy" in
  let P := fresh "P" in let E := fresh "E" in
  lazymatch type of H with
  | reads _ _ _ _ => destruct H as (o & P & R & cy & E)
  | reads_at _ _ _ _ => destruct H as (R & cy & E)
  | _ => destruct H as (R & o & cy & P & E)
  end.

(** an unindexed memory operand, with the ports it goes through *)
Lemma reads_mem : forall cfg st t v k pv a,
  (forall m, takes_label m = false -> parse_operand m t = Some (OMem v k IxNone)) ->
  layout cfg v = Some pv -> 0 <= pv + k < 65536 -> read_addr (ports cfg) (pv + k) = Some a ->
  0 <= a -> reads cfg st t (Cell a).
Proof.
  intros cfg st t v k pv a P L R Hr Ha. exists (OMem v k IxNone). split; [exact P|]. split; [exact Ha|].
  exists (fun m _ => cyc m (amode (pv + k)) false).
  intros m s Hm _ _. apply (exec_rd_eff cfg m _ s (pv + k)); [apply acc_rd_rd; exact Hm| |exact Hr].
  apply eff_addr_mem; [apply is_rd_memop, acc_rd_rd; exact Hm|exact L|exact R].
Qed.

Lemma writes_mem : forall cfg st t v k pv a,
  parse_operand STA t = Some (OMem v k IxNone) ->
  layout cfg v = Some pv -> 0 <= pv + k < 65536 -> write_addr (ports cfg) (pv + k) = Some a ->
  0 <= a -> writes cfg st t a.
Proof.
  intros cfg st t v k pv a P L R Hw Ha. split; [exact Ha|].
  exists (OMem v k IxNone), (fun _ => cyc STA (amode (pv + k)) false). split; [exact P|].
  intros s _ _. apply (exec_st_eff cfg STA _ s (pv + k)); [reflexivity| |exact Hw].
  apply eff_addr_mem; [reflexivity|exact L|exact R].
Qed.

Lemma imm_r : forall cfg st n, 0 <= n < 256 -> reads cfg st (imm n) (Lit n).
Proof.
  intros cfg st n Hn. exists (OImm (INum n)). split.
  - intros m Hm. apply parse_imm_num; [exact Hm|apply Hn].
  - split; [exact Hn|]. exists (fun m _ => base_cycles m Imm).
    intros m s Hm _ _. cbn [srcv]. rewrite <- (byte_id n Hn) at 2. apply exec_rd_imm, acc_rd_rd, Hm.
Qed.

(** a text that serves all three purposes *)
Definition cell (cfg : config) (st : mstate) (t : string) (a : Z) : Prop :=
  reads cfg st t (Cell a) /\ writes cfg st t a /\ rmws cfg st t a.

Lemma cell_r : forall cfg st t a, cell cfg st t a -> reads cfg st t (Cell a).
Proof. intros cfg st t a H. apply H. Qed.
Lemma cell_w : forall cfg st t a, cell cfg st t a -> writes cfg st t a.
Proof. intros cfg st t a H. apply H. Qed.
Lemma cell_m : forall cfg st t a, cell cfg st t a -> rmws cfg st t a.
Proof. intros cfg st t a H. apply H. Qed.

(** without ports, an unindexed memory operand *)
Lemma plain_cell : forall cfg st t v k pv a, ports cfg = [] ->
  (forall m, takes_label m = false -> parse_operand m t = Some (OMem v k IxNone)) ->
  layout cfg v = Some pv -> a = pv + k -> 0 <= a < 65536 -> cell cfg st t a.
Proof.
  intros cfg st t v k pv a Hp P L -> R.
  split; [apply (reads_mem cfg st t v k pv); [exact P|exact L|exact R|rewrite Hp; reflexivity|lia]|].
  split; [apply (writes_mem cfg st t v k pv); [apply P; reflexivity|exact L|exact R|rewrite Hp; reflexivity|lia]|].
  split; [lia|]. exists (OMem v k IxNone), (fun m _ => cyc m (amode (pv + k)) false). split; [exact P|].
  intros m s Hm _ _. apply exec_rmw_mem; assumption.
Qed.

(** a plain variable: its low cell "v" and its high cell "v+1" *)
Lemma cell_var : forall cfg st v pv, ports cfg = [] -> var_name v -> layout cfg v = Some pv ->
  0 <= pv < 65536 -> cell cfg st v pv.
Proof.
  intros cfg st v pv Hp Vv Lv. apply (plain_cell cfg st v v 0 pv); [exact Hp| |exact Lv|lia].
  intros m. apply vn_lo. exact Vv.
Qed.
Lemma cell_varh : forall cfg st v pv, ports cfg = [] -> var_name v -> layout cfg v = Some pv ->
  0 <= pv + 1 < 65536 -> cell cfg st (hi v) (pv + 1).
Proof.
  intros cfg st v pv Hp Vv Lv. apply (plain_cell cfg st (hi v) v 1 pv); [exact Hp| |exact Lv|reflexivity].
  intros m. apply vn_hi. exact Vv.
Qed.

(** * The template shapes, over accesses *)

Theorem copy_gen : forall cfg x d tr tw st,
  reads cfg st tr x -> writes cfg st tw d ->
  exists st', runs_to cfg [ins LDA tr; ins STA tw] st st' /\
    mget (mem st') d = srcv x (mem st) /\ only_changes [d] st st' /\ keeps_xys st st'.
Proof.
  intros cfg x d tr tw st Hx Hd. acc_open Hx. acc_open Hd.
  eexists. split; [run_tac|]. post_tac. split; [apply mget_mset_same|frame_tac].
Qed.

(** [dst = x op y] for the five binary operations: load, operate, store; [x], [y] cells or
    constants ([-x] is [0 - x], [~x] is [x ^ 255]) *)
Definition is_bin8 (op : mnem) : bool :=
  match op with ADC | SBC | AND | ORA | EOR => true | _ => false end.
Definition bin8_pre (op : mnem) : code :=
  match op with ADC => [ins CLC ""] | SBC => [ins SEC ""] | _ => [] end.
Definition bin8_val (op : mnem) (a b : Z) : Z :=
  match op with
  | ADC => (a + b) mod 256 | SBC => (a - b) mod 256
  | AND => Z.land a b | ORA => Z.lor a b | _ => Z.lxor a b
  end.

Theorem bin8_gen : forall op, is_bin8 op = true ->
  forall cfg x y d tr tx tw st,
  reads cfg st tr x -> reads cfg st tx y -> writes cfg st tw d ->
  exists st', runs_to cfg (bin8 op (bin8_pre op) tw tr tx) st st' /\
    mget (mem st') d = bin8_val op (srcv x (mem st)) (srcv y (mem st)) /\
    only_changes [d] st st' /\ keeps_xys st st'.
Proof.
  intros op Hop cfg x y d tr tx tw st Hx Hy Hd. acc_open Hx. acc_open Hy. acc_open Hd.
  destruct op; try discriminate Hop; (eexists; split; [run_tac|]); post_tac;
    (split; [apply mget_mset_same|frame_tac]).
Qed.

(** read-modify-write in place *)
Theorem rmw_gen : forall cfg m a t st, is_rmw_m m = true -> rmws cfg st t a ->
  exists st', runs_to cfg [ins m t] st st' /\
    mget (mem st') a = rmw_val m (mget (mem st) a) (fC st) /\
    only_changes [a] st st' /\ keeps_xys st st'.
Proof.
  intros cfg m a t st Hm Ha. acc_open Ha.
  destruct m; try discriminate Hm; (eexists; split; [run_tac|]); post_tac;
    (split; [apply mget_mset_same|frame_tac]).
Qed.

Corollary inc8_correct : forall cfg v pv st,
  ports cfg = [] -> var_name v -> layout cfg v = Some pv -> 0 <= pv < 65536 ->
  exists st', runs_to cfg (template (SInc8 v)) st st' /\
    mget (mem st') pv = (mget (mem st) pv + 1) mod 256 /\
    only_changes [pv] st st' /\ keeps_xys st st'.
Proof. intros. apply (rmw_gen cfg INC); [reflexivity|apply cell_m, cell_var; assumption]. Qed.
Print Assumptions inc8_correct.

Theorem sar8_1_correct : forall cfg dst x pd px st,
  ports cfg = [] -> var_name dst -> var_name x ->
  layout cfg dst = Some pd -> layout cfg x = Some px ->
  0 <= pd < 65536 -> 0 <= px < 65536 -> bytes_ok st ->
  exists st', runs_to cfg (template (SSar8_1 dst x)) st st' /\
    mget (mem st') pd = mget (mem st) px / 2 + (if 128 <=? mget (mem st) px then 128 else 0) /\
    only_changes [pd] st st' /\ keeps_xys st st'.
Proof.
  intros cfg dst x pd px st Hp Vd Vx Ld Lx Rd Rx (HA & HX & HY & HS & HM).
  eexists. split; [run_tac|]. post_tac.
  split; [mem_simp; change (byte 128) with 128; arith_tac|frame_tac].
Qed.
Print Assumptions sar8_1_correct.

Theorem loadx_correct : forall cfg v pv st,
  ports cfg = [] -> var_name v -> layout cfg v = Some pv -> 0 <= pv < 65536 ->
  exists st', runs_to cfg (template (SLoadX v)) st st' /\
    rX st' = mget (mem st) pv /\
    only_changes [] st st' /\ rY st' = rY st /\ rS st' = rS st.
Proof.
  intros cfg v pv st Hp Vv Lv Rv.
  eexists. split; [run_tac|]. post_tac.
  split; [reflexivity|frame_tac].
Qed.
Print Assumptions loadx_correct.

Theorem loady_correct : forall cfg v pv st,
  ports cfg = [] -> var_name v -> layout cfg v = Some pv -> 0 <= pv < 65536 ->
  exists st', runs_to cfg (template (SLoadY v)) st st' /\
    rY st' = mget (mem st) pv /\
    only_changes [] st st' /\ rX st' = rX st /\ rS st' = rS st.
Proof.
  intros cfg v pv st Hp Vv Lv Rv.
  eexists. split; [run_tac|]. post_tac.
  split; [reflexivity|frame_tac].
Qed.
Print Assumptions loady_correct.

Theorem store_reg_correct : forall m, is_st m = true ->
  forall cfg v pv st,
  ports cfg = [] -> var_name v -> layout cfg v = Some pv -> 0 <= pv < 65536 ->
  exists st', runs_to cfg [ins m v] st st' /\
    mget (mem st') pv = st_reg m st /\
    only_changes [pv] st st' /\ keeps_xys st st'.
Proof.
  intros m Hm cfg v pv st Hp Vv Lv Rv.
  destruct m; try discriminate Hm; (eexists; split; [run_tac|]); post_tac;
    (split; [mem_simp; reflexivity|frame_tac]).
Qed.

Lemma slines_repeat : forall m n, parse_operand m "" = Some ONone ->
  slines_of (repeat (ins m "") n) = Some (repeat (SIns m ONone false "") n).
Proof.
  intros m n Hm. induction n as [|n IH]; [reflexivity|].
  cbn [repeat]. apply slines_ins; assumption.
Qed.

Lemma targets_repeat_acc : forall m n r,
  targets (repeat (SIns m ONone false "") n ++ r) = targets r.
Proof. intros m n r. induction n as [|n IH]; [reflexivity|]. cbn [repeat app targets]. exact IH. Qed.

Lemma lbls_once_repeat_acc : forall m n r, lbls_once r -> lbls_once (repeat (SIns m ONone false "") n ++ r).
Proof. intros m n r H. induction n as [|n IH]; [exact H|]. cbn [repeat app lbls_once]. exact IH. Qed.

Fixpoint iter_st (n : nat) (f : mstate -> mstate) (s : mstate) : mstate :=
  match n with O => s | S n' => iter_st n' f (f s) end.

Lemma xf_repeat_acc : forall cfg m, is_shift m = true -> forall n f r s,
  exec_fwd cfg (n + f) (repeat (SIns m ONone false "") n ++ r) s
  = exec_fwd cfg f r (iter_st n (rmw_acc_sem m) s).
Proof.
  intros cfg m Hm. induction n as [|n IH]; intros f r s; [reflexivity|].
  cbn [repeat app Nat.add iter_st].
  rewrite (xf_next cfg _ _ _ _ _ _ _ _ _ (exec_rmw_acc cfg m s Hm)). apply IH.
Qed.

Lemma iter_acc_frame : forall m n s,
  mem (iter_st n (rmw_acc_sem m) s) = mem s /\ rX (iter_st n (rmw_acc_sem m) s) = rX s /\
  rY (iter_st n (rmw_acc_sem m) s) = rY s /\ rS (iter_st n (rmw_acc_sem m) s) = rS s.
Proof.
  intros m n. induction n as [|n IH]; intros s; [repeat split; reflexivity|].
  cbn [iter_st]. destruct (IH (rmw_acc_sem m s)) as (E1 & E2 & E3 & E4).
  rewrite E1, E2, E3, E4. repeat split; reflexivity.
Qed.

Lemma iter_asl_a : forall n s, 0 <= rA s < 256 ->
  rA (iter_st n (rmw_acc_sem ASL) s) = (rA s * 2 ^ Z.of_nat n) mod 256.
Proof.
  induction n as [|n IH]; intros s Hs.
  - cbn [iter_st]. change (2 ^ Z.of_nat 0) with 1. rewrite Z.mul_1_r. symmetry. exact (byte_id _ Hs).
  - cbn [iter_st]. rewrite IH.
    + unfold rmw_acc_sem. cbn [rA set_nz set_c set_a rmw_val]. unfold byte.
      rewrite Z.mul_mod_idemp_l by lia.
      rewrite Nat2Z.inj_succ. rewrite Z.pow_succ_r by lia. f_equal. ring.
    + unfold rmw_acc_sem. cbn [rA set_nz set_c set_a rmw_val]. apply byte_range.
Qed.

Lemma iter_lsr_a : forall n s, 0 <= rA s < 256 ->
  rA (iter_st n (rmw_acc_sem LSR) s) = rA s / 2 ^ Z.of_nat n.
Proof.
  induction n as [|n IH]; intros s Hs.
  - cbn [iter_st]. change (2 ^ Z.of_nat 0) with 1. rewrite Z.div_1_r. reflexivity.
  - cbn [iter_st]. rewrite IH.
    + unfold rmw_acc_sem. cbn [rA set_nz set_c set_a rmw_val].
      rewrite Nat2Z.inj_succ. rewrite Z.pow_succ_r by lia.
      rewrite Z.div_div by lia. reflexivity.
    + unfold rmw_acc_sem. cbn [rA set_nz set_c set_a rmw_val]. Z.div_mod_to_equations. lia.
Qed.

(** [dst = x << n], [dst = x >> n]: [f] is what [n] shifts make of an accumulator satisfying [Q] *)
Theorem shift_gen : forall m n (Q : Z -> Prop) (f : Z -> Z), is_shift m = true ->
  (forall s, Q (rA s) -> rA (iter_st n (rmw_acc_sem m) s) = f (rA s)) ->
  forall cfg x d tr tw st,
  reads cfg st tr x -> writes cfg st tw d -> Q (srcv x (mem st)) ->
  exists st', runs_to cfg ([ins LDA tr] ++ repeat (ins m "") n ++ [ins STA tw]) st st' /\
    mget (mem st') d = f (srcv x (mem st)) /\
    only_changes [d] st st' /\ keeps_xys st st'.
Proof.
  intros m n Q f Hm Hf cfg x d tr tw st Hx Hd HQ. acc_open Hx. acc_open Hd.
  eexists. split.
  { eapply runs_to_intro with (n := S (n + 2)).
    - eapply slines_app; [slines_tac|].
      eapply slines_app; [apply slines_repeat; reflexivity|slines_tac].
    - cbn [app lbls_once]. apply lbls_once_repeat_acc. exact I.
    - cbn [app]. xstep. rewrite xf_repeat_acc by exact Hm.
      match goal with |- context [iter_st n ?g ?s] =>
        destruct (iter_acc_frame m n s) as (_ & Ex & Ey & _) end.
      erewrite xf_next by (apply E0; [rewrite Ex|rewrite Ey]; reflexivity). apply xf_nil. }
  post_tac.
  match goal with |- context [iter_st n ?g ?s] =>
    destruct (iter_acc_frame m n s) as (Em & Ex & Ey & Es); pose proof (Hf s) as Ea end.
  cbn [rA set_nz set_a] in Ea. rewrite Em, Ex, Ey, Es. state_simp.
  split; [rewrite mget_mset_same; apply Ea; exact HQ|frame_tac].
Qed.

(** the two instances of the listing, in the form of the task: [x << 2] is [(x * 4) mod 256],
    [x >> 1] is [x / 2] *)
Corollary shl8_2_value : forall v, (v * 2 ^ Z.of_nat 2) mod 256 = (v * 4) mod 256.
Proof. intros v. reflexivity. Qed.
Corollary shr8_1_value : forall v, v / 2 ^ Z.of_nat 1 = v / 2.
Proof. intros v. reflexivity. Qed.

(** ** two bytes, the low one first: what is read for the high byte must not be the low cell just
    written *)
Theorem copy2_gen : forall cfg x1 d1 x2 d2 t1 w1 t2 w2 st,
  reads cfg st t1 x1 -> writes cfg st w1 d1 -> reads cfg st t2 x2 -> writes cfg st w2 d2 ->
  sfree x2 d1 -> d1 <> d2 ->
  exists st', runs_to cfg [ins LDA t1; ins STA w1; ins LDA t2; ins STA w2] st st' /\
    mget (mem st') d1 = srcv x1 (mem st) /\ mget (mem st') d2 = srcv x2 (mem st) /\
    mget (mem st') d1 + 256 * mget (mem st') d2 = srcv x1 (mem st) + 256 * srcv x2 (mem st) /\
    only_changes [d1; d2] st st' /\ keeps_xys st st'.
Proof.
  intros cfg x1 d1 x2 d2 t1 w1 t2 w2 st H1 W1 H2 W2 F2 Hne.
  acc_open H1. acc_open W1. acc_open H2. acc_open W2.
  eexists. split; [run_tac|]. post_tac. rewrite srcv_mset by assumption. mem_simp.
  split; [reflexivity|]. split; [reflexivity|]. split; [reflexivity|frame_tac].
Qed.

Definition arith16_val (op : mnem) (a b : Z) : Z :=
  match op with ADC => (a + b) mod 65536 | _ => (a - b) mod 65536 end.

Lemma add16_bytes : forall a b c d,
  0 <= a < 256 -> 0 <= b < 256 -> 0 <= c < 256 -> 0 <= d < 256 ->
  byte (a + c) + 256 * byte (b + d + b2z (256 <=? a + c)) = (a + 256 * b + (c + 256 * d)) mod 65536.
Proof. intros a b c d Ha Hb Hc Hd. arith_tac. Qed.

Lemma sub16_bytes : forall a b c d,
  0 <= a < 256 -> 0 <= b < 256 -> 0 <= c < 256 -> 0 <= d < 256 ->
  byte (a - c) + 256 * byte (b - d - (1 - b2z (0 <=? a - c))) = (a + 256 * b - (c + 256 * d)) mod 65536.
Proof. intros a b c d Ha Hb Hc Hd. arith_tac. Qed.

Lemma split16 : forall k, 0 <= k < 65536 ->
  0 <= k mod 256 < 256 /\ 0 <= k / 256 < 256 /\ k = k mod 256 + 256 * (k / 256).
Proof. intros k Hk. Z.div_mod_to_equations. lia. Qed.

(** [dst = x + y], [dst = x - y] on 16 bits, each of the four bytes a cell or a constant: the carry
    goes through C from the low to the high byte *)
Theorem arith16_gen : forall op, op = ADC \/ op = SBC ->
  forall cfg x1 y1 d1 x2 y2 d2 tx1 ty1 tw1 tx2 ty2 tw2 st,
  reads cfg st tx1 x1 -> reads cfg st ty1 y1 -> writes cfg st tw1 d1 ->
  reads cfg st tx2 x2 -> reads cfg st ty2 y2 -> writes cfg st tw2 d2 ->
  sfree x2 d1 -> sfree y2 d1 -> d1 <> d2 -> bytes_ok st ->
  exists st', runs_to cfg (bin8 op (bin8_pre op) tw1 tx1 ty1 ++ bin8 op [] tw2 tx2 ty2) st st' /\
    mget (mem st') d1 + 256 * mget (mem st') d2
    = arith16_val op (srcv x1 (mem st) + 256 * srcv x2 (mem st))
                     (srcv y1 (mem st) + 256 * srcv y2 (mem st)) /\
    only_changes [d1; d2] st st' /\ keeps_xys st st'.
Proof.
  intros op Hop cfg x1 y1 d1 x2 y2 d2 tx1 ty1 tw1 tx2 ty2 tw2 st X1 Y1 W1 X2 Y2 W2 Fx Fy Hne
    (_ & _ & _ & _ & HM).
  acc_open X1. acc_open Y1. acc_open W1. acc_open X2. acc_open Y2. acc_open W2.
  destruct Hop as [-> | ->]; cbn [arith16_val];
    (eexists; split; [cbn [bin8_pre]; run_tac|]); post_tac; rewrite !srcv_mset by assumption; mem_simp;
    (split; [|frame_tac]); [apply add16_bytes|apply sub16_bytes]; apply srcv_range; assumption.
Qed.

(** the right operand a 16-bit constant *)
Corollary arith16c_gen : forall op, op = ADC \/ op = SBC ->
  forall cfg x1 d1 x2 d2 k tx1 tw1 tx2 tw2 st,
  reads cfg st tx1 x1 -> writes cfg st tw1 d1 -> reads cfg st tx2 x2 -> writes cfg st tw2 d2 ->
  sfree x2 d1 -> d1 <> d2 -> 0 <= k < 65536 -> bytes_ok st ->
  exists st', runs_to cfg (bin8 op (bin8_pre op) tw1 tx1 (imm (k mod 256)) ++ bin8 op [] tw2 tx2 (imm (k / 256))) st st' /\
    mget (mem st') d1 + 256 * mget (mem st') d2
    = arith16_val op (srcv x1 (mem st) + 256 * srcv x2 (mem st)) k /\
    only_changes [d1; d2] st st' /\ keeps_xys st st'.
Proof.
  intros op Hop cfg x1 d1 x2 d2 k tx1 tw1 tx2 tw2 st X1 W1 X2 W2 Fx Hne Rk Hb.
  destruct (split16 k Rk) as (Hl & Hh & Ek).
  replace (arith16_val op (srcv x1 (mem st) + 256 * srcv x2 (mem st)) k)
    with (arith16_val op (srcv x1 (mem st) + 256 * srcv x2 (mem st)) (k mod 256 + 256 * (k / 256)))
    by (rewrite <- Ek; reflexivity).
  apply (arith16_gen op Hop cfg x1 (Lit (k mod 256)) d1 x2 (Lit (k / 256)) d2);
    try assumption; first [apply imm_r; assumption|exact I].
Qed.

(** bitwise operations on 16-bit values are bytewise *)
Lemma bitop_word : forall (op : Z -> Z -> Z) (f : bool -> bool -> bool),
  (forall a b n, Z.testbit (op a b) n = f (Z.testbit a n) (Z.testbit b n)) ->
  f false false = false ->
  forall a b c d, 0 <= a < 256 -> 0 <= c < 256 -> 0 <= b -> 0 <= d ->
  op (a + 256 * b) (c + 256 * d) = op a c + 256 * op b d.
Proof.
  intros op f Hop Hf a b c d Ha Hc Hb Hd.
  pose proof (bitop_byte op f Hop Hf a c Ha Hc) as Hr.
  assert (Hlow : forall lo hh, 0 <= lo < 256 -> forall n, 0 <= n ->
            Z.testbit (lo + 256 * hh) n = if n <? 8 then Z.testbit lo n else Z.testbit hh (n - 8)).
  { intros lo hh Hlo n Hn. destruct (Z.ltb_spec n 8).
    - rewrite <- (Z.mod_pow2_bits_low (lo + 256 * hh) 8 n) by lia.
      change (2 ^ 8) with 256. f_equal. Z.div_mod_to_equations. lia.
    - transitivity (Z.testbit ((lo + 256 * hh) / 2 ^ 8) (n - 8)).
      + rewrite Z.div_pow2_bits by lia. f_equal. lia.
      + change (2 ^ 8) with 256. f_equal. Z.div_mod_to_equations. lia. }
  apply Z.bits_inj'. intros n Hn.
  rewrite Hop. rewrite !Hlow by assumption.
  destruct (n <? 8); rewrite Hop; reflexivity.
Qed.

Lemma land_word : forall a b c d, 0 <= a < 256 -> 0 <= c < 256 -> 0 <= b -> 0 <= d ->
  Z.land (a + 256 * b) (c + 256 * d) = Z.land a c + 256 * Z.land b d.
Proof. exact (bitop_word Z.land andb Z.land_spec eq_refl). Qed.
Lemma lor_word : forall a b c d, 0 <= a < 256 -> 0 <= c < 256 -> 0 <= b -> 0 <= d ->
  Z.lor (a + 256 * b) (c + 256 * d) = Z.lor a c + 256 * Z.lor b d.
Proof. exact (bitop_word Z.lor orb Z.lor_spec eq_refl). Qed.

Definition bitop16_val (op : mnem) : Z -> Z -> Z := match op with AND => Z.land | _ => Z.lor end.


(** [dst = x & y], [dst = x | y] on 16 bits: byte by byte *)
Theorem bitop16_gen : forall op, op = AND \/ op = ORA ->
  forall cfg x1 y1 d1 x2 y2 d2 tx1 ty1 tw1 tx2 ty2 tw2 st,
  reads cfg st tx1 x1 -> reads cfg st ty1 y1 -> writes cfg st tw1 d1 ->
  reads cfg st tx2 x2 -> reads cfg st ty2 y2 -> writes cfg st tw2 d2 ->
  sfree x2 d1 -> sfree y2 d1 -> d1 <> d2 -> bytes_ok st ->
  exists st', runs_to cfg (bin8 op [] tw1 tx1 ty1 ++ bin8 op [] tw2 tx2 ty2) st st' /\
    mget (mem st') d1 = bitop16_val op (srcv x1 (mem st)) (srcv y1 (mem st)) /\
    mget (mem st') d2 = bitop16_val op (srcv x2 (mem st)) (srcv y2 (mem st)) /\
    mget (mem st') d1 + 256 * mget (mem st') d2
    = bitop16_val op (srcv x1 (mem st) + 256 * srcv x2 (mem st))
                     (srcv y1 (mem st) + 256 * srcv y2 (mem st)) /\
    only_changes [d1; d2] st st' /\ keeps_xys st st'.
Proof.
  intros op Hop cfg x1 y1 d1 x2 y2 d2 tx1 ty1 tw1 tx2 ty2 tw2 st X1 Y1 W1 X2 Y2 W2 Fx Fy Hne
    (_ & _ & _ & _ & HM).
  acc_open X1. acc_open Y1. acc_open W1. acc_open X2. acc_open Y2. acc_open W2.
  destruct Hop as [-> | ->]; (eexists; split; [run_tac|]); post_tac; rewrite !srcv_mset by assumption; mem_simp;
    (split; [reflexivity|]); (split; [reflexivity|]); (split; [|frame_tac]); symmetry;
    [apply land_word|apply lor_word];
    first [apply srcv_range; assumption | eapply proj1, srcv_range; assumption].
Qed.

Theorem shl16_1_correct : forall cfg v pv st,
  ports cfg = [] -> var_name v -> layout cfg v = Some pv ->
  0 <= pv -> pv + 1 < 65536 -> bytes_ok st ->
  exists st', runs_to cfg (template (SShl16_1 v)) st st' /\
    word (mem st') pv = (2 * word (mem st) pv) mod 65536 /\
    only_changes [pv; pv + 1] st st' /\ keeps_xys st st'.
Proof.
  intros cfg v pv st Hp Vv Lv Rv Rv' (HA & HX & HY & HS & HM).
  eexists. split; [run_tac|]. post_tac. unfold word. state_simp. mem_simp.
  split; [mem_ranges HM; arith_tac|frame_tac].
Qed.
Print Assumptions shl16_1_correct.

Theorem shr16_1_correct : forall cfg v pv st,
  ports cfg = [] -> var_name v -> layout cfg v = Some pv ->
  0 <= pv -> pv + 1 < 65536 -> bytes_ok st ->
  exists st', runs_to cfg (template (SShr16_1 v)) st st' /\
    word (mem st') pv = word (mem st) pv / 2 /\
    only_changes [pv; pv + 1] st st' /\ keeps_xys st st'.
Proof.
  intros cfg v pv st Hp Vv Lv Rv Rv' (HA & HX & HY & HS & HM).
  eexists. split; [run_tac|]. post_tac. unfold word. state_simp. mem_simp.
  split; [mem_ranges HM; arith_tac|frame_tac].
Qed.
Print Assumptions shr16_1_correct.

Theorem sar16_1_correct : forall cfg v pv st,
  ports cfg = [] -> var_name v -> layout cfg v = Some pv ->
  0 <= pv -> pv + 1 < 65536 -> bytes_ok st ->
  exists st', runs_to cfg (template (SSar16_1 v)) st st' /\
    word (mem st') pv
    = word (mem st) pv / 2 + (if 128 <=? mget (mem st) (pv + 1) then 32768 else 0) /\
    only_changes [pv; pv + 1] st st' /\ keeps_xys st st'.
Proof.
  intros cfg v pv st Hp Vv Lv Rv Rv' (HA & HX & HY & HS & HM).
  eexists. split; [run_tac|]. post_tac. unfold word. state_simp. mem_simp.
  split; [mem_ranges HM; arith_tac|frame_tac].
Qed.
Print Assumptions sar16_1_correct.


(** [w++] on the two cells [a] (low), [b] (high): the high cell is incremented when the low one
    wraps *)
Theorem inc2_gen : forall cfg a b tl th lbl st,
  rmws cfg st tl a -> rmws cfg st th b -> a <> b -> lbl <> ""%string -> bytes_ok st ->
  exists st', runs_to cfg [ins INC tl; ins BNE lbl; ins INC th; Lbl lbl] st st' /\
    mget (mem st') a + 256 * mget (mem st') b
    = (mget (mem st) a + 256 * mget (mem st) b + 1) mod 65536 /\
    only_changes [a; b] st st' /\ keeps_xys st st'.
Proof.
  intros cfg a b tl th lbl st Ha Hb Hne Hl (_ & _ & _ & _ & HM). acc_open Ha. acc_open Hb.
  destruct (byte (mget (mem st) a + 1) =? 0) eqn:Ez;
    (eexists; split; [run_branch_tac Ez|]); post_tac; mem_simp; (split; [|frame_tac]);
    [apply Z.eqb_eq in Ez|apply Z.eqb_neq in Ez]; mem_ranges HM; arith_tac.
Qed.

(** [w--]: the high cell is decremented first, when the low one is 0 *)
Theorem dec2_gen : forall cfg a b tl th lbl st,
  reads cfg st tl (Cell a) -> rmws cfg st tl a -> rmws cfg st th b -> a <> b -> lbl <> ""%string ->
  bytes_ok st ->
  exists st', runs_to cfg [ins LDA tl; ins BNE lbl; ins DEC th; Lbl lbl; ins DEC tl] st st' /\
    mget (mem st') a + 256 * mget (mem st') b
    = (mget (mem st) a + 256 * mget (mem st) b - 1) mod 65536 /\
    only_changes [a; b] st st' /\ keeps_xys st st'.
Proof.
  intros cfg a b tl th lbl st Ra Ha Hb Hne Hl (_ & _ & _ & _ & HM).
  acc_open Ra. acc_open Ha. acc_open Hb.
  (* [LDA] and [DEC] of the low cell: one text, one operand *)
  pose proof (P LDA eq_refl) as Eo. rewrite (P0 LDA eq_refl) in Eo. injection Eo as <-.
  destruct (mget (mem st) a =? 0) eqn:Ez;
    (eexists; split; [run_branch_tac Ez|]); post_tac; mem_simp; (split; [|frame_tac]);
    [apply Z.eqb_eq in Ez|apply Z.eqb_neq in Ez]; mem_ranges HM; arith_tac.
Qed.

Lemma mget_mset_copy : forall m a b, 0 <= a -> 0 <= b ->
  mget (mset m a (mget m b)) b = mget m b.
Proof.
  intros m a b Ha Hb. destruct (Z.eq_dec a b) as [->|Hne];
    [apply mget_mset_same|apply mget_mset_other; assumption].
Qed.

Theorem sext_correct : forall cfg dst x lbl pd px st,
  ports cfg = [] -> var_name dst -> var_name x -> lbl <> ""%string ->
  layout cfg dst = Some pd -> layout cfg x = Some px ->
  0 <= pd -> pd + 1 < 65536 -> 0 <= px < 65536 -> bytes_ok st ->
  exists st', runs_to cfg (template (SSext dst x lbl)) st st' /\
    mget (mem st') pd = mget (mem st) px /\
    mget (mem st') (pd + 1) = (if 128 <=? mget (mem st) px then 255 else 0) /\
    word (mem st') pd
    = (if 128 <=? mget (mem st) px then mget (mem st) px - 256 else mget (mem st) px) mod 65536 /\
    only_changes [pd; pd + 1] st st' /\ keeps_xys st st'.
Proof.
  intros cfg dst x lbl pd px st Hp Vd Vx Hl Ld Lx Rd Rd' Rx (HA & HX & HY & HS & HM).
  pose proof (lor_127 (mget (mem st) px) (HM px)) as Hor.
  (* [BMI] tests the sign of [x | 127], read after [dst], which may be [x], was written *)
  destruct (128 <=? mget (mem st) px) eqn:E;
    (eexists; split;
     [run_with ltac:(rewrite xf_branch by reflexivity; cbn [branch_taken]; state_simp;
                     rewrite mget_mset_copy by lia; change (byte 127) with 127; rewrite Hor;
                     change (bit7 255) with true; change (bit7 127) with false;
                     cbn [drop_to_slbl]; rewrite ?String.eqb_refl)|]);
    post_tac; unfold word; state_simp;
    rewrite ?mget_mset_copy by lia; change (byte 127) with 127; rewrite ?Hor; change (byte 0) with 0;
    mem_simp; (split; [reflexivity|]); (split; [reflexivity|]); (split; [|frame_tac]);
    [apply Z.leb_le in E|apply Z.leb_gt in E]; mem_ranges HM; arith_tac.
Qed.
Print Assumptions sext_correct.

Fixpoint all_ident (s : string) : bool :=
  match s with
  | EmptyString => true
  | String c r => is_ident_char c && all_ident r
  end.

Lemma ident_char_neq : forall c d, is_ident_char c = true -> is_ident_char d = false ->
  Ascii.eqb c d = false.
Proof.
  intros c d Hc Hd. destruct (Ascii.eqb_spec c d) as [E|E]; [|reflexivity].
  subst d. congruence.
Qed.

Lemma all_ident_app : forall a b, all_ident (a ++ b) = all_ident a && all_ident b.
Proof.
  induction a as [|c a IH]; intros b; [reflexivity|].
  cbn [append all_ident]. rewrite IH. rewrite andb_assoc. reflexivity.
Qed.

Lemma string_of_Z_ident : forall k, 0 <= k -> all_ident (string_of_Z k) = true.
Proof.
  intros k Hk. rewrite (string_of_Z_nonneg k Hk). unfold string_of_N.
  apply dec_digits_ind; [|reflexivity].
  intros d s Hd Hs. cbn [all_ident]. unfold is_ident_char. rewrite (proj1 (digit_char d Hd)). exact Hs.
Qed.

(** a text without a comma does not end in ",X" or ",Y"; the first character may be any other one,
    so that "+k" is such a text (decimal digits are identifier characters) *)
Lemma ident_no_index : forall c s r, Ascii.eqb c "," = false -> all_ident s = true ->
  ends_with (String "," r) (String c s) = false.
Proof.
  intros c s r Hc Hs. destruct (ends_with (String "," r) (String c s)) eqn:E; [|reflexivity].
  apply ends_with_inv in E. destruct E as [[|a p] E]; injection E as -> E.
  - discriminate Hc.
  - subst s. rewrite all_ident_app in Hs. apply andb_true_iff in Hs. discriminate (proj2 Hs).
Qed.

Lemma ident_no_plus : forall s, all_ident s = true -> split_at_char "+" s = None.
Proof.
  induction s as [|c s IH]; intros H; [reflexivity|].
  cbn [all_ident] in H. apply andb_true_iff in H. destruct H as [Hc Hs].
  cbn [split_at_char].
  destruct (Ascii.eqb_spec c "+"%char) as [E|E]; [subst c; discriminate Hc|].
  rewrite (IH Hs). reflexivity.
Qed.

Lemma ident_split_plus : forall s t, all_ident s = true ->
  split_at_char "+" (s ++ String "+" t) = Some (s, t).
Proof.
  induction s as [|c s IH]; intros t H; [reflexivity|].
  cbn [all_ident] in H. apply andb_true_iff in H. destruct H as [Hc Hs].
  cbn [append split_at_char].
  destruct (Ascii.eqb_spec c "+"%char) as [E|E]; [subst c; discriminate Hc|].
  rewrite (IH t Hs). reflexivity.
Qed.

(** the left side is the match on the offset in [parse_sym_off]: after a digit the "-" branch is
    not taken *)
Lemma sym_off_digits : forall (y : string) r, starts_digit r = true ->
  match r with
  | String "-"%char k' =>
      match parse_dec k' with Some n => Some (y, (- Z.of_N n)%Z) | None => None end
  | _ => match parse_dec r with Some n => Some (y, Z.of_N n) | None => None end
  end = match parse_dec r with Some n => Some (y, Z.of_N n) | None => None end.
Proof.
  intros y r H. destruct r as [|c r']; [discriminate H|].
  cbn [starts_digit] in H.
  destruct c as [b0 b1 b2 b3 b4 b5 b6 b7].
  (* the match tests the bits of "-" one after the other *)
  destruct b0; [|reflexivity]. destruct b1; [reflexivity|]. destruct b2; [|reflexivity].
  destruct b3; [|reflexivity]. destruct b4; [reflexivity|]. destruct b5; [|reflexivity].
  destruct b6; [reflexivity|]. destruct b7; [reflexivity|]. discriminate H.
Qed.

Definition starts_ident (s : string) : bool :=
  match s with String c _ => is_ident_char c | EmptyString => false end.

Lemma parse_operand_ident : forall m s, takes_label m = false -> starts_ident s = true ->
  parse_operand m s = parse_mem s.
Proof.
  intros m [|c r] Hm Hc; [discriminate Hc|]. rewrite parse_operand_eq, Hm. cbn [String.eqb].
  rewrite (ident_char_neq c "#" Hc eq_refl), (ident_char_neq c "(" Hc eq_refl). reflexivity.
Qed.

(** what the parser needs to know of a text "sym" / "sym+k": with it the texts [b], [b,X], [b,Y]
    denote the cell [v+k], plain or indexed *)
Definition base_text (b v : string) (k : Z) : Prop :=
  starts_ident b = true /\ (forall x, ends_with (String "," (String x "")) b = false) /\
  parse_sym_off b = Some (v, k).

Lemma parse_base : forall m b v k, takes_label m = false -> base_text b v k ->
  parse_operand m b = Some (OMem v k IxNone).
Proof.
  intros m b v k Hm (Hc & Hx & Hp). rewrite (parse_operand_ident m b Hm Hc).
  unfold parse_mem, strip_suffix. rewrite !Hx, Hp. reflexivity.
Qed.

(** [GenSplit.sym v k] is the text "v" for [k = 0], else "v+k"; [hi v] is [GenSplit.sym v 1] *)
Lemma sym_base_text : forall v k, v <> ""%string -> all_ident v = true -> 0 <= k ->
  base_text (GenSplit.sym v k) v k.
Proof.
  intros [|c r] k Hne Hid Hk; [contradiction|].
  pose proof Hid as Hid'. cbn [all_ident] in Hid'. apply andb_true_iff in Hid'.
  destruct Hid' as [Hc Hr].
  unfold GenSplit.sym. change ("+" ++ string_of_Z k)%string with (String "+" (string_of_Z k)).
  destruct (Z.eqb_spec k 0) as [->|E]; (split; [exact Hc|]); split.
  - intros x. apply ident_no_index; [exact (ident_char_neq c "," Hc eq_refl)|exact Hr].
  - unfold parse_sym_off. rewrite (ident_no_plus _ Hid). reflexivity.
  - (* only the last two characters matter, and they are of "+k" *)
    intros x. unfold ends_with. rewrite rev_string_app, starts_with_app_long.
    + exact (ident_no_index "+" _ _ eq_refl (string_of_Z_ident k Hk)).
    + rewrite !rev_string_length. pose proof (proj1 (string_of_Z_dec k Hk)) as Hs.
      destruct (string_of_Z k); [discriminate Hs|cbn [append String.length]; lia].
  - destruct (string_of_Z_dec k Hk) as [Hs Hp].
    unfold parse_sym_off. rewrite (ident_split_plus _ _ Hid). cbn [String.eqb].
    rewrite (sym_off_digits _ _ Hs), Hp, Z2N.id by exact Hk. reflexivity.
Qed.

Theorem ident_var_name : forall v, v <> ""%string -> all_ident v = true -> var_name v.
Proof.
  intros v Hne Hid m Hm.
  split; [exact (parse_base m _ v 0 Hm (sym_base_text v 0 Hne Hid (Z.le_refl 0)))
         |exact (parse_base m _ v 1 Hm (sym_base_text v 1 Hne Hid Z.le_0_1))].
Qed.
Print Assumptions ident_var_name.

Lemma var_names_listing :
  var_name "a" /\ var_name "b" /\ var_name "c" /\ var_name "sa" /\ var_name "sb" /\
  var_name "s" /\ var_name "t" /\ var_name "u" /\ var_name "ss" /\ var_name "st".
Proof.
  repeat match goal with |- _ /\ _ => split end;
    (apply ident_var_name; [discriminate|reflexivity]).
Qed.

(** [Sem.run] keeps the invariant, provided the inline assembly and the external functions do:
    wherever it stops, short of a fault *)
Theorem run_bytes_ok : forall cfg prog inl_sem ext_call,
  (forall t s s', inl_sem t s = Some s' -> bytes_ok s -> bytes_ok s') ->
  (forall f s s', ext_call f s = Some s' -> bytes_ok s -> bytes_ok s') ->
  forall fuel fname c pc stack s tr cy, bytes_ok s ->
  match Sem.run cfg prog inl_sem ext_call fuel fname c pc stack s tr cy with
  | Halt s' _ _ | OutOfFuel s' _ _ => bytes_ok s'
  | Faulted _ _ _ _ => True
  end.
Proof.
  intros cfg prog inl_sem ext_call Hinl Hext.
  induction fuel as [|fuel IH]; intros fname c pc stack s tr cy Hb; [exact Hb|].
  rewrite run_S.
  destruct (nth_error c pc) as [[l|m o p raw|t|]|].
  - exact (IH _ _ _ _ _ _ _ Hb).
  - destruct (exec cfg m o s) as [s1 k fl|why] eqn:Ex; [|exact I].
    pose proof (exec_bytes_ok cfg m o s s1 k fl Ex Hb) as Hb1. cbv zeta.
    destruct fl as [|l|f| |].
    + exact (IH _ _ _ _ _ _ _ Hb1).
    + destruct (find_label l c 0); [exact (IH _ _ _ _ _ _ _ Hb1)|exact I].
    + destruct (find_func f prog).
      * apply IH. apply push_bytes_ok; [apply push_bytes_ok; [exact Hb1|]|]; apply byte_range.
      * destruct (ext_call f s1) as [s2|] eqn:Ee; [|exact I].
        exact (IH _ _ _ _ _ _ _ (Hext f s1 s2 Ee Hb1)).
    + destruct stack as [|[[fn c0] pc0] stk]; [exact Hb1|].
      pose proof (pull_bytes_ok s1 Hb1) as Hp1.
      destruct (pull s1) as [s2 lo]. cbn [fst] in Hp1.
      pose proof (pull_bytes_ok s2 Hp1) as Hp2.
      destruct (pull s2) as [s3 hh]. cbn [fst] in Hp2.
      match goal with |- match (if ?b then _ else _) with _ => _ end => destruct b end;
        [exact (IH _ _ _ _ _ _ _ Hp2)|exact I].
    + exact Hb1.
  - destruct (inl_sem t s) as [s1|] eqn:Ei; [|exact I].
    exact (IH _ _ _ _ _ _ _ (Hinl t s s1 Ei Hb)).
  - exact (IH _ _ _ _ _ _ _ Hb).
  - destruct stack; [exact Hb|exact I].
Qed.
Print Assumptions run_bytes_ok.

(** without inline assembly and external functions *)
Lemma run_halt_bytes_ok : forall cfg prog fuel fname c pc stack s tr cy s' tr' cy',
  Sem.run cfg prog (fun _ _ => None) (fun _ _ => None) fuel fname c pc stack s tr cy
  = Halt s' tr' cy' ->
  bytes_ok s -> bytes_ok s'.
Proof.
  intros cfg prog fuel fname c pc stack s tr cy s' tr' cy' H Hb.
  pose proof (run_bytes_ok cfg prog (fun _ _ => None) (fun _ _ => None)
                ltac:(discriminate) ltac:(discriminate) fuel fname c pc stack s tr cy Hb) as G.
  rewrite H in G. exact G.
Qed.

Theorem runs_to_bytes_ok : forall cfg c st st', runs_to cfg c st st' -> bytes_ok st -> bytes_ok st'.
Proof.
  intros cfg c st st' (sl & _ & Hrun) Hb.
  destruct (Hrun [] (fun _ _ => None) (fun _ _ => None) ""%string (S (length sl)) (Nat.lt_succ_diag_r _))
    as (tr & cy & Hr).
  exact (run_halt_bytes_ok _ _ _ _ _ _ _ _ _ _ _ _ _ Hr Hb).
Qed.
Print Assumptions runs_to_bytes_ok.

(** * The hypothesis [pd <> px] of [shl16_8_correct] is needed

    [SShl16_8 v v] (the template of [dst = x << 8] instantiated with the SAME variable on both
    sides, i.e. what [s = s << 8] would be if the generator used this template for it; the listing
    only shows it for two different variables) zeroes the variable: the low byte is cleared
    before it is read. *)
Theorem shl16_8_same_var : forall cfg v pv st,
  ports cfg = [] -> var_name v -> layout cfg v = Some pv -> 0 <= pv -> pv + 1 < 65536 ->
  exists st', runs_to cfg (template (SShl16_8 v v)) st st' /\ word (mem st') pv = 0.
Proof.
  intros cfg v pv st Hp Vv Lv Rv Rv'.
  eexists. split; [run_tac|]. post_tac. unfold word. state_simp. mem_simp. change (byte 0) with 0. reflexivity.
Qed.
Print Assumptions shl16_8_same_var.

(** * The instances of the listing: the hypotheses of the theorems are satisfiable *)

Definition cfg_listing : config :=
  mkCfg (fun y =>
    if String.eqb y "a" then Some 128 else if String.eqb y "b" then Some 129
    else if String.eqb y "c" then Some 130 else if String.eqb y "sa" then Some 131
    else if String.eqb y "sb" then Some 132 else if String.eqb y "s" then Some 134
    else if String.eqb y "t" then Some 136 else if String.eqb y "u" then Some 138
    else if String.eqb y "ss" then Some 140 else if String.eqb y "st" then Some 142
    else None) [].

Definition st_listing (slo shi : Z) : mstate :=
  mkS 0 1 2 255 false false false false (mset (mset mem_empty 134 slo) 135 shi).

Lemma st_listing_bytes_ok : forall slo shi, 0 <= slo < 256 -> 0 <= shi < 256 ->
  bytes_ok (st_listing slo shi).
Proof.
  intros slo shi Hl Hh. apply bytes_ok_mk; try lia.
  apply mget_mset_bytes; [|exact Hh]. apply mget_mset_bytes; [|exact Hl].
  intros b. rewrite mget_empty. lia.
Qed.

Theorem shl16_8_alias_refuted :
  exists st st', bytes_ok st /\ runs_to cfg_listing (template (SShl16_8 "s" "s")) st st' /\
    word (mem st) 134 = 1 /\ (256 * word (mem st) 134) mod 65536 = 256 /\ word (mem st') 134 = 0.
Proof.
  destruct (shl16_8_same_var cfg_listing "s" 134 (st_listing 1 0)) as (st' & Hr & Hw);
    try reflexivity; try lia; [apply ident_var_name; [discriminate|reflexivity]|].
  exists (st_listing 1 0), st'.
  split; [apply st_listing_bytes_ok; lia|]. split; [exact Hr|].
  split; [vm_compute; reflexivity|]. split; [vm_compute; reflexivity|exact Hw].
Qed.
Print Assumptions shl16_8_alias_refuted.

Corollary listing_inc16 : forall st, bytes_ok st ->
  exists st', runs_to cfg_listing (template (SInc16 "s" ".ifend1")) st st' /\
    word (mem st') 134 = (word (mem st) 134 + 1) mod 65536 /\
    only_changes [134; 134 + 1] st st' /\ keeps_xys st st'.
Proof.
  intros st Hb. pose proof (ident_var_name "s" ltac:(discriminate) eq_refl) as Vs.
  apply (inc2_gen cfg_listing 134 (134 + 1));
    [apply cell_m, cell_var|apply cell_m, cell_varh|..]; try reflexivity; try lia; try exact Hb; try exact Vs.
  discriminate.
Qed.
Print Assumptions listing_inc16.

Corollary listing_add16 : forall st, bytes_ok st ->
  exists st', runs_to cfg_listing (template (SAdd16 "s" "t" "u")) st st' /\
    word (mem st') 134 = (word (mem st) 136 + word (mem st) 138) mod 65536 /\
    only_changes [134; 134 + 1] st st' /\ keeps_xys st st'.
Proof.
  intros st Hb.
  apply (arith16_gen ADC (or_introl eq_refl) cfg_listing
           (Cell 136) (Cell 138) 134 (Cell (136 + 1)) (Cell (138 + 1)) (134 + 1));
    [apply cell_r, cell_var|apply cell_r, cell_var|apply cell_w, cell_var
    |apply cell_r, cell_varh|apply cell_r, cell_varh|apply cell_w, cell_varh|..];
    try reflexivity; try lia; try exact Hb; try discriminate;
    (apply ident_var_name; [discriminate|reflexivity]).
Qed.
Print Assumptions listing_add16.

(** and plain computations with [Sem.run], among them 0x00FF + 1 = 0x0100 (carry into the high
    byte) and 0x0100 - 1 = 0x00FF (borrow); X, Y, S keep their values 1, 2, 255 *)
Definition run_listing (t : schema) (st : mstate) : option (Z * Z * Z * Z * Z) :=
  match slines_of (template t) with
  | Some sl =>
      match Sem.run cfg_listing [] (fun _ _ => None) (fun _ _ => None) 20 "f" sl 0 [] st [] 0%N with
      | Halt s' _ _ => Some (mget (mem s') 134, mget (mem s') 135, rX s', rY s', rS s')
      | _ => None
      end
  | None => None
  end.

Example run_inc16_carry :
  run_listing (SInc16 "s" ".ifend1") (st_listing 255 0) = Some (0, 1, 1, 2, 255).
Proof. vm_compute. reflexivity. Qed.
Example run_inc16_no_carry :
  run_listing (SInc16 "s" ".ifend1") (st_listing 254 7) = Some (255, 7, 1, 2, 255).
Proof. vm_compute. reflexivity. Qed.
Example run_inc16_wrap :
  run_listing (SInc16 "s" ".ifend1") (st_listing 255 255) = Some (0, 0, 1, 2, 255).
Proof. vm_compute. reflexivity. Qed.
Example run_dec16_borrow :
  run_listing (SDec16 "s" ".ifend1") (st_listing 0 1) = Some (255, 0, 1, 2, 255).
Proof. vm_compute. reflexivity. Qed.
Example run_dec16_wrap :
  run_listing (SDec16 "s" ".ifend1") (st_listing 0 0) = Some (255, 255, 1, 2, 255).
Proof. vm_compute. reflexivity. Qed.
Example run_addconst16 :
  run_listing (SAddConst16 "s" 300) (st_listing 212 0) = Some (0, 2, 1, 2, 255).
Proof. vm_compute. reflexivity. Qed.
