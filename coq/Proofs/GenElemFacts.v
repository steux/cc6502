(** ELEMENTS of arrays of 16-bit objects (Model/GenElem.v) on the executable 6502 semantics, for
    ALL byte-valued states, [ports cfg = []].

    Layout hypothesis [arr16_wf cfg base pb n]: the array [base] of [n] 16-bit objects occupies the
    [2n] consecutive cells [pb .. pb+2n-1], all outside the stack page (all in page zero, or all
    from 512 on); element [k] ([0 <= k < n]) is the pair of cells [pb+k] (low), [pb+n+k] (high):
    [elem_val m pb n k] = low + 256 * high.

    Each [elem_*_correct] gives the new 16-bit value of the element mod 65536 and leaves every other
    cell (the other elements: [elem_other]), X, Y, S unchanged.  [elem_inc_old_refuted],
    [elem_add_old_refuted]: the sequences cc6502 emitted BEFORE the repair of the generator (low
    byte only), run by [Sem.run]: 0x00ff + 1 = 0x0000 instead of 0x0100.
    The two cells of an element are cells in the sense of Proofs/GenTemplatesFacts.v ([elem_cells]):
    [e++], [e--], [e += c], [e -= c], [e = c], [dst = e >> 8] are the template shapes proved there,
    [base[X]++] the same idiom on X-indexed cells ([rmws_x]).  The closed forms of the 11 listings:
    Props/C01elem.v. *)
From Coq Require Import String Ascii List Bool Arith NArith ZArith Lia ZifyBool.
From CC Require Import Base.Str Asm.Lines M6502.Isa Asm.Operand M6502.Sem
  Model.OptSem Proofs.OptSemFacts Model.GenTemplates Proofs.ExecFacts Proofs.GenTemplatesFacts
  Model.GenSplit Proofs.GenSplitFacts Proofs.GenCmp16Facts Model.GenLoops Proofs.GenLoopsFacts
  Model.GenElem.
Import ListNotations.
Open Scope string_scope.
Open Scope list_scope.
Open Scope Z_scope.

Definition arr16_wf (cfg : config) (base : string) (pb n : Z) : Prop :=
  split_name base /\ layout cfg base = Some pb /\ 0 < n /\ 0 <= pb /\ pb + 2 * n <= 65536 /\
  (pb + 2 * n <= 256 \/ 512 <= pb).

Definition elem_val (m : memory) (pb n k : Z) : Z := mget m (pb + k) + 256 * mget m (pb + n + k).

Lemma elem_other : forall st st' pb n k j,
  only_changes [pb + k; pb + n + k] st st' -> 0 <= pb -> 0 <= k < n -> 0 <= j < n -> j <> k ->
  elem_val (mem st') pb n j = elem_val (mem st) pb n j.
Proof.
  intros st st' pb n k j H Hpb Hk Hj Hne. unfold elem_val.
  rewrite (H (pb + j)), (H (pb + n + j)); cbn [In]; lia.
Qed.
Print Assumptions elem_other.

(** "v+k,X": the cell [v+k+X], when the index does not leave page zero (zero-page,X wraps) nor
    the address space *)
Lemma rmws_x : forall cfg st v pv k, ports cfg = [] -> split_name v -> layout cfg v = Some pv ->
  0 <= k -> 0 <= pv -> 0 <= rX st ->
  (pv + k + rX st < 256 \/ (256 <= pv + k /\ pv + k + rX st < 65536)) ->
  rmws cfg st (idx (sym v k) RegX) (pv + k + rX st).
Proof.
  intros cfg st v pv k Hp Vv Lv Rk Rv Rx Rr.
  assert (He : exists md cr, forall m s, is_rmw_m m = true -> rX s = rX st ->
            eff_addr cfg m s (OMem v k IxX) = Some (pv + k + rX st, md, cr)).
  { destruct (Z.ltb_spec (pv + k) 256) as [Hz|Hz]; eexists; eexists; intros m s Hm Hx;
      unfold eff_addr; rewrite Lv, Hx; cbn [shape_of].
    - replace (pv + k <? 256) with true by (symmetry; apply Z.ltb_lt; exact Hz).
      replace (resolve m ShMemX true) with (Some ZpX) by (destruct m; try discriminate Hm; reflexivity).
      unfold byte. rewrite Z.mod_small by lia. reflexivity.
    - replace (pv + k <? 256) with false by (symmetry; apply Z.ltb_ge; exact Hz).
      replace (resolve m ShMemX false) with (Some AbsX) by (destruct m; try discriminate Hm; reflexivity).
      rewrite Z.mod_small by lia. reflexivity. }
  destruct He as (md & cr & He). split; [lia|].
  exists (OMem v k IxX), (fun m _ => cyc m md cr). split.
  - intros m Hm. apply (parse_sym_idx m v k RegX); assumption.
  - intros m s Hm Hx _. apply exec_rmw_eff; [exact Hp|exact Hm|apply He; assumption].
Qed.

Lemma elem_cells : forall cfg st base pb n k, ports cfg = [] -> arr16_wf cfg base pb n -> 0 <= k < n ->
  cell cfg st (elem_lo base k) (pb + k) /\ cell cfg st (elem_hi base n k) (pb + (n + k)).
Proof.
  intros cfg st base pb n k Hp (Nb & Lb & Rn & Rb & Rb' & _) Rk. unfold elem_lo, elem_hi.
  split; apply sym_cell; try assumption; lia.
Qed.

Theorem elem_inc_correct : forall cfg base n k lbl pb st,
  ports cfg = [] -> arr16_wf cfg base pb n -> 0 <= k < n -> lbl <> ""%string -> bytes_ok st ->
  exists st', halts_to cfg (elem_inc base n k lbl) st st' /\
    elem_val (mem st') pb n k = (elem_val (mem st) pb n k + 1) mod 65536 /\
    only_changes [pb + k; pb + n + k] st st' /\ keeps_xys st st'.
Proof.
  intros cfg base n k lbl pb st Hp W Rk Hl Hb.
  destruct (elem_cells cfg st base pb n k Hp W Rk) as (Cl & Ch).
  unfold elem_val. rewrite <- !(Z.add_assoc pb n k).
  apply halts_of_runs, inc2_gen; [apply Cl|apply Ch|lia|exact Hl|exact Hb].
Qed.
Print Assumptions elem_inc_correct.

Theorem elem_dec_correct : forall cfg base n k lbl pb st,
  ports cfg = [] -> arr16_wf cfg base pb n -> 0 <= k < n -> lbl <> ""%string -> bytes_ok st ->
  exists st', halts_to cfg (elem_dec base n k lbl) st st' /\
    elem_val (mem st') pb n k = (elem_val (mem st) pb n k - 1) mod 65536 /\
    only_changes [pb + k; pb + n + k] st st' /\ keeps_xys st st'.
Proof.
  intros cfg base n k lbl pb st Hp W Rk Hl Hb.
  destruct (elem_cells cfg st base pb n k Hp W Rk) as (Cl & Ch).
  unfold elem_val. rewrite <- !(Z.add_assoc pb n k).
  apply halts_of_runs, dec2_gen; [apply Cl|apply Cl|apply Ch|lia|exact Hl|exact Hb].
Qed.
Print Assumptions elem_dec_correct.

Theorem elem_add_const_correct : forall cfg base n k c pb st,
  ports cfg = [] -> arr16_wf cfg base pb n -> 0 <= k < n -> 0 <= c < 65536 -> bytes_ok st ->
  exists st', halts_to cfg (elem_add_const base n k c) st st' /\
    elem_val (mem st') pb n k = (elem_val (mem st) pb n k + c) mod 65536 /\
    only_changes [pb + k; pb + n + k] st st' /\ keeps_xys st st'.
Proof.
  intros cfg base n k c pb st Hp W Rk Rc Hb.
  destruct (elem_cells cfg st base pb n k Hp W Rk) as (Cl & Ch).
  unfold elem_val. rewrite <- !(Z.add_assoc pb n k).
  apply halts_of_runs, (arith16c_gen ADC (or_introl eq_refl) cfg (Cell (pb + k)) _ (Cell (pb + (n + k))));
    [apply Cl|apply Cl|apply Ch|apply Ch|cbn; lia|lia|exact Rc|exact Hb].
Qed.
Print Assumptions elem_add_const_correct.

Theorem elem_sub_const_correct : forall cfg base n k c pb st,
  ports cfg = [] -> arr16_wf cfg base pb n -> 0 <= k < n -> 0 <= c < 65536 -> bytes_ok st ->
  exists st', halts_to cfg (elem_sub_const base n k c) st st' /\
    elem_val (mem st') pb n k = (elem_val (mem st) pb n k - c) mod 65536 /\
    only_changes [pb + k; pb + n + k] st st' /\ keeps_xys st st'.
Proof.
  intros cfg base n k c pb st Hp W Rk Rc Hb.
  destruct (elem_cells cfg st base pb n k Hp W Rk) as (Cl & Ch).
  unfold elem_val. rewrite <- !(Z.add_assoc pb n k).
  apply halts_of_runs, (arith16c_gen SBC (or_intror eq_refl) cfg (Cell (pb + k)) _ (Cell (pb + (n + k))));
    [apply Cl|apply Cl|apply Ch|apply Ch|cbn; lia|lia|exact Rc|exact Hb].
Qed.
Print Assumptions elem_sub_const_correct.

Theorem elem_store_const_correct : forall cfg base n k c pb st,
  ports cfg = [] -> arr16_wf cfg base pb n -> 0 <= k < n -> 0 <= c < 65536 ->
  exists st', halts_to cfg (elem_store_const base n k c) st st' /\
    elem_val (mem st') pb n k = c /\
    only_changes [pb + k; pb + n + k] st st' /\ keeps_xys st st'.
Proof.
  intros cfg base n k c pb st Hp W Rk Rc. destruct (split16 c Rc) as (Hl & Hh & Ec).
  destruct (elem_cells cfg st base pb n k Hp W Rk) as (Cl & Ch).
  unfold elem_val. rewrite <- !(Z.add_assoc pb n k). apply halts_of_runs.
  destruct (copy2_gen cfg (Lit (c mod 256)) (pb + k) (Lit (c / 256)) (pb + (n + k))
              (imm (c mod 256)) (elem_lo base k) (imm (c / 256)) (elem_hi base n k) st)
    as (st' & Hr & _ & _ & Ew & Hf); [apply imm_r, Hl|apply Cl|apply imm_r, Hh|apply Ch|exact I|lia|].
  exists st'. rewrite Ew. cbn [srcv]. rewrite <- Ec. auto.
Qed.
Print Assumptions elem_store_const_correct.

Theorem elem_hi_load_correct : forall cfg dst base n k pb pd st,
  ports cfg = [] -> arr16_wf cfg base pb n -> 0 <= k < n ->
  var_name dst -> layout cfg dst = Some pd -> 0 <= pd < 65536 -> bytes_ok st ->
  exists st', halts_to cfg (elem_hi_load dst base n k) st st' /\
    mget (mem st') pd = elem_val (mem st) pb n k / 256 /\
    only_changes [pd] st st' /\ keeps_xys st st'.
Proof.
  intros cfg dst base n k pb pd st Hp W Rk Nd Ld Rd (_ & _ & _ & _ & HM).
  destruct (elem_cells cfg st base pb n k Hp W Rk) as (_ & Ch).
  replace (elem_val (mem st) pb n k / 256) with (mget (mem st) (pb + (n + k)))
    by (unfold elem_val; rewrite <- Z.add_assoc; mem_ranges HM; Z.div_mod_to_equations; lia).
  apply halts_of_runs, (copy_gen cfg (Cell (pb + (n + k)))); [apply Ch|apply cell_w, cell_var; assumption].
Qed.
Print Assumptions elem_hi_load_correct.

Theorem elem_inc_x_correct : forall cfg base n lbl pb st,
  ports cfg = [] -> arr16_wf cfg base pb n -> rX st < n -> lbl <> ""%string -> bytes_ok st ->
  exists st', halts_to cfg (elem_inc_x base n lbl) st st' /\
    elem_val (mem st') pb n (rX st) = (elem_val (mem st) pb n (rX st) + 1) mod 65536 /\
    only_changes [pb + rX st; pb + n + rX st] st st' /\ keeps_xys st st'.
Proof.
  intros cfg base n lbl pb st Hp (Nb & Lb & Rn & Rb & Rb' & Sb) Rx Hl Hb.
  assert (HX : 0 <= rX st) by apply Hb.
  pose proof (rmws_x cfg st base pb 0 Hp Nb Lb ltac:(lia) Rb HX ltac:(lia)) as Ml.
  pose proof (rmws_x cfg st base pb n Hp Nb Lb ltac:(lia) Rb HX ltac:(lia)) as Mh.
  rewrite (Z.add_0_r pb) in Ml.
  apply halts_of_runs, inc2_gen; try assumption. lia.
Qed.
Print Assumptions elem_inc_x_correct.

(** * What the repair changed: the sequences emitted before it, run on the semantics

    sarr at 128 .. 135 (low bytes 128 .. 131, high bytes 132 .. 135), pa at 136 .. 139, a at 140 *)
Definition cfg_elem : config :=
  mkCfg (fun y =>
    if String.eqb y "sarr" then Some 128 else if String.eqb y "pa" then Some 136
    else if String.eqb y "a" then Some 140 else None) [].

Lemma cfg_elem_wf : arr16_wf cfg_elem "sarr" 128 4 /\ arr16_wf cfg_elem "pa" 136 2.
Proof.
  split; (split; [split; [discriminate|reflexivity]|]); (split; [reflexivity|lia]).
Qed.
Print Assumptions cfg_elem_wf.

(** A = 0, X = 1, Y = 2, S = 255; the cells [lo], [hi] hold [vlo], [vhi] *)
Definition st_elem (lo hi vlo vhi : Z) : mstate :=
  mkS 0 1 2 255 false false false false (mset (mset mem_empty lo vlo) hi vhi).

Definition run_elem (c : code) (pb n k : Z) (st : mstate) : option Z :=
  match slines_of c with
  | Some sl =>
      match Sem.run cfg_elem [] (fun _ _ => None) (fun _ _ => None) 40 "f" sl 0 [] st [] 0%N with
      | Halt s' _ _ => Some (elem_val (mem s') pb n k)
      | _ => None
      end
  | None => None
  end.

(** [sarr[2]++;] before the repair: one byte only *)
Definition elem_inc_old (base : string) (k : Z) : code :=
  [ins CLC ""; ins LDA (elem_lo base k); ins ADC (imm 1); ins STA (elem_lo base k)].

(** sarr[2] = 0x00ff: the old code leaves 0x0000, C (and the new code) 0x0100 = 256 *)
Example elem_inc_old_refuted :
  run_elem (elem_inc_old "sarr" 2) 128 4 2 (st_elem 130 134 255 0) = Some 0 /\
  run_elem (elem_inc "sarr" 4 2 ".ifend1") 128 4 2 (st_elem 130 134 255 0) = Some 256.
Proof. vm_compute. split; reflexivity. Qed.
Print Assumptions elem_inc_old_refuted.

(** [pa[1] += 1;] before the repair: the low byte only *)
Definition elem_add_old (base : string) (k c : Z) : code :=
  [ins LDA (elem_lo base k); ins CLC ""; ins ADC (imm c); ins STA (elem_lo base k)].

(** pa[1] = 0x00ff: the old code leaves 0x0000, the new one 0x0100 *)
Example elem_add_old_refuted :
  run_elem (elem_add_old "pa" 1 1) 136 2 1 (st_elem 137 139 255 0) = Some 0 /\
  run_elem (elem_add_const "pa" 2 1 1) 136 2 1 (st_elem 137 139 255 0) = Some 256.
Proof. vm_compute. split; reflexivity. Qed.
Print Assumptions elem_add_old_refuted.

(** the X-indexed increment with X = 1: sarr[1] = 0x01ff becomes 0x0200 *)
Example run_elem_inc_x :
  run_elem (elem_inc_x "sarr" 4 ".ifend1") 128 4 1 (st_elem 129 133 255 1) = Some 512.
Proof. vm_compute. reflexivity. Qed.
Print Assumptions run_elem_inc_x.
