(** Correctness of the loop templates of the code generator (Model/GenLoops.v) on the executable
    6502 semantics (M6502/Sem.v): the sequences contain BACKWARD branches; each theorem is about
    [Sem.run] on the whole sequence, for ALL initial states, and is proved by induction on the
    number of iterations that remain.

    Infrastructure.  [stepn] / [reach] (Proofs/GenCmp16Facts.v) execute any branch, forward or
    backward, and agree with [Sem.run] ([stepn_run]).  [loop_rule] is total correctness of code
    with a loop head: an invariant indexed by a measure that decreases at each pass from the head
    back to the head.  [count_rule] is the same counting the passes upwards, pass [j] starting in
    [St j]; the loops below use it with [St j] "the variables after [j] iterations", written with
    [byte] so that the steps are by [byte_add_l], [byte_sub_l], [byte_id], [byte_sub_eq0] and the
    linear arithmetic left never sees a [mod].  [halts_to] is [runs_to] without the bound "its
    length" on the fuel, which a loop exceeds.

    Shape of the theorems [X_code_correct], for any labels that are non-empty and distinct where
    it matters (the compiler's are: [lname_nonempty_for] ..., so that the theorems of
    Props/C01loops.v on [ltemplate] are instances):

      forall labels, <conditions on the labels> -> forall cfg names addresses st,
        ports cfg = [] -> var_name v ... -> layout cfg v = Some pv ... -> 0 <= pv < 65536 ... ->
        <the variables of the loop are different cells> -> bytes_ok st ->
        exists st', halts_to cfg (X_code ...) st st'       (no fault, halts past the end label)
          /\ <the variables hold what C says, as closed forms in the initial values>
          /\ only_changes [cells written] st st'           (every other memory cell unchanged)
          /\ keeps_xys st st'                              (X, Y, S unchanged; for the loops on a
                                                            register: the other register and S)

    The theorems [X_code_correct] (all eight listings; nothing is refuted), X =
      [do_dec]       do { a++; i--; } while (i != 0);   i' = 0, a' = a + (i = 0 ? 256 : i)
      [do_x]         do { a += c; X--; } while (X);     X' = 0, a' = a + (X = 0 ? 256 : X) * c
      [for_ne]       for (i = 0; i != b; i++) a++;      i' = b, a' = a + b
      [while_ne]     while (i != b) { a++; i++; }       i' = b, a' = a + (b - i) mod 256
      [for_x_down]   for (X = b; X != 0; X--) a += c;   X' = 0, a' = a + b * c
      [for_y_up]     for (Y = 0; Y != k; Y++) a++;      Y' = k, a' = a + k   (0 <= k < 256;
                     [for_y_4_correct] is the listing's k = 4)
      [for_lt_cont]  for (i = 0; i < b; i++) { if (a == c) continue; a++; }
                     i' = b, a' = a + min b ((c - a) mod 256)
      [while_brk]    while (i) { i--; if (i == b) break; a++; }
                     b < i: i' = b, a' = a + i - 1 - b;  otherwise i' = 0, a' = a + i
    (all sums mod 256).  For the [continue] and [break] loops the C meaning is also given as a
    Gallina function iterating the C body ([cont_iter], [brk_loop]); the closed forms are proved
    equal to them ([cont_iter_closed], [brk_loop_closed]; [for_lt_cont_iter], [while_brk_iter]).
    At the end: the instances on the listing's own names with a concrete layout, and five plain
    computations with [Sem.run]. *)
From Coq Require Import String Ascii List Bool Arith NArith ZArith Lia ZifyBool.
From CC Require Import Base.Str Asm.Lines M6502.Isa Asm.Operand M6502.Sem
  Model.OptSem Proofs.StrFacts Proofs.OptSemFacts Model.GenTemplates Proofs.ExecFacts Proofs.GenTemplatesFacts
  Proofs.GenCmp16Facts Model.GenLoops.
Import ListNotations.
Open Scope string_scope.
Open Scope list_scope.
Open Scope Z_scope.

Lemma reach_seq : forall cfg c pc s (Q : nat -> nat -> mstate -> Prop),
  reach cfg c pc s (fun n1 pc1 s1 => reach cfg c pc1 s1 (fun n2 => Q (n1 + n2)%nat)) ->
  reach cfg c pc s Q.
Proof.
  intros cfg c pc s Q (n1 & pc1 & s1 & H1 & (n2 & pc2 & s2 & H2 & HQ)).
  exists (n1 + n2)%nat, pc2, s2. split; [|exact HQ].
  rewrite (stepn_add cfg c n1 n2 pc s pc1 s1 H1). exact H2.
Qed.

Lemma reach_weaken : forall cfg c pc s (Q Q' : nat -> nat -> mstate -> Prop),
  (forall n pc' s', Q n pc' s' -> Q' n pc' s') -> reach cfg c pc s Q -> reach cfg c pc s Q'.
Proof.
  intros cfg c pc s Q Q' HQ (n & pc' & s' & H & Hq). exists n, pc', s'. split; [exact H|].
  apply HQ. exact Hq.
Qed.

Theorem loop_rule : forall cfg (c : list sline) (head exit : nat)
    (Inv : Z -> mstate -> Prop) (Post : mstate -> Prop),
  (forall k s, Inv k s ->
     reach cfg c head s (fun (_ pc' : nat) (s' : mstate) =>
       (pc' = head /\ exists k', 0 <= k' < k /\ Inv k' s') \/ (pc' = exit /\ Post s'))) ->
  forall k s, Inv k s ->
    reach cfg c head s (fun (_ pc' : nat) (s' : mstate) => pc' = exit /\ Post s').
Proof.
  intros cfg c head exit Inv Post Hpass.
  assert (H : forall (m : nat) k s, k < Z.of_nat m -> Inv k s ->
            reach cfg c head s (fun (_ pc' : nat) (s' : mstate) => pc' = exit /\ Post s')).
  { induction m as [|m IH]; intros k s Hk Hinv.
    - apply reach_seq.
      eapply reach_weaken; [|apply (Hpass k s Hinv)].
      intros n pc' s' [[_ (k' & Hk' & _)]|[Hpc Hpost]]; [lia|].
      apply reach_stop. split; assumption.
    - apply reach_seq.
      eapply reach_weaken; [|apply (Hpass k s Hinv)].
      intros n pc' s' [[Hpc (k' & Hk' & Hinv')]|[Hpc Hpost]].
      + subst pc'. apply (IH k' s'); [lia|exact Hinv'].
      + apply reach_stop. split; assumption. }
  intros k s Hinv. apply (H (Z.to_nat (k + 1) + 1)%nat k s); [lia|exact Hinv].
Qed.
Print Assumptions loop_rule.

Theorem loop_rule_run : forall cfg (c : list sline) (head exit : nat)
    (Inv : Z -> mstate -> Prop) (Post : mstate -> Prop),
  (forall k s, Inv k s ->
     reach cfg c head s (fun (_ pc' : nat) (s' : mstate) =>
       (pc' = head /\ exists k', 0 <= k' < k /\ Inv k' s') \/ (pc' = exit /\ Post s'))) ->
  forall k s, Inv k s ->
    exists (N : nat) (s' : mstate), Post s' /\
      forall prog inl_sem ext_call fuel fname tr cy, exists tr' cy',
        Sem.run cfg prog inl_sem ext_call (N + fuel) fname c head [] s tr cy
        = Sem.run cfg prog inl_sem ext_call fuel fname c exit [] s' tr' cy'.
Proof.
  intros cfg c head exit Inv Post Hpass k s Hinv.
  destruct (loop_rule cfg c head exit Inv Post Hpass k s Hinv) as (n & pc' & s' & Hs & Hpc & HP).
  subst pc'. exists n, s'. split; [exact HP|].
  intros prog inl_sem ext_call fuel fname tr cy.
  apply (stepn_run cfg c n head s exit s' Hs).
Qed.
Print Assumptions loop_rule_run.

Theorem count_rule : forall cfg (c : list sline) (head exit : nat) (m : Z)
    (St : Z -> mstate -> Prop) (Post : mstate -> Prop),
  (forall j s, 0 <= j < m -> St j s ->
     reach cfg c head s (fun (_ pc' : nat) (s' : mstate) =>
       (pc' = head /\ j + 1 < m /\ St (j + 1) s') \/ (pc' = exit /\ Post s'))) ->
  forall s, 0 < m -> St 0 s ->
    reach cfg c head s (fun (_ pc' : nat) (s' : mstate) => pc' = exit /\ Post s').
Proof.
  intros cfg c head exit m St Post Hpass s Hm H0.
  apply (loop_rule cfg c head exit (fun k s => 0 < k <= m /\ St (m - k) s) Post) with (k := m).
  - intros k s1 (Hk & Hs). eapply reach_weaken; [|apply (Hpass (m - k) s1); [lia|exact Hs]].
    intros n pc' s' [(Hpc & Hlt & Hs')|Hex]; [left|right; exact Hex].
    split; [exact Hpc|]. exists (k - 1). split; [lia|]. split; [lia|].
    replace (m - (k - 1)) with (m - k + 1) by ring. exact Hs'.
  - split; [lia|]. rewrite Z.sub_diag. exact H0.
Qed.


Definition halts_to (cfg : config) (c : code) (st st' : mstate) : Prop :=
  exists sl, slines_of c = Some sl /\ exists N : nat,
    forall prog inl_sem ext_call fname fuel, (N < fuel)%nat ->
      exists tr cy, Sem.run cfg prog inl_sem ext_call fuel fname sl 0 [] st [] 0%N = Halt st' tr cy.

Lemma runs_to_halts_to : forall cfg c st st', runs_to cfg c st st' -> halts_to cfg c st st'.
Proof.
  intros cfg c st st' (sl & Hsl & H). exists sl. split; [exact Hsl|]. exists (length sl). exact H.
Qed.
Print Assumptions runs_to_halts_to.

Lemma halts_to_reach : forall cfg c sl st (P : mstate -> Prop),
  slines_of c = Some sl ->
  reach cfg sl 0 st (fun (_ pc' : nat) (s' : mstate) => pc' = length sl /\ P s') ->
  exists st', halts_to cfg c st st' /\ P st'.
Proof.
  intros cfg c sl st P Hsl (n & pc' & s' & Hs & Hpc & HP). subst pc'.
  exists s'. split; [|exact HP]. exists sl. split; [exact Hsl|]. exists n.
  intros prog inl_sem ext_call fname fuel Hf. apply (stepn_halts cfg sl n st s' Hs). exact Hf.
Qed.
Print Assumptions halts_to_reach.

(** conversely, for code that does not return *)
Lemma halts_to_stepn : forall cfg c sl st st', slines_of c = Some sl ->
  (forall m o p raw, In (SIns m o p raw) sl -> m <> RTS /\ m <> RTI) ->
  halts_to cfg c st st' -> exists n, stepn cfg sl n 0 st = Some (length sl, st').
Proof.
  intros cfg c sl st st' Hsl Hnr (sl' & Hsl' & N & H). rewrite Hsl in Hsl'. injection Hsl' as <-.
  destruct (H [] (fun _ _ => None) (fun _ _ => None) ""%string (S N) (Nat.lt_succ_diag_r _))
    as (tr & cy & Hr).
  destruct (run_halt_stepn cfg sl Hnr _ _ _ _ _ _ _ _ _ (Nat.le_0_l _) Hr) as (n & _ & Hs).
  exists n. exact Hs.
Qed.

Lemma halts_to_det : forall cfg c st s1 s2,
  halts_to cfg c st s1 -> halts_to cfg c st s2 -> s1 = s2.
Proof.
  intros cfg c st s1 s2 (sl1 & E1 & N1 & H1) (sl2 & E2 & N2 & H2).
  rewrite E1 in E2. inversion E2; subst sl2.
  destruct (H1 [] (fun _ _ => None) (fun _ _ => None) ""%string (S (N1 + N2)) ltac:(lia))
    as (tr1 & cy1 & R1).
  destruct (H2 [] (fun _ _ => None) (fun _ _ => None) ""%string (S (N1 + N2)) ltac:(lia))
    as (tr2 & cy2 & R2).
  rewrite R1 in R2. inversion R2. reflexivity.
Qed.
Print Assumptions halts_to_det.

Theorem halts_to_bytes_ok : forall cfg c st st',
  halts_to cfg c st st' -> bytes_ok st -> bytes_ok st'.
Proof.
  intros cfg c st st' (sl & _ & N & Hrun) Hb.
  destruct (Hrun [] (fun _ _ => None) (fun _ _ => None) ""%string (S N) (Nat.lt_succ_diag_r _))
    as (tr & cy & Hr).
  exact (run_halt_bytes_ok _ _ _ _ _ _ _ _ _ _ _ _ _ Hr Hb).
Qed.
Print Assumptions halts_to_bytes_ok.

Lemma append_neq_self : forall p s, p <> ""%string -> (p ++ s)%string <> s.
Proof.
  intros p s Hp E. apply (f_equal String.length) in E. rewrite length_app_s in E.
  destruct p as [|ch p]; [contradiction|]. cbn [String.length] in E. lia.
Qed.

Lemma lname_nonempty_for : forall n, lname ".for" n <> ""%string.
Proof. intros n. unfold lname. cbn [append]. discriminate. Qed.
Lemma lname_nonempty_forupdate : forall n, lname ".forupdate" n <> ""%string.
Proof. intros n. unfold lname. cbn [append]. discriminate. Qed.
Lemma lname_nonempty_forend : forall n, lname ".forend" n <> ""%string.
Proof. intros n. unfold lname. cbn [append]. discriminate. Qed.
Lemma lname_nonempty_while : forall n, lname ".while" n <> ""%string.
Proof. intros n. unfold lname. cbn [append]. discriminate. Qed.
Lemma lname_nonempty_whileend : forall n, lname ".whileend" n <> ""%string.
Proof. intros n. unfold lname. cbn [append]. discriminate. Qed.
Lemma lname_nonempty_dowhile : forall n, lname ".dowhile" n <> ""%string.
Proof. intros n. unfold lname. cbn [append]. discriminate. Qed.

Lemma lname_for_forend : forall n, lname ".for" n <> lname ".forend" n.
Proof.
  intros n H. unfold lname in H. cbn [append] in H. inversion H as [H1].
  symmetry in H1. revert H1. apply (append_neq_self "end"). discriminate.
Qed.
Lemma lname_for_forupdate : forall n, lname ".for" n <> lname ".forupdate" n.
Proof.
  intros n H. unfold lname in H. cbn [append] in H. inversion H as [H1].
  symmetry in H1. revert H1. apply (append_neq_self "update"). discriminate.
Qed.
Lemma lname_forupdate_forend : forall n, lname ".forupdate" n <> lname ".forend" n.
Proof. intros n H. unfold lname in H. cbn [append] in H. inversion H. Qed.
Lemma lname_while_whileend : forall n, lname ".while" n <> lname ".whileend" n.
Proof.
  intros n H. unfold lname in H. cbn [append] in H. inversion H as [H1].
  symmetry in H1. revert H1. apply (append_neq_self "end"). discriminate.
Qed.
Lemma lname_dowhile_dowhileend : forall n, lname ".dowhile" n <> lname ".dowhileend" n.
Proof.
  intros n H. unfold lname in H. cbn [append] in H. inversion H as [H1].
  symmetry in H1. revert H1. apply (append_neq_self "end"). discriminate.
Qed.

(** a byte counted down to zero: [v] steps, 256 from zero *)
Definition downcount (v : Z) : Z := if v =? 0 then 256 else v.

Lemma downcount_pos : forall v, 0 <= v < 256 -> 0 < downcount v.
Proof. intros v Hv. unfold downcount. destruct (Z.eqb_spec v 0); lia. Qed.

Lemma downcount_zero : forall v j, 0 <= v < 256 -> 0 <= j < downcount v ->
  (byte (v - j - 1) =? 0) = (j + 1 =? downcount v).
Proof.
  intros v j Hv. unfold downcount. arith_tac.
Qed.

(** * Tactics: one pass of a loop ([lpass], by [rstep] of Proofs/GenCmp16Facts.v), and the places
    where a pass can end *)

(** one pass: at least one step, then on to the head [h] or to the end of the code *)
Ltac lpass h := rstep; repeat (not_at h; rstep).

(** the loop assembles: [slines_of (X_code ..) = Some ?sl] *)
Ltac lcode_tac :=
  cbv [for_ne_code while_ne_code do_dec_code for_x_down_code for_lt_cont_code while_brk_code
       do_x_code for_y_up_code add_assign l_head l_cont l_end app];
  slines_tac.

(** at the end of a pass: back at the head, or at the exit *)
Ltac lback := apply reach_stop; cbv beta; left; split; [reflexivity|].
Ltac lexit := apply reach_stop; cbv beta; right; split; [reflexivity|].
(** the code before the loop head [h]: on to the head or, the loop being skipped, to the end *)
Ltac lprefix h := apply reach_seq; lpass h.
(** at the head: the loop proper *)
Ltac lenter := apply reach_stop; cbv beta.
(** the loop is skipped: at the exit *)
Ltac lskip := lenter; lenter; split; [reflexivity|].

(** the conjuncts of an invariant or postcondition, once the state is computed and the cells
    read are replaced by their values: [Hf] is the frame so far *)
Ltac lfin Hf :=
  repeat match goal with |- _ /\ _ => split end;
  lazymatch goal with
  | |- forall _ : Z, _ => mset_frames; first [exact Hf | intros; reflexivity]
  | |- byte _ = byte _ => rewrite ?byte_add_l, ?byte_sub_l; f_equal; lia
  | |- byte _ = ?x mod 256 =>
      change (x mod 256) with (byte x); rewrite ?byte_add_l, ?byte_sub_l; f_equal; lia
  | |- _ => first [assumption | reflexivity | lia | idtac]
  end.

Theorem do_dec_code_correct : forall lh lc le, lh <> ""%string ->
  forall cfg a i pa pi st,
  ports cfg = [] -> var_name a -> var_name i ->
  layout cfg a = Some pa -> layout cfg i = Some pi ->
  0 <= pa < 65536 -> 0 <= pi < 65536 -> pa <> pi ->
  bytes_ok st ->
  exists st', halts_to cfg (do_dec_code a i (mkLL lh lc le)) st st' /\
    mget (mem st') pi = 0 /\
    mget (mem st') pa
    = (mget (mem st) pa + (if mget (mem st) pi =? 0 then 256 else mget (mem st) pi)) mod 256 /\
    only_changes [pa; pi] st st' /\ keeps_xys st st'.
Proof.
  intros lh lc le Hlh cfg a i pa pi st Hp Va Vi La Li Ra Ri Nai (HA & HX & HY & HS & HM).
  pose proof (HM pi) as Mi. fold (downcount (mget (mem st) pi)).
  eapply halts_to_reach; [lcode_tac|].
  apply (count_rule _ _ 0%nat _ (downcount (mget (mem st) pi))
           (fun j s => mget (mem s) pi = byte (mget (mem st) pi - j) /\
                       mget (mem s) pa = byte (mget (mem st) pa + j) /\
                       only_changes [pa; pi] st s /\ keeps_xys st s)).
  - intros j s Hj (Hi & Ha & Hf & Hx). pose proof (downcount_zero _ j Mi Hj) as Hz.
    lpass 0%nat; [lback|lexit];
      unfold only_changes, keeps_xys in *; state_simp; mem_simp;
      rewrite ?Hi, ?Ha in *; rewrite byte_sub_l in *; lfin Hf.
  - apply downcount_pos. exact Mi.
  - unfold only_changes, keeps_xys. rewrite Z.sub_0_r, Z.add_0_r, !byte_id by apply HM.
    lfin Hp.
Qed.
Print Assumptions do_dec_code_correct.

Theorem for_ne_code_correct : forall lh lc le,
  lh <> ""%string -> le <> ""%string -> lh <> le -> lc <> le ->
  forall cfg i b a pi pb pa st,
  ports cfg = [] -> var_name i -> var_name b -> var_name a ->
  layout cfg i = Some pi -> layout cfg b = Some pb -> layout cfg a = Some pa ->
  0 <= pi < 65536 -> 0 <= pb < 65536 -> 0 <= pa < 65536 ->
  pa <> pi -> pa <> pb -> pi <> pb ->
  bytes_ok st ->
  exists st', halts_to cfg (for_ne_code i b a (mkLL lh lc le)) st st' /\
    mget (mem st') pi = mget (mem st) pb /\
    mget (mem st') pa = (mget (mem st) pa + mget (mem st) pb) mod 256 /\
    only_changes [pa; pi] st st' /\ keeps_xys st st'.
Proof.
  intros lh lc le Hlh Hle Nhe Nce cfg i b a pi pb pa st Hp Vi Vb Va Li Lb La Ri Rb Ra
    Nai Nab Nib (HA & HX & HY & HS & HM).
  lbl_facts. pose proof (HM pa) as Ma. pose proof (HM pb) as Mb.
  eapply halts_to_reach; [lcode_tac|].
  lprefix 5%nat; change (byte 0) with 0 in *; rewrite byte_sub_eq0 in * by lia.
  - lskip. unfold only_changes, keeps_xys. state_simp. mem_simp. lfin HM.
    Z.div_mod_to_equations. lia.
  - lenter.
    apply (count_rule _ _ 5%nat _ (mget (mem st) pb)
             (fun j s => mget (mem s) pi = j /\ mget (mem s) pa = byte (mget (mem st) pa + j) /\
                         only_changes [pa; pi] st s /\ keeps_xys st s)).
    + intros j s Hj (Hi & Ha & Hf & Hx).
      pose proof (Hf pb ltac:(lia) ltac:(cbn [In]; lia)) as Hb.
      lpass 5%nat; [lback|lexit];
        unfold only_changes, keeps_xys in *; state_simp; mem_simp;
        rewrite ?Hi, ?Ha, ?Hb in *; rewrite (byte_id (j + 1)) in * by lia;
        rewrite byte_sub_eq0 in * by lia; lfin Hf.
    + lia.
    + unfold only_changes, keeps_xys. state_simp. mem_simp.
      rewrite byte_id by exact Ma. lfin HM.
Qed.
Print Assumptions for_ne_code_correct.

(** [i] reaches [b] after [(b - i) mod 256] increments, not before *)
Lemma upcount_eq : forall v w j, 0 <= v < 256 -> 0 <= w < 256 -> 0 <= j <= byte (w - v) ->
  (byte (v + j) =? w) = (j =? byte (w - v)).
Proof. intros v w j Hv Hw. arith_tac. Qed.

Theorem while_ne_code_correct : forall lh lc le, lh <> ""%string -> le <> ""%string -> lh <> le ->
  forall cfg i b a pi pb pa st,
  ports cfg = [] -> var_name i -> var_name b -> var_name a ->
  layout cfg i = Some pi -> layout cfg b = Some pb -> layout cfg a = Some pa ->
  0 <= pi < 65536 -> 0 <= pb < 65536 -> 0 <= pa < 65536 ->
  pa <> pi -> pa <> pb -> pi <> pb ->
  bytes_ok st ->
  exists st', halts_to cfg (while_ne_code i b a (mkLL lh lc le)) st st' /\
    mget (mem st') pi = mget (mem st) pb /\
    mget (mem st') pa
    = (mget (mem st) pa + (mget (mem st) pb - mget (mem st) pi) mod 256) mod 256 /\
    only_changes [pa; pi] st st' /\ keeps_xys st st'.
Proof.
  intros lh lc le Hlh Hle Nhe cfg i b a pi pb pa st Hp Vi Vb Va Li Lb La Ri Rb Ra
    Nai Nab Nib (HA & HX & HY & HS & HM).
  lbl_facts. pose proof (HM pa) as Ma. pose proof (HM pb) as Mb. pose proof (HM pi) as Mi.
  change ((mget (mem st) pb - mget (mem st) pi) mod 256)
    with (byte (mget (mem st) pb - mget (mem st) pi)).
  eapply halts_to_reach; [lcode_tac|].
  apply (count_rule _ _ 0%nat _ (byte (mget (mem st) pb - mget (mem st) pi) + 1)
           (fun j s => mget (mem s) pi = byte (mget (mem st) pi + j) /\
                       mget (mem s) pa = byte (mget (mem st) pa + j) /\
                       only_changes [pa; pi] st s /\ keeps_xys st s)).
  - intros j s Hj (Hi & Ha & Hf & Hx).
    pose proof (Hf pb ltac:(lia) ltac:(cbn [In]; lia)) as Hb.
    pose proof (upcount_eq _ _ j Mi Mb ltac:(lia)) as Hz.
    lpass 0%nat; [lexit|lback];
      unfold only_changes, keeps_xys in *; state_simp; mem_simp;
      rewrite ?Hi, ?Ha, ?Hb in *; rewrite byte_sub_eq0 in * by (apply byte_range || lia);
      lfin Hf.
  - pose proof (byte_range (mget (mem st) pb - mget (mem st) pi)). lia.
  - unfold only_changes, keeps_xys. rewrite !Z.add_0_r, !byte_id by apply HM.
    lfin HM.
Qed.
Print Assumptions while_ne_code_correct.

Definition keeps_ys (st st' : mstate) : Prop := rY st' = rY st /\ rS st' = rS st.
Definition keeps_xs (st st' : mstate) : Prop := rX st' = rX st /\ rS st' = rS st.

Theorem do_x_code_correct : forall lh lc le, lh <> ""%string ->
  forall cfg a c pa pc st,
  ports cfg = [] -> var_name a -> var_name c ->
  layout cfg a = Some pa -> layout cfg c = Some pc ->
  0 <= pa < 65536 -> 0 <= pc < 65536 -> pa <> pc ->
  bytes_ok st ->
  exists st', halts_to cfg (do_x_code a c (mkLL lh lc le)) st st' /\
    rX st' = 0 /\
    mget (mem st') pa
    = (mget (mem st) pa + (if rX st =? 0 then 256 else rX st) * mget (mem st) pc) mod 256 /\
    only_changes [pa] st st' /\ keeps_ys st st'.
Proof.
  intros lh lc le Hlh cfg a c pa pc st Hp Va Vc La Lc Ra Rc Nac (HA & HX & HY & HS & HM).
  fold (downcount (rX st)).
  eapply halts_to_reach; [lcode_tac|].
  apply (count_rule _ _ 0%nat _ (downcount (rX st))
           (fun j s => rX s = byte (rX st - j) /\
                       mget (mem s) pa = byte (mget (mem st) pa + j * mget (mem st) pc) /\
                       only_changes [pa] st s /\ keeps_ys st s)).
  - intros j s Hj (Hi & Ha & Hf & Hx). pose proof (downcount_zero _ j HX Hj) as Hz.
    pose proof (Hf pc ltac:(lia) ltac:(cbn [In]; lia)) as Hc.
    lpass 0%nat; [lback|lexit];
      unfold only_changes, keeps_ys in *; state_simp; mem_simp;
      rewrite ?Hi, ?Ha, ?Hc in *; rewrite byte_sub_l in *; lfin Hf.
  - apply downcount_pos. exact HX.
  - unfold only_changes, keeps_ys. rewrite Z.sub_0_r, Z.add_0_r, !byte_id by first [exact HX|apply HM].
    lfin HM.
Qed.
Print Assumptions do_x_code_correct.

(** [a] may be the same cell as [b] ([b] is read once, before the loop), not the same as [c] *)
Theorem for_x_down_code_correct : forall lh lc le,
  lh <> ""%string -> le <> ""%string -> lh <> le -> lc <> le ->
  forall cfg b a c pb pa pc st,
  ports cfg = [] -> var_name b -> var_name a -> var_name c ->
  layout cfg b = Some pb -> layout cfg a = Some pa -> layout cfg c = Some pc ->
  0 <= pb < 65536 -> 0 <= pa < 65536 -> 0 <= pc < 65536 -> pa <> pc ->
  bytes_ok st ->
  exists st', halts_to cfg (for_x_down_code b a c (mkLL lh lc le)) st st' /\
    rX st' = 0 /\
    mget (mem st') pa = (mget (mem st) pa + mget (mem st) pb * mget (mem st) pc) mod 256 /\
    only_changes [pa] st st' /\ keeps_ys st st'.
Proof.
  intros lh lc le Hlh Hle Nhe Nce cfg b a c pb pa pc st Hp Vb Va Vc Lb La Lc Rb Ra Rc Nac
    (HA & HX & HY & HS & HM).
  lbl_facts. pose proof (HM pa) as Ma. pose proof (HM pb) as Mb.
  eapply halts_to_reach; [lcode_tac|].
  lprefix 2%nat.
  - lskip. unfold only_changes, keeps_ys. state_simp. mem_simp. lfin HM.
    Z.div_mod_to_equations. lia.
  - lenter.
    apply (count_rule _ _ 2%nat _ (mget (mem st) pb)
             (fun j s => rX s = mget (mem st) pb - j /\
                         mget (mem s) pa = byte (mget (mem st) pa + j * mget (mem st) pc) /\
                         only_changes [pa] st s /\ keeps_ys st s)).
    + intros j s Hj (Hi & Ha & Hf & Hx).
      pose proof (Hf pc ltac:(lia) ltac:(cbn [In]; lia)) as Hc.
      lpass 2%nat; [lback|lexit];
        unfold only_changes, keeps_ys in *; state_simp; mem_simp;
        rewrite ?Hi, ?Ha, ?Hc in *; rewrite (byte_id (mget (mem st) pb - j - 1)) in * by lia;
        lfin Hf.
    + lia.
    + unfold only_changes, keeps_ys. state_simp. mem_simp.
      rewrite byte_id by exact Ma. lfin HM.
Qed.
Print Assumptions for_x_down_code_correct.

Theorem for_y_up_code_correct : forall lh lc le,
  lh <> ""%string -> le <> ""%string -> lh <> le -> lc <> le ->
  forall cfg kk a pa st,
  ports cfg = [] -> var_name a -> 0 <= kk < 256 ->
  layout cfg a = Some pa -> 0 <= pa < 65536 ->
  bytes_ok st ->
  exists st', halts_to cfg (for_y_up_code kk a (mkLL lh lc le)) st st' /\
    rY st' = kk /\
    mget (mem st') pa = (mget (mem st) pa + kk) mod 256 /\
    only_changes [pa] st st' /\ keeps_xs st st'.
Proof.
  intros lh lc le Hlh Hle Nhe Nce cfg kk a pa st Hp Va Rk La Ra (HA & HX & HY & HS & HM).
  lbl_facts. pose proof (HM pa) as Ma.
  eapply halts_to_reach; [lcode_tac|].
  lprefix 3%nat; change (byte 0) with 0 in *; rewrite (byte_id kk) in * by exact Rk;
    rewrite byte_sub_eq0 in * by lia.
  - lskip. unfold only_changes, keeps_xs. state_simp. mem_simp. lfin HM.
    Z.div_mod_to_equations. lia.
  - lenter.
    apply (count_rule _ _ 3%nat _ kk
             (fun j s => rY s = j /\ mget (mem s) pa = byte (mget (mem st) pa + j) /\
                         only_changes [pa] st s /\ keeps_xs st s)).
    + intros j s Hj (Hi & Ha & Hf & Hx).
      lpass 3%nat; [lback|lexit];
        unfold only_changes, keeps_xs in *; state_simp; mem_simp;
        rewrite ?Hi, ?Ha in *; rewrite (byte_id kk), (byte_id (j + 1)) in * by lia;
        rewrite byte_sub_eq0 in * by lia; lfin Hf.
    + lia.
    + unfold only_changes, keeps_xs. state_simp. mem_simp.
      rewrite byte_id by exact Ma. lfin HM.
Qed.
Print Assumptions for_y_up_code_correct.

Corollary for_y_4_correct : forall cfg a n pa st,
  ports cfg = [] -> var_name a -> layout cfg a = Some pa -> 0 <= pa < 65536 ->
  bytes_ok st ->
  exists st', halts_to cfg (ltemplate (LForYUp 4 a n)) st st' /\
    rY st' = 4 /\
    mget (mem st') pa = (mget (mem st) pa + 4) mod 256 /\
    only_changes [pa] st st' /\ keeps_xs st st'.
Proof.
  intros cfg a n pa st Hp Va La Ra Hb.
  apply (for_y_up_code_correct _ _ _ (lname_nonempty_for n) (lname_nonempty_forend n)
           (lname_for_forend n) (lname_forupdate_forend n)); try assumption. lia.
Qed.
Print Assumptions for_y_4_correct.

(** * [for (i = 0; i < b; i++) { if (a == c) continue; a++; }]

    [a] climbs by one at each iteration until it equals [c], then stays: with
    [d = (c - a) mod 256] the distance to [c], after [b] iterations [a] has climbed [min b d]. *)

(** the C meaning as a function: the body [if (a == c) continue; a++;], iterated [n] times *)
Definition cont_body (c a : Z) : Z := if a =? c then a else (a + 1) mod 256.
Fixpoint cont_iter (n : nat) (c a : Z) : Z :=
  match n with
  | O => a
  | S m => cont_body c (cont_iter m c a)
  end.

Lemma cont_body_eq : forall c a, a = c -> cont_body c a = a.
Proof. intros c a E. unfold cont_body. rewrite (proj2 (Z.eqb_eq a c) E). reflexivity. Qed.
Lemma cont_body_ne : forall c a, a <> c -> cont_body c a = byte (a + 1).
Proof. intros c a E. unfold cont_body. rewrite (proj2 (Z.eqb_neq a c) E). reflexivity. Qed.

Lemma cont_iter_range : forall n c a, 0 <= a < 256 -> 0 <= cont_iter n c a < 256.
Proof.
  intros n c a Ha. induction n as [|n IH]; [exact Ha|].
  cbn [cont_iter]. unfold cont_body. destruct (_ =? c); [exact IH|apply byte_range].
Qed.

Lemma cont_iter_succ : forall j c a, 0 <= j ->
  cont_iter (Z.to_nat (j + 1)) c a = cont_body c (cont_iter (Z.to_nat j) c a).
Proof. intros j c a Hj. rewrite Z2Nat.inj_add by lia. rewrite Nat.add_comm. reflexivity. Qed.

Lemma cont_iter_closed : forall n c a, 0 <= a < 256 -> 0 <= c < 256 ->
  cont_iter n c a = (a + Z.min (Z.of_nat n) ((c - a) mod 256)) mod 256.
Proof.
  intros n c a Ha Hc. induction n as [|n IH].
  - cbn [cont_iter]. arith_tac.
  - cbn [cont_iter]. rewrite IH. unfold cont_body. arith_tac.
Qed.
Print Assumptions cont_iter_closed.

Theorem for_lt_cont_code_correct : forall lh lc le,
  lh <> ""%string -> lc <> ""%string -> le <> ""%string -> lh <> lc -> lh <> le -> lc <> le ->
  forall cfg i b a c pi pb pa pc st,
  ports cfg = [] -> var_name i -> var_name b -> var_name a -> var_name c ->
  layout cfg i = Some pi -> layout cfg b = Some pb -> layout cfg a = Some pa ->
  layout cfg c = Some pc ->
  0 <= pi < 65536 -> 0 <= pb < 65536 -> 0 <= pa < 65536 -> 0 <= pc < 65536 ->
  pa <> pi -> pa <> pb -> pa <> pc -> pi <> pb -> pi <> pc ->
  bytes_ok st ->
  exists st', halts_to cfg (for_lt_cont_code i b a c (mkLL lh lc le)) st st' /\
    mget (mem st') pi = mget (mem st) pb /\
    mget (mem st') pa
    = (mget (mem st) pa
       + Z.min (mget (mem st) pb) ((mget (mem st) pc - mget (mem st) pa) mod 256)) mod 256 /\
    only_changes [pa; pi] st st' /\ keeps_xys st st'.
Proof.
  intros lh lc le Hlh Hlc Hle Nhc Nhe Nce cfg i b a c pi pb pa pc st Hp Vi Vb Va Vc
    Li Lb La Lc Ri Rb Ra Rc Nai Nab Nac Nib Nic (HA & HX & HY & HS & HM).
  lbl_facts. pose proof (HM pa) as Ma. pose proof (HM pb) as Mb. pose proof (HM pc) as Mc.
  pose proof (cont_iter_closed (Z.to_nat (mget (mem st) pb)) _ _ Ma Mc) as Ec.
  rewrite Z2Nat.id in Ec by lia. rewrite <- Ec. clear Ec.
  eapply halts_to_reach; [lcode_tac|].
  lprefix 5%nat; change (byte 0) with 0 in *.
  - lskip. assert (E : mget (mem st) pb = 0) by lia. rewrite E.
    unfold only_changes, keeps_xys. state_simp. mem_simp. lfin HM.
  - lenter.
    apply (count_rule _ _ 5%nat _ (mget (mem st) pb)
             (fun j s => mget (mem s) pi = j /\
                         mget (mem s) pa = cont_iter (Z.to_nat j) (mget (mem st) pc) (mget (mem st) pa) /\
                         only_changes [pa; pi] st s /\ keeps_xys st s)).
    + intros j s Hj (Hi & Ha & Hf & Hx).
      pose proof (Hf pb ltac:(lia) ltac:(cbn [In]; lia)) as Hb.
      pose proof (Hf pc ltac:(lia) ltac:(cbn [In]; lia)) as Hc.
      pose proof (cont_iter_range (Z.to_nat j) (mget (mem st) pc) _ Ma) as RA.
      lpass 5%nat; [lback|lexit|lback|lexit];
        unfold only_changes, keeps_xys in *; state_simp; mem_simp;
        rewrite ?Hi, ?Ha, ?Hb, ?Hc in *; rewrite (byte_id (j + 1)) in * by lia;
        rewrite byte_sub_eq0 in * by assumption;
        try replace (mget (mem st) pb) with (j + 1) by lia;
        rewrite cont_iter_succ by lia;
        first [rewrite cont_body_eq by lia | rewrite cont_body_ne by lia]; lfin Hf.
    + lia.
    + unfold only_changes, keeps_xys. state_simp. mem_simp. lfin HM.
Qed.
Print Assumptions for_lt_cont_code_correct.

Theorem for_lt_cont_iter : forall cfg i b a c n pi pb pa pc st,
  ports cfg = [] -> var_name i -> var_name b -> var_name a -> var_name c ->
  layout cfg i = Some pi -> layout cfg b = Some pb -> layout cfg a = Some pa ->
  layout cfg c = Some pc ->
  0 <= pi < 65536 -> 0 <= pb < 65536 -> 0 <= pa < 65536 -> 0 <= pc < 65536 ->
  pa <> pi -> pa <> pb -> pa <> pc -> pi <> pb -> pi <> pc ->
  bytes_ok st ->
  exists st', halts_to cfg (ltemplate (LForLtCont i b a c n)) st st' /\
    mget (mem st') pi = mget (mem st) pb /\
    mget (mem st') pa
    = cont_iter (Z.to_nat (mget (mem st) pb)) (mget (mem st) pc) (mget (mem st) pa) /\
    only_changes [pa; pi] st st' /\ keeps_xys st st'.
Proof.
  intros cfg i b a c n pi pb pa pc st Hp Vi Vb Va Vc Li Lb La Lc Ri Rb Ra Rc
    Nai Nab Nac Nib Nic Hb.
  destruct (for_lt_cont_code_correct _ _ _ (lname_nonempty_for n) (lname_nonempty_forupdate n)
              (lname_nonempty_forend n) (lname_for_forupdate n) (lname_for_forend n)
              (lname_forupdate_forend n) cfg i b a c pi pb pa pc st Hp Vi Vb Va Vc Li Lb La Lc
              Ri Rb Ra Rc Nai Nab Nac Nib Nic Hb) as (st' & Hh & Hi & Ha & Hf).
  destruct Hb as (_ & _ & _ & _ & HM).
  exists st'. split; [exact Hh|]. split; [exact Hi|]. split; [|exact Hf].
  rewrite Ha. rewrite (cont_iter_closed _ _ _ (HM pa) (HM pc)).
  pose proof (HM pb). rewrite Z2Nat.id by lia. reflexivity.
Qed.
Print Assumptions for_lt_cont_iter.

(** * [while (i) { i--; if (i == b) break; a++; }]

    If [b < i] the loop stops at [i = b], by the [break], after [i - 1 - b] increments of [a];
    otherwise [i] runs down to 0 and [a] is incremented [i] times. *)

Theorem while_brk_code_correct : forall lh lc le, lh <> ""%string -> le <> ""%string -> lh <> le ->
  forall cfg i b a pi pb pa st,
  ports cfg = [] -> var_name i -> var_name b -> var_name a ->
  layout cfg i = Some pi -> layout cfg b = Some pb -> layout cfg a = Some pa ->
  0 <= pi < 65536 -> 0 <= pb < 65536 -> 0 <= pa < 65536 ->
  pa <> pi -> pa <> pb -> pi <> pb ->
  bytes_ok st ->
  exists st', halts_to cfg (while_brk_code i b a (mkLL lh lc le)) st st' /\
    mget (mem st') pi = (if mget (mem st) pb <? mget (mem st) pi then mget (mem st) pb else 0) /\
    mget (mem st') pa
    = (mget (mem st) pa
       + (if mget (mem st) pb <? mget (mem st) pi
          then mget (mem st) pi - 1 - mget (mem st) pb else mget (mem st) pi)) mod 256 /\
    only_changes [pa; pi] st st' /\ keeps_xys st st'.
Proof.
  intros lh lc le Hlh Hle Nhe cfg i b a pi pb pa st Hp Vi Vb Va Li Lb La Ri Rb Ra
    Nai Nab Nib (HA & HX & HY & HS & HM).
  lbl_facts. pose proof (HM pa) as Ma. pose proof (HM pb) as Mb. pose proof (HM pi) as Mi.
  eapply halts_to_reach; [lcode_tac|].
  apply (count_rule _ _ 0%nat _ (mget (mem st) pi + 1)
           (fun j s => mget (mem s) pi = mget (mem st) pi - j /\
                       mget (mem s) pa = byte (mget (mem st) pa + j) /\
                       (mget (mem st) pb < mget (mem st) pi -> mget (mem st) pb < mget (mem st) pi - j) /\
                       only_changes [pa; pi] st s /\ keeps_xys st s)).
  - intros j s Hj (Hi & Ha & Hbk & Hf & Hx).
    pose proof (Hf pb ltac:(lia) ltac:(cbn [In]; lia)) as Hb.
    lpass 0%nat; [lexit|lexit|lback];
      unfold only_changes, keeps_xys in *; state_simp; mem_simp;
      rewrite ?Hi, ?Ha, ?Hb in *; rewrite ?(byte_id (mget (mem st) pi - j - 1)) in * by lia;
      rewrite ?byte_sub_eq0 in * by lia;
      try destruct (Z.ltb_spec (mget (mem st) pb) (mget (mem st) pi)); lfin Hf.
  - lia.
  - unfold only_changes, keeps_xys. rewrite Z.sub_0_r, Z.add_0_r, byte_id by exact Ma.
    lfin HM.
Qed.
Print Assumptions while_brk_code_correct.

(** the C meaning as a function: [fuel] bounds the number of iterations ([i] is enough);
    the result is the final [(i, a)] *)
Fixpoint brk_loop (fuel : nat) (b i a : Z) : Z * Z :=
  match fuel with
  | O => (i, a)
  | S f =>
      if i =? 0 then (i, a)
      else if i - 1 =? b then (i - 1, a)
      else brk_loop f b (i - 1) ((a + 1) mod 256)
  end.

Lemma brk_loop_closed : forall fuel b i a,
  0 <= i <= Z.of_nat fuel -> 0 <= b -> 0 <= a < 256 ->
  brk_loop fuel b i a
  = (if b <? i then b else 0, (a + (if b <? i then i - 1 - b else i)) mod 256).
Proof.
  induction fuel as [|fuel IH]; intros b i a Hi Hb Ha.
  - cbn [brk_loop]. assert (i = 0) by lia. subst i.
    destruct (Z.ltb_spec b 0); [lia|]. f_equal. Z.div_mod_to_equations. lia.
  - cbn [brk_loop].
    destruct (Z.eqb_spec i 0) as [->|Hi0].
    + destruct (Z.ltb_spec b 0); [lia|]. f_equal. Z.div_mod_to_equations. lia.
    + destruct (Z.eqb_spec (i - 1) b) as [E|E].
      * destruct (Z.ltb_spec b i); [|lia]. f_equal; Z.div_mod_to_equations; lia.
      * rewrite IH; [|lia|lia|apply Z.mod_pos_bound; reflexivity].
        destruct (Z.ltb_spec b (i - 1)); destruct (Z.ltb_spec b i); try lia; f_equal;
          Z.div_mod_to_equations; lia.
Qed.
Print Assumptions brk_loop_closed.

Theorem while_brk_iter : forall cfg i b a n pi pb pa st,
  ports cfg = [] -> var_name i -> var_name b -> var_name a ->
  layout cfg i = Some pi -> layout cfg b = Some pb -> layout cfg a = Some pa ->
  0 <= pi < 65536 -> 0 <= pb < 65536 -> 0 <= pa < 65536 ->
  pa <> pi -> pa <> pb -> pi <> pb ->
  bytes_ok st ->
  exists st', halts_to cfg (ltemplate (LWhileBrk i b a n)) st st' /\
    (mget (mem st') pi, mget (mem st') pa)
    = brk_loop (Z.to_nat (mget (mem st) pi)) (mget (mem st) pb) (mget (mem st) pi)
        (mget (mem st) pa) /\
    only_changes [pa; pi] st st' /\ keeps_xys st st'.
Proof.
  intros cfg i b a n pi pb pa st Hp Vi Vb Va Li Lb La Ri Rb Ra Nai Nab Nib Hb.
  destruct (while_brk_code_correct _ (lname ".while" n) _ (lname_nonempty_while n) (lname_nonempty_whileend n)
              (lname_while_whileend n) cfg i b a pi pb pa st Hp Vi Vb Va Li Lb La Ri Rb Ra
              Nai Nab Nib Hb) as (st' & Hh & Hi & Ha & Hf).
  destruct Hb as (_ & _ & _ & _ & HM).
  exists st'. split; [exact Hh|]. split; [|exact Hf].
  pose proof (HM pi). pose proof (HM pb). pose proof (HM pa).
  rewrite brk_loop_closed by lia. rewrite Hi, Ha. reflexivity.
Qed.
Print Assumptions while_brk_iter.

(** * The instances of the listing: the hypotheses of the theorems are satisfiable *)

Definition cfg_loops : config :=
  mkCfg (fun y =>
    if String.eqb y "a" then Some 128 else if String.eqb y "b" then Some 129
    else if String.eqb y "c" then Some 130 else if String.eqb y "i" then Some 131
    else None) [].

Corollary listing_do_dec : forall st, bytes_ok st ->
  exists st', halts_to cfg_loops (ltemplate (LDoDec "a" "i" 1)) st st' /\
    mget (mem st') 131 = 0 /\
    mget (mem st') 128
    = (mget (mem st) 128 + (if mget (mem st) 131 =? 0 then 256 else mget (mem st) 131)) mod 256 /\
    only_changes [128; 131] st st' /\ keeps_xys st st'.
Proof.
  intros st Hb.
  apply (do_dec_code_correct _ _ _ (lname_nonempty_dowhile 1) cfg_loops "a" "i" 128 131 st);
    try reflexivity; try lia; try exact Hb;
    (apply ident_var_name; [discriminate|reflexivity]).
Qed.
Print Assumptions listing_do_dec.

Corollary listing_for_ne : forall st, bytes_ok st ->
  exists st', halts_to cfg_loops (ltemplate (LForNe "i" "b" "a" 1)) st st' /\
    mget (mem st') 131 = mget (mem st) 129 /\
    mget (mem st') 128 = (mget (mem st) 128 + mget (mem st) 129) mod 256 /\
    only_changes [128; 131] st st' /\ keeps_xys st st'.
Proof.
  intros st Hb.
  apply (for_ne_code_correct _ _ _ (lname_nonempty_for 1) (lname_nonempty_forend 1)
           (lname_for_forend 1) (lname_forupdate_forend 1) cfg_loops "i" "b" "a" 131 129 128 st);
    try reflexivity; try lia; try exact Hb;
    (apply ident_var_name; [discriminate|reflexivity]).
Qed.
Print Assumptions listing_for_ne.

Corollary listing_for_lt_cont : forall st, bytes_ok st ->
  exists st', halts_to cfg_loops (ltemplate (LForLtCont "i" "b" "a" "c" 1)) st st' /\
    mget (mem st') 131 = mget (mem st) 129 /\
    mget (mem st') 128
    = cont_iter (Z.to_nat (mget (mem st) 129)) (mget (mem st) 130) (mget (mem st) 128) /\
    only_changes [128; 131] st st' /\ keeps_xys st st'.
Proof.
  intros st Hb. apply (for_lt_cont_iter cfg_loops "i" "b" "a" "c" 1%N 131 129 128 130 st);
    try reflexivity; try lia; try exact Hb;
    (apply ident_var_name; [discriminate|reflexivity]).
Qed.
Print Assumptions listing_for_lt_cont.

(** and plain computations with [Sem.run] on the listing's code: A, X, Y, S = 0, 7, 2, 255;
    [a], [b], [c], [i] as given; the result is [(a, i, X, Y, S)] *)
Definition st_loops (va vb vc vi : Z) : mstate :=
  mkS 0 7 2 255 false false false false
    (mset (mset (mset (mset mem_empty 128 va) 129 vb) 130 vc) 131 vi).

Definition run_loop (t : lschema) (fuel : nat) (st : mstate) : option (Z * Z * Z * Z * Z) :=
  match slines_of (ltemplate t) with
  | Some sl =>
      match Sem.run cfg_loops [] (fun _ _ => None) (fun _ _ => None) fuel "f" sl 0 [] st [] 0%N with
      | Halt s' _ _ => Some (mget (mem s') 128, mget (mem s') 131, rX s', rY s', rS s')
      | _ => None
      end
  | None => None
  end.

Example run_do_dec_10 :
  run_loop (LDoDec "a" "i" 1) 100 (st_loops 250 0 0 10) = Some (4, 0, 7, 2, 255).
Proof. vm_compute. reflexivity. Qed.
(** from i = 0: 256 iterations, a is back to 250 *)
Example run_do_dec_0 :
  run_loop (LDoDec "a" "i" 1) 1100 (st_loops 250 0 0 0) = Some (250, 0, 7, 2, 255).
Proof. vm_compute. reflexivity. Qed.
(** 1 + 5 * 60 = 301 = 45 mod 256 *)
Example run_for_x_down :
  run_loop (LForXDown "b" "a" "c" 1) 100 (st_loops 1 5 60 9) = Some (45, 9, 0, 2, 255).
Proof. vm_compute. reflexivity. Qed.
Example run_for_lt_cont :
  run_loop (LForLtCont "i" "b" "a" "c" 1) 200 (st_loops 3 10 6 77) = Some (6, 10, 7, 2, 255).
Proof. vm_compute. reflexivity. Qed.
Example run_while_brk :
  run_loop (LWhileBrk "i" "b" "a" 1) 200 (st_loops 3 4 0 9) = Some (7, 4, 7, 2, 255).
Proof. vm_compute. reflexivity. Qed.
