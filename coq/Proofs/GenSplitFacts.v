(** Correctness of the statement templates for variables in split-port cartridge RAM
    (Model/GenSplit.v) on the executable 6502 semantics (M6502/Sem.v).

    The memory model (M6502/Sem.v): [ports cfg] lists (write_base, read_base, size); the cell is
    stored in [mem] at its WRITE address; a read through the read port at [a + 128] returns
    [mget (mem s) a]; a read through the write port or a write through the read port is a fault,
    and so is every read-modify-write instruction on either port.

    The templates are those of Proofs/GenTemplatesFacts.v, proved there over what the operand texts
    denote ([reads cfg st t x] / [writes cfg st t a]); this file supplies the accesses of the listing:

      split_cfg cfg                      (ports cfg = [($1000, $1080, 128)])
      split_name v                       (a C identifier: all operand texts then parse)
      in_wport pv                        ([reads_lo], [writes_lo]: an 8-bit split-port variable,
                                          its symbol an address of the WRITE window $1000..$107F,
                                          read through "v+128", written through "v")
      in_wport (pv + 1)                  ([reads_hi], [writes_hi]: the high cell of a 16-bit one)
      in_wport pa, pa + n <= 4224, 0 <= X < n   ([reads_idx], [writes_idx]: an array element,
                                          "arr+128,X" / "arr,X")
      ordinary px                        ([reads_ord], [writes_ord]: 0 <= px < $1000, below both
                                          windows; page zero in particular)
      ports cfg = []                     ([sym_cell]: no ports at all; the element templates of
                                          Proofs/GenElemFacts.v)

    and the two 16-bit shifts through the accumulator, which no ordinary template has
    ([lcs_shl16_correct], [lcs_shr16_correct]).  [runs_to] says that [Sem.run] halts normally: no
    fault, hence no access through the wrong port.

    The statement of each of the 25 listings is an instance (Props/C17.v).  The reason the
    templates exist: the ordinary lowering [INC v] faults ([inc_split_faults],
    [inc_split_run_faults], [inc_split_never_runs]). *)
From Coq Require Import String Ascii List Bool Arith NArith ZArith Lia ZifyBool.
From CC Require Import Base.Str Asm.Lines M6502.Isa Asm.Operand M6502.Sem
  Model.OptSem Model.CheckBranches Model.CbSpec Proofs.StrFacts Proofs.CbFacts Proofs.OptSemFacts
  Model.GenTemplates Proofs.ExecFacts Proofs.GenTemplatesFacts Proofs.GenLoopsFacts Model.GenSplit.
Import ListNotations.
Open Scope string_scope.
Open Scope list_scope.
Open Scope Z_scope.

Definition split_name (v : string) : Prop := v <> ""%string /\ all_ident v = true.

Definition ix_of (r : ireg) : index := match r with RegX => IxX | RegY => IxY end.

Lemma parse_base_idx : forall m b v k rg, takes_label m = false -> base_text b v k ->
  parse_operand m (idx b rg) = Some (OMem v k (ix_of rg)).
Proof.
  intros m b v k rg Hm (Hc & _ & Hp).
  rewrite parse_operand_ident by (exact Hm || (destruct b; [discriminate Hc|exact Hc])).
  unfold parse_mem, idx. destruct rg.
  - rewrite strip_suffix_app, Hp. reflexivity.
  - assert (Hn : ends_with ",X" (b ++ ",Y") = false)
      by (unfold ends_with; rewrite rev_string_app; reflexivity).
    unfold strip_suffix at 1. rewrite Hn, strip_suffix_app, Hp. reflexivity.
Qed.

Lemma parse_sym : forall m v k, split_name v -> takes_label m = false -> 0 <= k ->
  parse_operand m (sym v k) = Some (OMem v k IxNone).
Proof. intros m v k [Hne Hid] Hm Hk. apply parse_base; [exact Hm|apply sym_base_text; assumption]. Qed.

Lemma parse_sym_idx : forall m v k rg, split_name v -> takes_label m = false -> 0 <= k ->
  parse_operand m (idx (sym v k) rg) = Some (OMem v k (ix_of rg)).
Proof.
  intros m v k rg [Hne Hid] Hm Hk. apply parse_base_idx; [exact Hm|apply sym_base_text; assumption].
Qed.

Lemma parse_name : forall m v, split_name v -> takes_label m = false ->
  parse_operand m v = Some (OMem v 0 IxNone).
Proof. intros m v Hv Hm. exact (parse_sym m v 0 Hv Hm ltac:(lia)). Qed.

Lemma split_name_var_name : forall v, split_name v -> var_name v.
Proof. intros v [Hne Hid]. apply ident_var_name; assumption. Qed.

Lemma split_names_listing :
  split_name "a" /\ split_name "c" /\ split_name "d" /\ split_name "s" /\ split_name "t" /\
  split_name "p" /\ split_name "arr".
Proof. repeat match goal with |- _ /\ _ => split end; (split; [discriminate|reflexivity]). Qed.

(** the superchip: write window $1000..$107F, read window $1080..$10FF *)
Definition split_cfg (cfg : config) : Prop := ports cfg = [(4096, 4224, 128)].
(** an address of the write window: where the symbol of a split-port variable points *)
Definition in_wport (a : Z) : Prop := 4096 <= a < 4224.
(** an ordinary RAM address, below both windows (page zero in particular) *)
Definition ordinary (a : Z) : Prop := 0 <= a < 4096.

(** [read_addr] / [write_addr] with the one window pair: every comparison with a bound decided *)
Ltac port_tac :=
  unfold read_addr, write_addr, in_range;
  repeat match goal with
  | |- context [Z.leb ?x ?y] => destruct (Z.leb_spec x y)
  | |- context [Z.ltb ?x ?y] => destruct (Z.ltb_spec x y)
  end;
  cbn [andb]; try (exfalso; lia); try reflexivity; try (f_equal; lia).

Lemma rd_port : forall cfg a, split_cfg cfg -> in_wport a ->
  read_addr (ports cfg) (a + 128) = Some a.
Proof. intros cfg a Hp Ha. rewrite Hp. unfold in_wport in Ha. port_tac. Qed.
Lemma wr_port : forall cfg a, split_cfg cfg -> in_wport a ->
  write_addr (ports cfg) a = Some a.
Proof. intros cfg a Hp Ha. rewrite Hp. unfold in_wport in Ha. port_tac. Qed.
Lemma rd_ord : forall cfg a, split_cfg cfg -> ordinary a -> read_addr (ports cfg) a = Some a.
Proof. intros cfg a Hp Ha. rewrite Hp. unfold ordinary in Ha. port_tac. Qed.
Lemma wr_ord : forall cfg a, split_cfg cfg -> ordinary a -> write_addr (ports cfg) a = Some a.
Proof. intros cfg a Hp Ha. rewrite Hp. unfold ordinary in Ha. port_tac. Qed.
Lemma rd_wport_faults : forall cfg a, split_cfg cfg -> in_wport a -> read_addr (ports cfg) a = None.
Proof. intros cfg a Hp Ha. rewrite Hp. unfold in_wport in Ha. port_tac. Qed.
Lemma wr_rport_faults : forall cfg a, split_cfg cfg -> in_wport a ->
  write_addr (ports cfg) (a + 128) = None.
Proof. intros cfg a Hp Ha. rewrite Hp. unfold in_wport in Ha. port_tac. Qed.

Definition ixval (ix : index) (s : mstate) : Z :=
  match ix with IxNone => 0 | IxX => rX s | IxY => rY s end.
Definition absmode (ix : index) : mode :=
  match ix with IxNone => Abs | IxX => AbsX | IxY => AbsY end.
(** the instructions of the templates that take an index: all have abs,X and abs,Y forms *)
Definition is_acc_rd (m : mnem) : bool :=
  match m with LDA | ADC | SBC | EOR | AND | ORA | CMP => true | _ => false end.
Definition crossed (base i : Z) : bool := negb ((base + i) / 256 =? base / 256).

Lemma is_acc_rd_rd : forall m, is_acc_rd m = true -> is_rd m = true.
Proof. intros m H. destruct m; try discriminate H; reflexivity. Qed.

Lemma eff_addr_abs : forall cfg m s y k ix a0, (is_acc_rd m = true \/ m = STA) ->
  layout cfg y = Some a0 -> 256 <= a0 + k -> 0 <= ixval ix s -> a0 + k + ixval ix s < 65536 ->
  eff_addr cfg m s (OMem y k ix)
  = Some (a0 + k + ixval ix s, absmode ix, crossed (a0 + k) (ixval ix s)).
Proof.
  intros cfg m s y k ix a0 Hm Hl Hb Hi Hr. unfold eff_addr. rewrite Hl.
  replace (a0 + k <? 256) with false by (symmetry; apply Z.ltb_ge; lia).
  assert (Hres : resolve m (shape_of (OMem y k ix)) false = Some (absmode ix)).
  { destruct Hm as [Hm|Hm]; [destruct m; try discriminate Hm|subst m]; destruct ix; reflexivity. }
  rewrite Hres. unfold crossed.
  destruct ix; cbn [absmode ixval] in *; rewrite Z.mod_small by lia; reflexivity.
Qed.

(** without ports, "v" / "v+k" is the cell [pv + k] *)
Lemma sym_cell : forall cfg st v pv k, ports cfg = [] -> split_name v ->
  layout cfg v = Some pv -> 0 <= k -> 0 <= pv + k < 65536 -> cell cfg st (sym v k) (pv + k).
Proof.
  intros cfg st v pv k Hp Vv Lv Rk Ra. apply (plain_cell cfg st _ v k pv); [exact Hp| |exact Lv|reflexivity|exact Ra].
  intros m Hm. apply parse_sym; assumption.
Qed.

Lemma reads_split : forall cfg st v pv j, split_cfg cfg -> split_name v ->
  layout cfg v = Some pv -> 0 <= j -> in_wport (pv + j) -> reads cfg st (sym v (128 + j)) (Cell (pv + j)).
Proof.
  intros cfg st v pv j Hp Vv Lv Rj Ra. pose proof Ra as Ra'. unfold in_wport in Ra'.
  apply (reads_mem cfg st _ v (128 + j) pv);
    [intros m Hm; apply parse_sym; [assumption..|lia]|assumption|lia| |lia].
  replace (pv + (128 + j)) with (pv + j + 128) by lia. apply rd_port; assumption.
Qed.

Lemma writes_split : forall cfg st v pv k, split_cfg cfg -> split_name v ->
  layout cfg v = Some pv -> 0 <= k -> in_wport (pv + k) -> writes cfg st (sym v k) (pv + k).
Proof.
  intros cfg st v pv k Hp Vv Lv Rk Ra. pose proof Ra as Ra'. unfold in_wport in Ra'.
  apply (writes_mem cfg st _ v k pv);
    [apply parse_sym; [assumption|reflexivity|assumption]|assumption|lia|apply wr_port; assumption|lia].
Qed.

Lemma reads_lo : forall cfg st v pv, split_cfg cfg -> split_name v -> layout cfg v = Some pv ->
  in_wport pv -> reads cfg st (rlo v) (Cell pv).
Proof.
  intros cfg st v pv Hp Vv Lv Ra.
  pose proof (reads_split cfg st v pv 0 Hp Vv Lv ltac:(lia)) as H. rewrite (Z.add_0_r pv) in H. exact (H Ra).
Qed.
Lemma writes_lo : forall cfg st v pv, split_cfg cfg -> split_name v -> layout cfg v = Some pv ->
  in_wport pv -> writes cfg st (wlo v) pv.
Proof.
  intros cfg st v pv Hp Vv Lv Ra.
  pose proof (writes_split cfg st v pv 0 Hp Vv Lv ltac:(lia)) as H. rewrite (Z.add_0_r pv) in H. exact (H Ra).
Qed.
Lemma reads_hi : forall cfg st v pv, split_cfg cfg -> split_name v -> layout cfg v = Some pv ->
  in_wport (pv + 1) -> reads cfg st (rhi v) (Cell (pv + 1)).
Proof. intros cfg st v pv Hp Vv Lv Ra. apply (reads_split cfg st v pv 1); try assumption. lia. Qed.
Lemma writes_hi : forall cfg st v pv, split_cfg cfg -> split_name v -> layout cfg v = Some pv ->
  in_wport (pv + 1) -> writes cfg st (whi v) (pv + 1).
Proof. intros cfg st v pv Hp Vv Lv Ra. apply (writes_split cfg st v pv 1); try assumption. lia. Qed.

Lemma reads_ord : forall cfg st x px, split_cfg cfg -> split_name x -> layout cfg x = Some px ->
  ordinary px -> reads cfg st x (Cell px).
Proof.
  intros cfg st x px Hp Vx Lx Rx. pose proof Rx as Rx'. unfold ordinary in Rx'.
  apply (reads_mem cfg st x x 0 px); [intros m Hm; apply parse_name; assumption|assumption|lia| |lia].
  rewrite Z.add_0_r. apply rd_ord; assumption.
Qed.

Lemma writes_ord : forall cfg st x px, split_cfg cfg -> split_name x -> layout cfg x = Some px ->
  ordinary px -> writes cfg st x px.
Proof.
  intros cfg st x px Hp Vx Lx Rx. pose proof Rx as Rx'. unfold ordinary in Rx'.
  apply (writes_mem cfg st x x 0 px); [apply parse_name; [assumption|reflexivity]|assumption|lia| |lia].
  rewrite Z.add_0_r. apply wr_ord; assumption.
Qed.

Definition rval (r : ireg) (s : mstate) : Z := match r with RegX => rX s | RegY => rY s end.

Lemma reads_idx : forall cfg st arr r pa n, split_cfg cfg -> split_name arr ->
  layout cfg arr = Some pa -> in_wport pa -> pa + n <= 4224 -> 0 <= rval r st < n ->
  reads cfg st (idx (rlo arr) r) (Cell (pa + rval r st)).
Proof.
  intros cfg st arr r pa n Hp Va La Ra Rn Ri. unfold in_wport in Ra.
  eexists. split; [intros m Hm; apply parse_sym_idx; [assumption..|lia]|].
  split; [cbn [srcv_ok]; lia|]. eexists.
  - intros m s Hm Hx Hy.
    assert (E : ixval (ix_of r) s = rval r st) by (destruct r; [exact Hx|exact Hy]).
    apply (exec_rd_eff cfg m _ s (pa + 128 + ixval (ix_of r) s)); [apply acc_rd_rd; exact Hm| |].
    + apply eff_addr_abs; [left; exact Hm|assumption|lia|rewrite E; lia|rewrite E; lia].
    + rewrite E. replace (pa + 128 + rval r st) with (pa + rval r st + 128) by lia.
      apply rd_port; [assumption|unfold in_wport; lia].
Qed.

Lemma writes_idx : forall cfg st arr r pa n, split_cfg cfg -> split_name arr ->
  layout cfg arr = Some pa -> in_wport pa -> pa + n <= 4224 -> 0 <= rval r st < n ->
  writes cfg st (idx (wlo arr) r) (pa + rval r st).
Proof.
  intros cfg st arr r pa n Hp Va La Ra Rn Ri. unfold in_wport in Ra.
  split; [lia|]. do 2 eexists. split.
  - apply parse_sym_idx; [assumption|reflexivity|lia].
  - intros s Hx Hy.
    assert (E : ixval (ix_of r) s = rval r st) by (destruct r; [exact Hx|exact Hy]).
    apply (exec_st_eff cfg STA _ s (pa + 0 + ixval (ix_of r) s)); [reflexivity| |].
    + apply eff_addr_abs; [right; reflexivity|assumption|lia|rewrite E; lia|rewrite E; lia].
    + rewrite E, Z.add_0_r. apply wr_port; [assumption|unfold in_wport; lia].
Qed.

(** the value of a split-port variable is its physical cell: that is what a load through the
    read port puts into A, and what a store through the write port sets *)
Corollary split_read_is_cell : forall cfg s v pv, split_cfg cfg -> layout cfg v = Some pv ->
  in_wport pv ->
  exists c, exec cfg LDA (OMem v 128 IxNone) s
            = XOk (set_nz (set_a s (mget (mem s) pv)) (mget (mem s) pv)) c FNext.
Proof.
  intros cfg s v pv Hp Hl Ha. pose proof Ha as Ha'. unfold in_wport in Ha'. eexists.
  apply (exec_rd_eff cfg LDA _ s (pv + 128)); [reflexivity| |apply rd_port; assumption].
  apply eff_addr_mem; [reflexivity|assumption|lia].
Qed.

Corollary split_write_sets_cell : forall cfg s v pv, split_cfg cfg -> layout cfg v = Some pv ->
  in_wport pv ->
  exists c, exec cfg STA (OMem v 0 IxNone) s = XOk (set_mem s (mset (mem s) pv (rA s))) c FNext.
Proof.
  intros cfg s v pv Hp Hl Ha. pose proof Ha as Ha'. unfold in_wport in Ha'. eexists.
  apply (exec_st_eff cfg STA _ s (pv + 0)); [reflexivity| |rewrite Z.add_0_r; apply wr_port; assumption].
  apply eff_addr_mem; [reflexivity|assumption|lia].
Qed.

(** [runs_to] is [halts_to] with the fuel bound *)
Lemma halts_of_runs : forall cfg c st (P : mstate -> Prop),
  (exists st', runs_to cfg c st st' /\ P st') -> exists st', halts_to cfg c st st' /\ P st'.
Proof.
  intros cfg c st P (st' & Hr & HP). exists st'. split; [apply runs_to_halts_to; exact Hr|exact HP].
Qed.

(** 16-bit shifts through the accumulator: a low cell [a] and a high cell [b]; the bit goes through C *)
Theorem lcs_shl16_correct : forall cfg tl tl' th th' a b st,
  reads cfg st tl (Cell a) -> writes cfg st tl' a -> reads cfg st th (Cell b) -> writes cfg st th' b ->
  a <> b -> bytes_ok st ->
  exists st', runs_to cfg (lcs tl [ins ASL ""] tl' ++ lcs th [ins ROL ""] th') st st' /\
    mget (mem st') a + 256 * mget (mem st') b
    = (2 * (mget (mem st) a + 256 * mget (mem st) b)) mod 65536 /\
    only_changes [a; b] st st' /\ keeps_xys st st'.
Proof.
  intros cfg tl tl' th th' a b st Hla Hla' Hhb Hhb' Hne (_ & _ & _ & _ & HM).
  acc_open Hla. acc_open Hla'. acc_open Hhb. acc_open Hhb'.
  eexists. split; [cbn [lcs]; run_tac|]. post_tac. mem_simp.
  split; [mem_ranges HM; arith_tac|frame_tac].
Qed.

(** [w >>= 1]: the high byte first *)
Theorem lcs_shr16_correct : forall cfg tl tl' th th' a b st,
  reads cfg st tl (Cell a) -> writes cfg st tl' a -> reads cfg st th (Cell b) -> writes cfg st th' b ->
  a <> b -> bytes_ok st ->
  exists st', runs_to cfg (lcs th [ins LSR ""] th' ++ lcs tl [ins ROR ""] tl') st st' /\
    mget (mem st') a + 256 * mget (mem st') b
    = (mget (mem st) a + 256 * mget (mem st) b) / 2 /\
    only_changes [a; b] st st' /\ keeps_xys st st'.
Proof.
  intros cfg tl tl' th th' a b st Hla Hla' Hhb Hhb' Hne (_ & _ & _ & _ & HM).
  acc_open Hla. acc_open Hla'. acc_open Hhb. acc_open Hhb'.
  eexists. split; [cbn [lcs]; run_tac|]. post_tac. mem_simp.
  split; [mem_ranges HM; arith_tac|frame_tac].
Qed.

(** * Why the templates exist: the ordinary lowering faults

    For an ordinary variable [v++] is [INC v] (Model/GenTemplates.v, [SInc8]).  On a split-port
    variable every read-modify-write instruction faults, through either port: the read cycle
    goes to the write window or the write cycle to the read window. *)

Theorem rmw_split_faults : forall cfg m v pv j s,
  split_cfg cfg -> is_rmw_m m = true -> layout cfg v = Some pv -> in_wport (pv + j) ->
  exec cfg m (OMem v j IxNone) s = XFault "read-modify-write on split-port memory" /\
  exec cfg m (OMem v (128 + j) IxNone) s = XFault "read-modify-write on split-port memory".
Proof.
  intros cfg m v pv j s Hp Hm Hl Ha.
  assert (Hr1 : 0 <= pv + j < 65536) by (unfold in_wport in Ha; lia).
  assert (Hr2 : 0 <= pv + (128 + j) < 65536) by (unfold in_wport in Ha; lia).
  pose proof (eff_addr_mem cfg m s v j pv (is_rmw_memop m Hm) Hl Hr1) as He1.
  pose proof (eff_addr_mem cfg m s v (128 + j) pv (is_rmw_memop m Hm) Hl Hr2) as He2.
  pose proof (rd_wport_faults cfg (pv + j) Hp Ha) as Hf1.
  assert (Hf2 : read_addr (ports cfg) (pv + (128 + j)) = Some (pv + j)).
  { replace (pv + (128 + j)) with (pv + j + 128) by lia. apply rd_port; assumption. }
  assert (Hf3 : write_addr (ports cfg) (pv + (128 + j)) = None).
  { replace (pv + (128 + j)) with (pv + j + 128) by lia. apply wr_rport_faults; assumption. }
  split; destruct m; try discriminate Hm; unfold exec.
  all: first [rewrite He1, Hf1; reflexivity | rewrite He2, Hf2, Hf3; reflexivity].
Qed.
Print Assumptions rmw_split_faults.

Theorem inc_split_faults : forall cfg v pv s,
  split_cfg cfg -> layout cfg v = Some pv -> in_wport pv ->
  exec cfg INC (OMem v 0 IxNone) s = XFault "read-modify-write on split-port memory".
Proof.
  intros cfg v pv s Hp Hl Ha.
  assert (Ha' : in_wport (pv + 0)) by (rewrite Z.add_0_r; exact Ha).
  exact (proj1 (rmw_split_faults cfg INC v pv 0 s Hp eq_refl Hl Ha')).
Qed.
Print Assumptions inc_split_faults.

(** on [Sem.run]: the template of [v++] for an ORDINARY variable, used on a split-port one,
    assembles but the run stops with a fault at its first (only) instruction *)
Theorem inc_split_run_faults : forall cfg v pv st prog inl_sem ext_call fname fuel,
  split_cfg cfg -> split_name v -> layout cfg v = Some pv -> in_wport pv ->
  exists sl, slines_of (template (SInc8 v)) = Some sl /\
    Sem.run cfg prog inl_sem ext_call (S fuel) fname sl 0 [] st [] 0%N
    = Faulted "read-modify-write on split-port memory" fname 0%nat st.
Proof.
  intros cfg v pv st prog inl_sem ext_call fname fuel Hp Vv Lv Rv.
  exists [SIns INC (OMem v 0 IxNone) false v]. split.
  - cbn [template]. eapply slines_ins; [apply parse_name; [exact Vv|reflexivity]|apply slines_nil].
  - rewrite run_S. cbn [nth_error]. rewrite (inc_split_faults cfg v pv st Hp Lv Rv). reflexivity.
Qed.
Print Assumptions inc_split_run_faults.

Theorem inc_split_never_runs : forall cfg v pv st,
  split_cfg cfg -> split_name v -> layout cfg v = Some pv -> in_wport pv ->
  ~ exists st', runs_to cfg (template (SInc8 v)) st st'.
Proof.
  intros cfg v pv st Hp Vv Lv Rv (st' & sl & Hs & Hrun).
  destruct (inc_split_run_faults cfg v pv st [] (fun _ _ => None) (fun _ _ => None) ""%string 1%nat
              Hp Vv Lv Rv) as (sl' & Hs' & Hf).
  rewrite Hs in Hs'. inversion Hs'; subst sl'.
  assert (Hlen : (length sl < 2)%nat) by (rewrite (slines_length _ _ Hs); cbn [template length]; lia).
  destruct (Hrun [] (fun _ _ => None) (fun _ _ => None) ""%string 2%nat Hlen) as (tr & cy & Hh).
  rewrite Hf in Hh. discriminate Hh.
Qed.
Print Assumptions inc_split_never_runs.

(** * The instances of the listing: the hypotheses are satisfiable

    A layout as the compiler assigns it: the superchip variables from $1000 up
    (c, d, s, t, p, arr[4]), the ordinary variable [a] at $80. *)
Definition cfg_split : config :=
  mkCfg (fun y =>
    if String.eqb y "a" then Some 128 else if String.eqb y "c" then Some 4096
    else if String.eqb y "d" then Some 4097 else if String.eqb y "s" then Some 4098
    else if String.eqb y "t" then Some 4100 else if String.eqb y "p" then Some 4102
    else if String.eqb y "arr" then Some 4104 else None) [(4096, 4224, 128)].

Lemma cfg_split_split : split_cfg cfg_split.
Proof. reflexivity. Qed.

Corollary slisting_inc8 : forall st,
  exists st', runs_to cfg_split (stemplate (PInc8 "c")) st st' /\
    mget (mem st') 4096 = (mget (mem st) 4096 + 1) mod 256 /\
    only_changes [4096] st st' /\ keeps_xys st st'.
Proof.
  intros st. destruct split_names_listing as (_ & Nc & _).
  apply (bin8_gen ADC eq_refl _ (Cell 4096) (Lit 1));
    [apply reads_lo|apply imm_r|apply writes_lo]; try reflexivity; try assumption; unfold in_wport; lia.
Qed.
Print Assumptions slisting_inc8.

Corollary slisting_inc16 : forall st, bytes_ok st ->
  exists st', runs_to cfg_split (stemplate (PInc16 "s")) st st' /\
    word (mem st') 4098 = (word (mem st) 4098 + 1) mod 65536 /\
    only_changes [4098; 4098 + 1] st st' /\ keeps_xys st st'.
Proof.
  intros st Hb. destruct split_names_listing as (_ & _ & _ & Ns & _).
  apply (arith16c_gen ADC (or_introl eq_refl) cfg_split (Cell 4098) 4098 (Cell (4098 + 1)) (4098 + 1) 1);
    [apply reads_lo|apply writes_lo|apply reads_hi|apply writes_hi|..];
    try reflexivity; try assumption; unfold in_wport; cbn [sfree]; lia.
Qed.
Print Assumptions slisting_inc16.

Corollary slisting_inc_idx : forall st, 0 <= rX st < 4 ->
  exists st', runs_to cfg_split (stemplate (PIncIdx "arr" RegX)) st st' /\
    mget (mem st') (4104 + rX st) = (mget (mem st) (4104 + rX st) + 1) mod 256 /\
    only_changes [4104 + rX st] st st' /\ keeps_xys st st'.
Proof.
  intros st Hx. destruct split_names_listing as (_ & _ & _ & _ & _ & _ & Na).
  apply (bin8_gen ADC eq_refl cfg_split (Cell (4104 + rval RegX st)) (Lit 1) (4104 + rval RegX st));
    [apply (reads_idx _ _ _ _ _ 4)|apply imm_r|apply (writes_idx _ _ _ _ _ 4)]; try reflexivity; try assumption;
    unfold in_wport; lia.
Qed.
Print Assumptions slisting_inc_idx.

(** plain computations with [Sem.run]: the cells of [s] (physical cells $1002, $1003), then
    X, Y, S; [None] when the run does not halt normally *)
Definition st_split (slo shi : Z) : mstate :=
  mkS 0 1 2 255 false false false false (mset (mset mem_empty 4098 slo) 4099 shi).

Definition run_split (c : code) (st : mstate) : option (Z * Z * Z * Z * Z) :=
  match slines_of c with
  | Some sl =>
      match Sem.run cfg_split [] (fun _ _ => None) (fun _ _ => None) 20 "f" sl 0 [] st [] 0%N with
      | Halt s' _ _ => Some (mget (mem s') 4098, mget (mem s') 4099, rX s', rY s', rS s')
      | _ => None
      end
  | None => None
  end.

Example run_split_inc16_carry :
  run_split (stemplate (PInc16 "s")) (st_split 255 0) = Some (0, 1, 1, 2, 255).
Proof. vm_compute. reflexivity. Qed.
Example run_split_inc16_wrap :
  run_split (stemplate (PInc16 "s")) (st_split 255 255) = Some (0, 0, 1, 2, 255).
Proof. vm_compute. reflexivity. Qed.
Example run_split_dec16_borrow :
  run_split (stemplate (PDec16 "s")) (st_split 0 1) = Some (255, 0, 1, 2, 255).
Proof. vm_compute. reflexivity. Qed.
Example run_split_addconst16 :
  run_split (stemplate (PAddConst16 "s" 300)) (st_split 212 0) = Some (0, 2, 1, 2, 255).
Proof. vm_compute. reflexivity. Qed.
Example run_split_shr16 :
  run_split (stemplate (PShr16_1 "s")) (st_split 1 1) = Some (128, 0, 1, 2, 255).
Proof. vm_compute. reflexivity. Qed.
(** the templates of ORDINARY variables do not run on [s]: [INC s] / [ASL s] fault *)
Example run_split_ordinary_inc16_faults :
  run_split (template (SInc16 "s" ".ifend1")) (st_split 255 0) = None.
Proof. vm_compute. reflexivity. Qed.
Example run_split_ordinary_shl16_faults :
  run_split (template (SShl16_1 "s")) (st_split 255 0) = None.
Proof. vm_compute. reflexivity. Qed.
