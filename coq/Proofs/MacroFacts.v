(** C08: macro replacement is token-exact ([Model/Cpp.v] against [Model/MacroSpec.v]). *)
From Coq Require Import String Ascii List Bool Arith NArith Lia.
From CC Require Import Base.Str Model.Cpp Model.MacroSpec Proofs.StrFacts.
Import ListNotations.
Open Scope list_scope.
Open Scope string_scope.

Lemma is_word_eqb_false : forall a b, is_word a = true -> is_word b = false -> Ascii.eqb a b = false.
Proof.
  intros a b Ha Hb. destruct (Ascii.eqb_spec a b) as [E|E]; [|reflexivity].
  subst b. congruence.
Qed.

Lemma all_word_app : forall a b, all_word (a ++ b) = all_word a && all_word b.
Proof.
  induction a as [|x a IH]; intros b; cbn [append all_word]; [reflexivity|].
  rewrite IH, andb_assoc. reflexivity.
Qed.

Lemma word_split : forall s, s = word_prefix s ++ word_suffix s.
Proof.
  induction s as [|a r IH]; [reflexivity|].
  cbn [word_prefix word_suffix]. destruct (is_word a); cbn [append]; [|reflexivity].
  rewrite <- IH. reflexivity.
Qed.

Lemma word_prefix_all : forall s, all_word (word_prefix s) = true.
Proof.
  induction s as [|a r IH]; [reflexivity|].
  cbn [word_prefix]. destruct (is_word a) eqn:E; cbn [all_word]; [|reflexivity].
  rewrite E, IH. reflexivity.
Qed.

Lemma word_suffix_boundary : forall s, boundary_after (word_suffix s) = true.
Proof.
  induction s as [|a r IH]; [reflexivity|].
  cbn [word_suffix]. destruct (is_word a) eqn:E; [exact IH|].
  cbn [boundary_after]. rewrite E. reflexivity.
Qed.

Lemma word_suffix_length : forall s, String.length (word_suffix s) <= String.length s.
Proof.
  induction s as [|a r IH]; [cbn; lia|].
  cbn [word_suffix]. destruct (is_word a); cbn [String.length] in *; lia.
Qed.

Lemma word_cut : forall w rest, all_word w = true -> boundary_after rest = true ->
  word_prefix (w ++ rest) = w /\ word_suffix (w ++ rest) = rest.
Proof.
  induction w as [|a w IH]; intros rest Hw Hr.
  - cbn [append]. destruct rest as [|c r]; [split; reflexivity|].
    cbn [boundary_after] in Hr. cbn [word_prefix word_suffix].
    destruct (is_word c); [discriminate | split; reflexivity].
  - apply andb_true_iff in Hw as [Ha Hw].
    destruct (IH rest Hw Hr) as [IHp IHs].
    cbn [append word_prefix word_suffix]. rewrite Ha, IHp. split; [reflexivity | exact IHs].
Qed.

Lemma word_prefix_app : forall w rest, all_word w = true -> boundary_after rest = true ->
  word_prefix (w ++ rest) = w.
Proof. intros w rest Hw Hr. apply (word_cut w rest Hw Hr). Qed.

Lemma word_suffix_app : forall w rest, all_word w = true -> boundary_after rest = true ->
  word_suffix (w ++ rest) = rest.
Proof. intros w rest Hw Hr. apply (word_cut w rest Hw Hr). Qed.

Lemma tokens_aux_fuel : forall f1 s f2,
  String.length s <= f1 -> String.length s <= f2 -> tokens_aux f1 s = tokens_aux f2 s.
Proof.
  induction f1 as [|f1 IH]; intros s f2 H1 H2.
  - destruct s; [|cbn in H1; lia]. destruct f2; reflexivity.
  - destruct s as [|a r]; [destruct f2; reflexivity|].
    destruct f2 as [|f2]; [cbn in H2; lia|].
    cbn [String.length] in H1, H2.
    cbn [tokens_aux]. destruct (is_word a) eqn:E.
    + f_equal. cbn [word_suffix]. rewrite E.
      pose proof (word_suffix_length r). apply IH; lia.
    + f_equal. apply IH; lia.
Qed.

Lemma tokens_nil : tokens "" = [].
Proof. reflexivity. Qed.

Lemma tokens_nonword : forall a r, is_word a = false ->
  tokens (String a r) = String a "" :: tokens r.
Proof.
  intros a r H. unfold tokens. cbn [String.length tokens_aux]. rewrite H. reflexivity.
Qed.

Lemma tokens_word : forall w rest, w <> "" -> all_word w = true -> boundary_after rest = true ->
  tokens (w ++ rest) = w :: tokens rest.
Proof.
  intros w rest Hne Hw Hr. destruct w as [|a w]; [congruence|].
  pose proof Hw as Hw'. apply andb_true_iff in Hw' as [Ha _].
  unfold tokens. rewrite length_app_s. cbn [String.length plus append tokens_aux].
  rewrite Ha.
  change (String a (w ++ rest)) with (String a w ++ rest).
  destruct (word_cut _ _ Hw Hr) as [-> ->].
  f_equal. apply tokens_aux_fuel; lia.
Qed.

(** every text is empty, or a non-word character followed by a text, or a maximal word
    followed by a text that does not continue it *)
Lemma tok_ind : forall P : string -> Prop,
  P "" ->
  (forall a r, is_word a = false -> P r -> P (String a r)) ->
  (forall w rest, w <> "" -> all_word w = true -> boundary_after rest = true ->
                  P rest -> P (w ++ rest)) ->
  forall s, P s.
Proof.
  intros P H0 H1 H2 s.
  induction s as [s IH] using (induction_ltof1 _ String.length). unfold ltof in IH.
  destruct s as [|a r]; [exact H0|].
  destruct (is_word a) eqn:E.
  - rewrite (word_split (String a r)).
    apply H2.
    + cbn [word_prefix]. rewrite E. discriminate.
    + apply word_prefix_all.
    + apply word_suffix_boundary.
    + apply IH. cbn [word_suffix String.length]. rewrite E.
      pose proof (word_suffix_length r). lia.
  - apply H1; [exact E|]. apply IH. cbn [String.length]. lia.
Qed.

Theorem tokens_concat : forall s, String.concat "" (tokens s) = s.
Proof.
  intros s. induction s as [| a r Ha IH | w rest Hne Hw Hr IH] using tok_ind.
  - reflexivity.
  - rewrite (tokens_nonword _ _ Ha), concat_cons, IH. reflexivity.
  - rewrite (tokens_word _ _ Hne Hw Hr), concat_cons, IH. reflexivity.
Qed.
Print Assumptions tokens_concat.

(** the test of [replace_word_aux] and the [last] of its first branch, named so that the two
    branches can be stated as equations ([rwa_hit], [rwa_miss]) *)
Definition rw_cond (name : string) (prev : option ascii) (s : string) : bool :=
  boundary_before prev && starts_with name s
  && boundary_after (string_drop (String.length name) s)
  && negb (Nat.eqb (String.length name) 0).

Definition rw_last (name : string) (prev : option ascii) : option ascii :=
  match rev_string name with String l _ => Some l | EmptyString => prev end.

Lemma rwa_hit : forall f name value prev s, s <> "" -> rw_cond name prev s = true ->
  replace_word_aux (S f) name value prev s =
  (value ++ fst (replace_word_aux f name value (rw_last name prev)
                                  (string_drop (String.length name) s)), true).
Proof.
  intros f name value prev s Hs Hc. destruct s as [|a r]; [congruence|].
  unfold rw_cond in Hc. cbn [replace_word_aux]. rewrite Hc.
  unfold rw_last.
  destruct (replace_word_aux f name value _ _) as [t c]. reflexivity.
Qed.

Lemma rwa_miss : forall f name value prev a r, rw_cond name prev (String a r) = false ->
  replace_word_aux (S f) name value prev (String a r) =
  (String a (fst (replace_word_aux f name value (Some a) r)),
   snd (replace_word_aux f name value (Some a) r)).
Proof.
  intros f name value prev a r Hc.
  unfold rw_cond in Hc. cbn [replace_word_aux]. rewrite Hc.
  destruct (replace_word_aux f name value _ _) as [t c]. reflexivity.
Qed.

Lemma match_whole : forall name w rest,
  all_word name = true -> all_word w = true -> boundary_after rest = true ->
  starts_with name (w ++ rest) = true ->
  boundary_after (string_drop (String.length name) (w ++ rest)) = true ->
  name = w.
Proof.
  intros name w rest Hn Hw Hr Hs Hb.
  rewrite <- (word_prefix_app w rest Hw Hr), (starts_with_decomp _ _ Hs).
  symmetry. exact (word_prefix_app name _ Hn Hb).
Qed.

Lemma rw_cond_word : forall name prev w rest, wordy name ->
  all_word w = true -> boundary_after rest = true -> boundary_before prev = true ->
  rw_cond name prev (w ++ rest) = String.eqb name w.
Proof.
  intros name prev w rest [Hne Hn] Hw Hr Hprev. unfold rw_cond. rewrite Hprev.
  destruct (String.eqb_spec name w) as [<-|E].
  - rewrite starts_with_app, drop_length_app, Hr. destruct name; [congruence | reflexivity].
  - destruct (starts_with name (w ++ rest)) eqn:Hs; [|reflexivity].
    destruct (boundary_after (string_drop (String.length name) (w ++ rest))) eqn:Hb; [|reflexivity].
    destruct (E (match_whole name w rest Hn Hw Hr Hs Hb)).
Qed.

(** the [prev] of [replace_word_aux] once it has copied [w], entered with [Some p] *)
Fixpoint last_char (p : ascii) (w : string) : ascii :=
  match w with
  | EmptyString => p
  | String a r => last_char a r
  end.

Lemma rw_inside : forall w name value p rest f,
  is_word p = true -> all_word w = true ->
  replace_word_aux (String.length w + f) name value (Some p) (w ++ rest) =
  (w ++ fst (replace_word_aux f name value (Some (last_char p w)) rest),
   snd (replace_word_aux f name value (Some (last_char p w)) rest)).
Proof.
  induction w as [|a w IH]; intros name value p rest f Hp Hw.
  - apply surjective_pairing.
  - apply andb_true_iff in Hw as [Ha Hw].
    cbn [String.length plus append last_char].
    rewrite rwa_miss.
    + rewrite (IH name value a rest f Ha Hw). reflexivity.
    + unfold rw_cond. cbn [boundary_before]. rewrite Hp. reflexivity.
Qed.

Definition sub1 (name value : string) (t : string) : string :=
  if String.eqb t name then value else t.

Lemma subst_tokens_tsubst : forall name value s,
  subst_tokens name value s = tsubst (sub1 name value) s.
Proof. reflexivity. Qed.

Lemma tsubst_nil : forall F, tsubst F "" = "".
Proof. reflexivity. Qed.

Lemma tsubst_nonword : forall F a r, is_word a = false ->
  tsubst F (String a r) = F (String a "") ++ tsubst F r.
Proof.
  intros F a r Ha. unfold tsubst. rewrite (tokens_nonword _ _ Ha).
  apply concat_cons.
Qed.

Lemma tsubst_word : forall F w rest, w <> "" -> all_word w = true -> boundary_after rest = true ->
  tsubst F (w ++ rest) = F w ++ tsubst F rest.
Proof.
  intros F w rest Hne Hw Hr. unfold tsubst. rewrite (tokens_word _ _ Hne Hw Hr).
  apply concat_cons.
Qed.

Lemma wordy_head : forall n, wordy n -> exists a r, n = String a r /\ is_word a = true /\ all_word r = true.
Proof.
  intros n [Hne Hw]. destruct n as [|a r]; [congruence|].
  apply andb_true_iff in Hw as [Ha Hr].
  exists a, r. auto.
Qed.

Lemma nonword_neq_wordy : forall a name, is_word a = false -> wordy name ->
  String.eqb (String a "") name = false /\ String.eqb name (String a "") = false.
Proof.
  intros a name Ha Hn. destruct (wordy_head _ Hn) as (n0 & n' & -> & Hn0 & _).
  assert (E : String a "" <> String n0 n') by (intros E; inversion E; subst; congruence).
  split; apply String.eqb_neq; congruence.
Qed.

(** the invariant: at a token start (either there is a boundary before, or the text does not
    start with a word character), with enough fuel, the scanner computes the token-wise
    substitution and reports whether the name is a token *)
Lemma rwa_spec : forall name value, wordy name ->
  forall s prev fuel,
    boundary_before prev = true \/ boundary_after s = true ->
    String.length s <= fuel ->
    replace_word_aux fuel name value prev s =
    (tsubst (sub1 name value) s, existsb (String.eqb name) (tokens s)).
Proof.
  intros name value Hname s.
  induction s as [| a r Ha IH | w rest Hne Hw Hr IH] using tok_ind; intros prev fuel Hb Hf.
  - destruct fuel; reflexivity.
  - destruct fuel as [|f]; [cbn in Hf; lia|]. cbn [String.length] in Hf.
    destruct (nonword_neq_wordy a name Ha Hname) as [E1 E2].
    rewrite rwa_miss.
    + rewrite (IH (Some a) f).
      * cbn [fst snd]. rewrite (tsubst_nonword _ _ _ Ha), (tokens_nonword _ _ Ha).
        cbn [existsb]. unfold sub1 at 2. rewrite E1, E2. reflexivity.
      * left. cbn [boundary_before]. rewrite Ha. reflexivity.
      * lia.
    + unfold rw_cond.
      destruct (wordy_head _ Hname) as (n0 & n' & -> & Hn0 & _).
      cbn [starts_with]. rewrite (is_word_eqb_false _ _ Hn0 Ha).
      rewrite andb_false_r. reflexivity.
  - destruct w as [|a w]; [congruence|].
    pose proof Hw as Hw'. apply andb_true_iff in Hw' as [Ha Hw'].
    assert (Hprev : boundary_before prev = true).
    { destruct Hb as [Hb|Hb]; [exact Hb|].
      cbn [append boundary_after] in Hb. rewrite Ha in Hb. discriminate. }
    rewrite length_app_s in Hf. cbn [String.length] in Hf.
    destruct fuel as [|f]; [lia|].
    pose proof (rw_cond_word name prev _ rest Hname Hw Hr Hprev) as Hc.
    rewrite (tsubst_word _ _ _ Hne Hw Hr), (tokens_word _ _ Hne Hw Hr).
    cbn [existsb]. unfold sub1 at 1. rewrite (String.eqb_sym (String a w) name).
    destruct (String.eqb name (String a w)) eqn:E.
    + apply String.eqb_eq in E. subst name.
      rewrite rwa_hit; [| cbn [append]; discriminate | exact Hc].
      rewrite drop_length_app, IH; [| right; exact Hr | lia]. reflexivity.
    + cbn [append] in Hc |- *. rewrite (rwa_miss _ _ _ _ _ _ Hc).
      replace f with (String.length w + (f - String.length w)) by lia.
      rewrite (rw_inside w name value a rest _ Ha Hw').
      rewrite IH; [| right; exact Hr | lia]. reflexivity.
Qed.

Lemma replace_word_spec : forall name value s, wordy name ->
  replace_word name value s = (subst_tokens name value s, existsb (String.eqb name) (tokens s)).
Proof.
  intros name value s Hname. unfold replace_word.
  apply (rwa_spec name value Hname s None); [left; reflexivity | lia].
Qed.

Theorem replace_word_token_exact : forall name value s, wordy name ->
  fst (replace_word name value s) = subst_tokens name value s.
Proof. intros name value s Hname. rewrite (replace_word_spec _ _ _ Hname). reflexivity. Qed.
Print Assumptions replace_word_token_exact.

Theorem replace_word_changed_iff : forall name value s, wordy name ->
  snd (replace_word name value s) = existsb (String.eqb name) (tokens s).
Proof. intros name value s Hname. rewrite (replace_word_spec _ _ _ Hname). reflexivity. Qed.
Print Assumptions replace_word_changed_iff.

Lemma undefine_cons : forall k v r n,
  undefine ((k, v) :: r) n = if String.eqb k n then r else (k, v) :: undefine r n.
Proof. reflexivity. Qed.

Lemma undefine_nil : forall n, undefine [] n = [].
Proof. reflexivity. Qed.

Lemma get_macro_cons : forall k v r n,
  get_macro ((k, v) :: r) n = if String.eqb k n then Some v else get_macro r n.
Proof. reflexivity. Qed.

Lemma get_macro_absent : forall ms n, ~ In n (map fst ms) -> get_macro ms n = None.
Proof.
  induction ms as [|[k v] r IH]; intros n Hn; [reflexivity|].
  rewrite get_macro_cons. cbn [map fst In] in Hn.
  destruct (String.eqb_spec k n) as [E|E]; [exfalso; auto|].
  apply IH. auto.
Qed.

Theorem undefine_exact : forall ms n m, NoDup (map fst ms) ->
  get_macro (undefine ms n) m = if String.eqb m n then None else get_macro ms m.
Proof.
  induction ms as [|[k v] r IH]; intros n m Hnd.
  - rewrite undefine_nil. destruct (String.eqb m n); reflexivity.
  - inversion Hnd as [|x l Hnotin Hnd' Heq]; subst x l.
    rewrite undefine_cons.
    destruct (String.eqb_spec k n) as [Ekn|Ekn].
    + subst k. destruct (String.eqb_spec m n) as [Emn|Emn].
      * subst m. apply get_macro_absent. exact Hnotin.
      * rewrite get_macro_cons.
        destruct (String.eqb_spec n m) as [E|E]; [congruence | reflexivity].
    + rewrite !get_macro_cons, (IH n m Hnd').
      destruct (String.eqb_spec k m) as [Ekm|Ekm]; [|reflexivity].
      subst m. destruct (String.eqb_spec k n) as [E|E]; [congruence | reflexivity].
Qed.
Print Assumptions undefine_exact.

Lemma undefine_absent : forall ms n, ~ In n (map fst ms) -> undefine ms n = ms.
Proof.
  induction ms as [|[k v] r IH]; intros n Hn; [reflexivity|].
  rewrite undefine_cons. cbn [map fst In] in Hn.
  destruct (String.eqb_spec k n) as [E|E]; [exfalso; auto|].
  rewrite IH; auto.
Qed.

Lemma boundary_after_app : forall rest y,
  boundary_after rest = true -> boundary_after y = true -> boundary_after (rest ++ y) = true.
Proof. intros [|c r] y Hr Hy; cbn [append]; [exact Hy | exact Hr]. Qed.

Lemma tokens_app : forall x y, boundary_after y = true -> tokens (x ++ y) = (tokens x ++ tokens y)%list.
Proof.
  intros x y Hy. induction x as [| a r Ha IH | w rest Hne Hw Hr IH] using tok_ind.
  - reflexivity.
  - cbn [append]. rewrite !(tokens_nonword _ _ Ha), IH. reflexivity.
  - rewrite app_assoc_s.
    rewrite (tokens_word w (rest ++ y) Hne Hw (boundary_after_app _ _ Hr Hy)).
    rewrite (tokens_word w rest Hne Hw Hr), IH. reflexivity.
Qed.

Definition keeps_nonword (F : string -> string) : Prop :=
  forall a, is_word a = false -> F (String a "") = String a "".

Lemma tsubst_boundary : forall F s, keeps_nonword F ->
  boundary_after s = true -> boundary_after (tsubst F s) = true.
Proof.
  intros F [|c r] HF Hs; [reflexivity|].
  apply negb_true_iff in Hs.
  rewrite (tsubst_nonword _ _ _ Hs), (HF c Hs). cbn [append boundary_after].
  rewrite Hs. reflexivity.
Qed.

Lemma tokens_single_nonword : forall a, is_word a = false -> tokens (String a "") = [String a ""].
Proof. intros a Ha. rewrite (tokens_nonword _ _ Ha). reflexivity. Qed.

Lemma tokens_single_word : forall w, w <> "" -> all_word w = true -> tokens w = [w].
Proof.
  intros w Hne Hw. rewrite <- (app_empty_r w) at 1.
  apply (tokens_word w "" Hne Hw). reflexivity.
Qed.

Lemma tokens_tsubst : forall F s, keeps_nonword F ->
  tokens (tsubst F s) = flat_map (fun t => tokens (F t)) (tokens s).
Proof.
  intros F s HF. induction s as [| a r Ha IH | w rest Hne Hw Hr IH] using tok_ind.
  - reflexivity.
  - rewrite (tsubst_nonword _ _ _ Ha), (tokens_nonword _ _ Ha), (HF a Ha).
    cbn [append flat_map]. rewrite (HF a Ha), (tokens_nonword _ _ Ha), IH.
    rewrite (tokens_single_nonword a Ha). reflexivity.
  - rewrite (tsubst_word _ _ _ Hne Hw Hr), (tokens_word _ _ Hne Hw Hr).
    rewrite (tokens_app _ _ (tsubst_boundary F rest HF Hr)), IH.
    reflexivity.
Qed.

Lemma token_tokens : forall s t, In t (tokens s) -> tokens t = [t].
Proof.
  intros s. induction s as [| a r Ha IH | w rest Hne Hw Hr IH] using tok_ind; intros t Hin.
  - contradiction.
  - rewrite (tokens_nonword _ _ Ha) in Hin. destruct Hin as [<-|Hin].
    + apply tokens_single_nonword. exact Ha.
    + apply IH. exact Hin.
  - rewrite (tokens_word _ _ Hne Hw Hr) in Hin. destruct Hin as [<-|Hin].
    + apply tokens_single_word; assumption.
    + apply IH. exact Hin.
Qed.

Lemma concat_flat_map : forall (h : string -> list string) l,
  String.concat "" (flat_map h l) = String.concat "" (map (fun t => String.concat "" (h t)) l).
Proof.
  intros h l. induction l as [|x l IH]; [reflexivity|].
  cbn [flat_map map]. rewrite concat_app, concat_cons, IH. reflexivity.
Qed.

Lemma map_flat_map_s : forall (G : string -> string) (h : string -> list string) l,
  map G (flat_map h l) = flat_map (fun t => map G (h t)) l.
Proof.
  intros G h l. induction l as [|x l IH]; [reflexivity|].
  cbn [flat_map]. rewrite map_app, IH. reflexivity.
Qed.

Lemma tsubst_tsubst : forall F G s, keeps_nonword F ->
  tsubst G (tsubst F s) = tsubst (fun t => tsubst G (F t)) s.
Proof.
  intros F G s HF. unfold tsubst at 1. rewrite (tokens_tsubst F s HF).
  rewrite map_flat_map_s, concat_flat_map. reflexivity.
Qed.

Lemma tsubst_ext_in : forall F G s, (forall t, In t (tokens s) -> F t = G t) ->
  tsubst F s = tsubst G s.
Proof. intros F G s H. unfold tsubst. rewrite (map_ext_in F G _ H). reflexivity. Qed.

Lemma tsubst_id : forall s, tsubst (fun t => t) s = s.
Proof. intros s. unfold tsubst. rewrite map_id. apply tokens_concat. Qed.

Lemma existsb_false_in : forall (A : Type) (f : A -> bool) l x,
  existsb f l = false -> In x l -> f x = false.
Proof.
  intros A f l x H Hin. destruct (f x) eqn:E; [|reflexivity].
  assert (existsb f l = true) by (apply existsb_exists; exists x; auto). congruence.
Qed.

Lemma existsb_flat_map_false : forall (A B : Type) (f : B -> bool) (h : A -> list B) l,
  (forall t, In t l -> existsb f (h t) = false) -> existsb f (flat_map h l) = false.
Proof.
  intros A B f h l. induction l as [|x l IH]; intros H; [reflexivity|].
  cbn [flat_map]. rewrite existsb_app, (H x (or_introl eq_refl)), IH; [reflexivity|].
  intros t Ht. apply H. right. exact Ht.
Qed.

Lemma sub1_keeps_nonword : forall name value, wordy name -> keeps_nonword (sub1 name value).
Proof.
  intros name value Hn a Ha. unfold sub1.
  destruct (nonword_neq_wordy a name Ha Hn) as [E _]. rewrite E. reflexivity.
Qed.

Lemma tsubst_sub1_absent : forall name value y,
  existsb (String.eqb name) (tokens y) = false -> tsubst (sub1 name value) y = y.
Proof.
  intros name value y H. rewrite <- (tsubst_id y) at 2. apply tsubst_ext_in.
  intros t Ht. unfold sub1. rewrite String.eqb_sym, (existsb_false_in _ _ _ _ H Ht). reflexivity.
Qed.

Lemma replace_word_absent : forall name value y, wordy name ->
  existsb (String.eqb name) (tokens y) = false -> replace_word name value y = (y, false).
Proof.
  intros name value y Hn H. rewrite (replace_word_spec _ _ _ Hn), H.
  rewrite subst_tokens_tsubst, (tsubst_sub1_absent _ _ _ H). reflexivity.
Qed.

Theorem replace_word_inside_identifier : forall name value pre post,
  wordy name -> wordy (pre ++ name ++ post) -> (pre <> "" \/ post <> "") ->
  replace_word name value (pre ++ name ++ post) = (pre ++ name ++ post, false).
Proof.
  intros name value pre post Hname [Hne Hw] Hlonger.
  apply (replace_word_absent _ _ _ Hname).
  rewrite (tokens_single_word _ Hne Hw). cbn [existsb]. rewrite orb_false_r.
  apply String.eqb_neq. intros E. apply (f_equal String.length) in E.
  rewrite !length_app_s in E.
  destruct Hlonger as [H|H]; [destruct pre | destruct post]; try congruence;
    cbn [String.length] in E; lia.
Qed.
Print Assumptions replace_word_inside_identifier.

(** * The rounds of [replace_all] and of the capped driver [replace_all_c]

    [replace_rounds_c] (what the line processor really calls) abandons the rounds as soon as a
    round has produced a text longer than 64 KiB.  It agrees with [replace_rounds] -- the function
    the theorems below are about -- whenever no round that would be followed by another one
    leaves the cap. *)

Lemma apply_all_cons : forall m r orig res ch,
  apply_all (m :: r) orig res ch =
  if macro_matches m orig
  then apply_all r orig (fst (apply_macro m res)) (ch || snd (apply_macro m res))
  else apply_all r orig res ch.
Proof.
  intros m r orig res ch. cbn [apply_all].
  destruct (macro_matches m orig); [|reflexivity].
  destruct (apply_macro m res) as [res' c]. reflexivity.
Qed.

Lemma replace_rounds_S : forall k ms orig res,
  replace_rounds (S k) ms orig res =
  if snd (apply_all ms orig res false)
  then replace_rounds k ms (fst (apply_all ms orig res false)) (fst (apply_all ms orig res false))
  else fst (apply_all ms orig res false).
Proof.
  intros k ms orig res. cbn [replace_rounds].
  destruct (apply_all ms orig res false) as [res' c]. reflexivity.
Qed.

Lemma replace_rounds_c_S : forall k ms orig res,
  replace_rounds_c (S k) ms orig res =
  if snd (apply_all ms orig res false)
  then (if within_cap (fst (apply_all ms orig res false))
        then replace_rounds_c k ms (fst (apply_all ms orig res false)) (fst (apply_all ms orig res false))
        else fst (apply_all ms orig res false))
  else fst (apply_all ms orig res false).
Proof.
  intros k ms orig res. cbn [replace_rounds_c].
  destruct (apply_all ms orig res false) as [res' c]. reflexivity.
Qed.

(** every text after which the uncapped driver goes on to another round is within the cap
    (defined by the recursion of [replace_rounds]) *)
Fixpoint rounds_within_cap (n : nat) (ms : list macro) (orig res : string) : Prop :=
  match n with
  | O => True
  | S k =>
      let '(res', c) := apply_all ms orig res false in
      if c then within_cap res' = true /\ rounds_within_cap k ms res' res' else True
  end.

(** the same as a boolean, for [vm_compute] on concrete tables ([if], not [&&]: [vm_compute] is
    call-by-value and must not run the rounds beyond the cap) *)
Fixpoint rounds_within_capb (n : nat) (ms : list macro) (orig res : string) : bool :=
  match n with
  | O => true
  | S k =>
      let '(res', c) := apply_all ms orig res false in
      if c then (if within_cap res' then rounds_within_capb k ms res' res' else false) else true
  end.

Lemma rounds_within_capb_spec : forall n ms orig res,
  rounds_within_capb n ms orig res = true -> rounds_within_cap n ms orig res.
Proof.
  induction n as [|k IH]; intros ms orig res Hb; cbn [rounds_within_capb rounds_within_cap] in *;
    [exact I|].
  destruct (apply_all ms orig res false) as [res' c]. destruct c; [|exact I].
  destruct (within_cap res'); [|discriminate Hb].
  split; [reflexivity | apply IH; exact Hb].
Qed.

Theorem replace_rounds_c_small : forall n ms orig res,
  rounds_within_cap n ms orig res ->
  replace_rounds_c n ms orig res = replace_rounds n ms orig res.
Proof.
  induction n as [|k IH]; intros ms orig res Hcap; [reflexivity|].
  cbn [rounds_within_cap replace_rounds_c replace_rounds] in *.
  destruct (apply_all ms orig res false) as [res' c]. destruct c; [|reflexivity].
  destruct Hcap as [Hcap Hrest]. rewrite Hcap. apply IH. exact Hrest.
Qed.
Print Assumptions replace_rounds_c_small.

Theorem replace_all_c_small : forall ms s,
  rounds_within_cap 64 ms s s -> replace_all_c ms s = replace_all ms s.
Proof. intros ms s Hcap. unfold replace_all_c, replace_all. apply replace_rounds_c_small. exact Hcap. Qed.
Print Assumptions replace_all_c_small.

(** ** sufficient conditions that need no length computation: the cap can only cut the rounds
    short after a round whose result would have been rewritten again; when a round ends on a text
    that no macro matches, both drivers stop there, whatever its length *)

(** a round leaves the text alone when every macro either does not match the text the round
    started on or finds nothing to replace *)
Lemma apply_all_idle : forall ms orig res c,
  (forall m, In m ms -> macro_matches m orig = false \/ apply_macro m res = (res, false)) ->
  apply_all ms orig res c = (res, c).
Proof.
  induction ms as [|m r IH]; intros orig res c H; [reflexivity|].
  assert (H' : forall m', In m' r ->
            macro_matches m' orig = false \/ apply_macro m' res = (res, false))
    by (intros m' Hin; apply H; right; exact Hin).
  rewrite apply_all_cons.
  destruct (H m (or_introl eq_refl)) as [E|E]; rewrite E; [exact (IH _ _ _ H')|].
  rewrite orb_false_r. destruct (macro_matches m orig); exact (IH _ _ _ H').
Qed.

Lemma apply_all_no_match : forall ms orig res c,
  (forall m, In m ms -> macro_matches m orig = false) ->
  apply_all ms orig res c = (res, c).
Proof. intros ms orig res c Hno. apply apply_all_idle. intros m Hin. left. exact (Hno m Hin). Qed.

Lemma rounds_idle : forall k ms orig res, apply_all ms orig res false = (res, false) ->
  replace_rounds_c k ms orig res = res /\ replace_rounds k ms orig res = res.
Proof.
  intros [|k] ms orig res E; [split; reflexivity|].
  rewrite replace_rounds_c_S, replace_rounds_S, E. split; reflexivity.
Qed.

Lemma replace_rounds_c_no_match : forall k ms s,
  (forall m, In m ms -> macro_matches m s = false) -> replace_rounds_c k ms s s = s.
Proof. intros k ms s Hno. apply rounds_idle, apply_all_no_match, Hno. Qed.

Lemma replace_rounds_no_match : forall k ms s,
  (forall m, In m ms -> macro_matches m s = false) -> replace_rounds k ms s s = s.
Proof. intros k ms s Hno. apply rounds_idle, apply_all_no_match, Hno. Qed.

Theorem replace_all_c_no_change : forall ms s,
  (forall m, In m ms -> macro_matches m s = false) -> replace_all_c ms s = s.
Proof. intros ms s Hno. apply replace_rounds_c_no_match. exact Hno. Qed.
Print Assumptions replace_all_c_no_change.

(** the first round ends on a text [r] that no macro matches: the result is [r], and it is also
    the result of the uncapped driver -- NO hypothesis on the length of [r] is needed *)
Theorem replace_all_c_one_round : forall ms s r,
  fst (apply_all ms s s false) = r ->
  (forall m, In m ms -> macro_matches m r = false) ->
  replace_all_c ms s = r /\ replace_all ms s = r.
Proof.
  intros ms s r Hr Hno. unfold replace_all_c, replace_all.
  rewrite (replace_rounds_c_S 63), (replace_rounds_S 63), Hr.
  destruct (rounds_idle 63 ms r r (apply_all_no_match ms r r false Hno)) as [-> ->].
  destruct (snd (apply_all ms s s false)); [destruct (within_cap r)|]; split; reflexivity.
Qed.
Print Assumptions replace_all_c_one_round.

Definition mk_obj (nv : string * string) : macro := (fst nv, MObj (snd nv)).

Definition names_wordy (ms : list (string * string)) : Prop :=
  forall n v, In (n, v) ms -> wordy n.

Definition values_closed (ms : list (string * string)) : Prop :=
  forall n v m, In (n, v) ms -> In m (map fst ms) -> existsb (String.eqb m) (tokens v) = false.

Lemma find_name_none : forall (ms : list (string * string)) t,
  ~ In t (map fst ms) -> find (fun nv => String.eqb (fst nv) t) ms = None.
Proof.
  induction ms as [|[n v] ms IH]; intros t Hn; [reflexivity|].
  cbn [find fst]. cbn [map fst In] in Hn.
  destruct (String.eqb_spec n t) as [E|E]; [exfalso; auto|]. apply IH. auto.
Qed.

Lemma find_name_some : forall (ms : list (string * string)) n v,
  NoDup (map fst ms) -> In (n, v) ms -> find (fun nv => String.eqb (fst nv) n) ms = Some (n, v).
Proof.
  induction ms as [|[n0 v0] ms IH]; intros n v Hnd Hin; [contradiction|].
  inversion Hnd as [|x l Hnotin Hnd' Heq]; subst x l.
  cbn [find fst]. destruct Hin as [E|Hin].
  - inversion E; subst. rewrite String.eqb_refl. reflexivity.
  - destruct (String.eqb_spec n0 n) as [E|E].
    + subst n0. exfalso. exact (Hnotin (in_map fst _ _ Hin)).
    + apply IH; assumption.
Qed.

Lemma find_name_in : forall (ms : list (string * string)) t nv,
  find (fun x => String.eqb (fst x) t) ms = Some nv -> In nv ms /\ fst nv = t.
Proof.
  intros ms t nv H. apply find_some in H as [Hin Heq]. apply String.eqb_eq in Heq. auto.
Qed.

Lemma tsubst_token : forall F s t, In t (tokens s) -> tsubst F t = F t.
Proof.
  intros F s t Ht. unfold tsubst. rewrite (token_tokens s t Ht). cbn [map].
  rewrite concat_cons. apply app_empty_r.
Qed.

Lemma nonword_not_name : forall ms, names_wordy ms ->
  forall a, is_word a = false -> ~ In (String a "") (map fst ms).
Proof.
  intros ms Hw a Ha Hin. apply in_map_iff in Hin as [[n v] [Hfst Hin]]. cbn [fst] in Hfst. subst n.
  destruct (Hw _ _ Hin) as [_ Hall]. cbn [all_word] in Hall. rewrite Ha in Hall. discriminate.
Qed.

Lemma apply_macro_obj : forall nv s, apply_macro (mk_obj nv) s = replace_word (fst nv) (snd nv) s.
Proof. reflexivity. Qed.

Lemma macro_matches_obj : forall nv s, wordy (fst nv) ->
  macro_matches (mk_obj nv) s = existsb (String.eqb (fst nv)) (tokens s).
Proof.
  intros nv s Hn. unfold macro_matches. rewrite apply_macro_obj.
  apply replace_word_changed_iff. exact Hn.
Qed.

Lemma subst_many_snoc : forall ms1 nv t,
  subst_many (ms1 ++ [nv]) t =
  match find (fun x => String.eqb (fst x) t) ms1 with
  | Some x => snd x
  | None => if String.eqb (fst nv) t then snd nv else t
  end.
Proof.
  intros ms1 nv t. unfold subst_many. induction ms1 as [|x ms1 IH].
  - cbn [app find]. destruct (String.eqb (fst nv) t); reflexivity.
  - cbn [app find]. destruct (String.eqb (fst x) t); [reflexivity | exact IH].
Qed.

Lemma subst_many_keeps_nonword : forall ms, names_wordy ms -> keeps_nonword (subst_many ms).
Proof.
  intros ms Hms a Ha. unfold subst_many.
  rewrite (find_name_none ms _ (nonword_not_name ms Hms a Ha)). reflexivity.
Qed.

(** one step of [apply_all]: after the macros [ms1] the result is the simultaneous substitution
    of [ms1]; applying (or skipping) [nv] gives the simultaneous substitution of [ms1 ++ [nv]] *)
Lemma apply_step : forall ms1 n v s,
  names_wordy ms1 -> wordy n ->
  (forall n' v', In (n', v') ms1 -> existsb (String.eqb n) (tokens v') = false) ->
  (if macro_matches (mk_obj (n, v)) s
   then fst (apply_macro (mk_obj (n, v)) (tsubst (subst_many ms1) s))
   else tsubst (subst_many ms1) s)
  = tsubst (subst_many (ms1 ++ [(n, v)])) s.
Proof.
  intros ms1 n v s Hw1 Hn Hc.
  rewrite (macro_matches_obj (n, v) s Hn), apply_macro_obj. cbn [fst snd].
  destruct (existsb (String.eqb n) (tokens s)) eqn:Em.
  - rewrite (replace_word_token_exact _ _ _ Hn), subst_tokens_tsubst.
    rewrite (tsubst_tsubst _ _ _ (subst_many_keeps_nonword ms1 Hw1)).
    apply tsubst_ext_in. intros t Ht. rewrite subst_many_snoc. unfold subst_many.
    destruct (find _ ms1) as [[n' v']|] eqn:E.
    + apply tsubst_sub1_absent.
      apply find_some in E as [Hin _]. exact (Hc n' v' Hin).
    + rewrite (tsubst_token _ s t Ht). unfold sub1. rewrite String.eqb_sym. reflexivity.
  - apply tsubst_ext_in. intros t Ht. rewrite subst_many_snoc. unfold subst_many. cbn [fst snd].
    destruct (find _ ms1) as [x|]; [reflexivity|].
    rewrite (existsb_false_in _ _ _ _ Em Ht). reflexivity.
Qed.

Lemma closed_incl : forall ms ms', incl ms' ms ->
  (names_wordy ms -> names_wordy ms') /\ (values_closed ms -> values_closed ms').
Proof.
  intros ms ms' Hincl. split.
  - intros H n v Hin. exact (H n v (Hincl _ Hin)).
  - intros H n v m Hin Hm. exact (H n v m (Hincl _ Hin) (incl_map fst Hincl _ Hm)).
Qed.

Lemma names_wordy_assoc : forall ms1 nv ms2,
  names_wordy (ms1 ++ nv :: ms2) -> names_wordy (ms1 ++ [nv]).
Proof.
  intros ms1 nv ms2. apply closed_incl.
  apply incl_app; [apply incl_appl, incl_refl | intros x [<-|[]]; apply in_elt].
Qed.

Lemma values_closed_assoc : forall ms1 nv ms2,
  values_closed (ms1 ++ nv :: ms2) -> values_closed (ms1 ++ [nv]).
Proof.
  intros ms1 nv ms2. apply closed_incl.
  apply incl_app; [apply incl_appl, incl_refl | intros x [<-|[]]; apply in_elt].
Qed.

Lemma apply_all_fst : forall ms2 ms1 s c,
  names_wordy (ms1 ++ ms2) -> values_closed (ms1 ++ ms2) ->
  fst (apply_all (map mk_obj ms2) s (tsubst (subst_many ms1) s) c) =
  tsubst (subst_many (ms1 ++ ms2)) s.
Proof.
  induction ms2 as [|[n v] ms2 IH]; intros ms1 s c Hw Hc.
  - rewrite app_nil_r. reflexivity.
  - cbn [map]. rewrite apply_all_cons.
    pose proof (in_elt (n, v) ms1 ms2) as Hin.
    pose proof (apply_step ms1 n v s
      (proj1 (closed_incl _ ms1 (incl_appl _ (incl_refl _))) Hw)
      (Hw n v Hin)
      (fun n' v' H => Hc n' v' n (in_or_app _ _ _ (or_introl H)) (in_map fst _ _ Hin))) as Hstep.
    assert (Eapp : (ms1 ++ (n, v) :: ms2 = (ms1 ++ [(n, v)]) ++ ms2)%list)
      by (rewrite <- app_assoc; reflexivity).
    rewrite Eapp in *.
    destruct (macro_matches (mk_obj (n, v)) s); rewrite Hstep; apply IH; assumption.
Qed.

Lemma apply_all_stable : forall ms orig res c,
  names_wordy ms ->
  (forall nv, In nv ms -> existsb (String.eqb (fst nv)) (tokens res) = false) ->
  apply_all (map mk_obj ms) orig res c = (res, c).
Proof.
  intros ms orig res c Hw Hfree. apply apply_all_idle. intros m Hin. right.
  apply in_map_iff in Hin as [[n v] [<- Hin]]. rewrite apply_macro_obj.
  exact (replace_word_absent n v res (Hw n v Hin) (Hfree (n, v) Hin)).
Qed.

Lemma replace_rounds_stable : forall k ms orig res,
  names_wordy ms ->
  (forall nv, In nv ms -> existsb (String.eqb (fst nv)) (tokens res) = false) ->
  replace_rounds k (map mk_obj ms) orig res = res.
Proof.
  intros k ms orig res Hw Hfree. apply rounds_idle, apply_all_stable; assumption.
Qed.

Lemma subst_many_closed : forall ms s nv, names_wordy ms -> values_closed ms -> In nv ms ->
  existsb (String.eqb (fst nv)) (tokens (tsubst (subst_many ms) s)) = false.
Proof.
  intros ms s nv Hw Hc Hin.
  rewrite (tokens_tsubst _ s (subst_many_keeps_nonword ms Hw)).
  apply existsb_flat_map_false. intros t Ht. unfold subst_many.
  destruct (find _ ms) as [[n' v']|] eqn:E.
  - apply find_some in E as [Hin' _].
    apply (Hc n' v' (fst nv) Hin'). apply in_map. exact Hin.
  - rewrite (token_tokens s t Ht). cbn [existsb]. rewrite orb_false_r.
    apply (find_none _ _ E nv Hin).
Qed.

(** one round, so the cap never matters *)
Lemma replace_all_obj_both : forall ms s, names_wordy ms -> values_closed ms ->
  replace_all_c (map mk_obj ms) s = tsubst (subst_many ms) s /\
  replace_all (map mk_obj ms) s = tsubst (subst_many ms) s.
Proof.
  intros ms s Hw Hc.
  pose proof (apply_all_fst ms [] s false Hw Hc) as H1.
  change (tsubst (subst_many []) s) with (tsubst (fun t => t) s) in H1.
  rewrite tsubst_id in H1.
  apply (replace_all_c_one_round (map mk_obj ms) s _ H1).
  intros m Hin. apply in_map_iff in Hin as [[n v] [<- Hin]].
  rewrite (macro_matches_obj (n, v) _ (Hw n v Hin)).
  apply subst_many_closed; assumption.
Qed.

Lemma replace_all_obj : forall ms s, names_wordy ms -> values_closed ms ->
  replace_all (map mk_obj ms) s = tsubst (subst_many ms) s.
Proof. intros ms s Hw Hc. apply (replace_all_obj_both ms s Hw Hc). Qed.

Lemma replace_all_c_obj : forall ms s, names_wordy ms -> values_closed ms ->
  replace_all_c (map mk_obj ms) s = tsubst (subst_many ms) s.
Proof. intros ms s Hw Hc. apply (replace_all_obj_both ms s Hw Hc). Qed.

Theorem replace_all_independent : forall (ms : list (string * string)) s,
  NoDup (map fst ms) -> (forall n v, In (n, v) ms -> wordy n) ->
  (forall n v m, In (n, v) ms -> In m (map fst ms) -> existsb (String.eqb m) (tokens v) = false) ->
  replace_all (map (fun nv => (fst nv, MObj (snd nv))) ms) s =
  String.concat "" (map (fun t => match find (fun nv => String.eqb (fst nv) t) ms with
                                  | Some nv => snd nv | None => t end) (tokens s)).
Proof.
  intros ms s _ Hw Hc. exact (replace_all_obj ms s Hw Hc).
Qed.
Print Assumptions replace_all_independent.

Theorem replace_all_c_independent : forall (ms : list (string * string)) s,
  NoDup (map fst ms) -> (forall n v, In (n, v) ms -> wordy n) ->
  (forall n v m, In (n, v) ms -> In m (map fst ms) -> existsb (String.eqb m) (tokens v) = false) ->
  replace_all_c (map (fun nv => (fst nv, MObj (snd nv))) ms) s =
  String.concat "" (map (fun t => match find (fun nv => String.eqb (fst nv) t) ms with
                                  | Some nv => snd nv | None => t end) (tokens s)).
Proof.
  intros ms s _ Hw Hc. exact (replace_all_c_obj ms s Hw Hc).
Qed.
Print Assumptions replace_all_c_independent.

Lemma single_closed : forall name value, wordy name ->
  existsb (String.eqb name) (tokens value) = false ->
  names_wordy [(name, value)] /\ values_closed [(name, value)].
Proof.
  intros name value Hn Hv. split.
  - intros n v [E|[]]. inversion E; subst. exact Hn.
  - intros n v m [E|[]] [Em|[]]. inversion E; subst. exact Hv.
Qed.

Theorem replace_all_single : forall name value s, wordy name ->
  existsb (String.eqb name) (tokens value) = false ->
  replace_all [(name, MObj value)] s = subst_tokens name value s.
Proof.
  intros name value s Hn Hv. destruct (single_closed name value Hn Hv) as [Hw Hc].
  change [(name, MObj value)] with (map mk_obj [(name, value)]).
  rewrite (replace_all_obj _ s Hw Hc), subst_tokens_tsubst.
  apply tsubst_ext_in. intros t _.
  unfold subst_many, sub1. cbn [find fst snd]. rewrite String.eqb_sym.
  destruct (String.eqb t name); reflexivity.
Qed.
Print Assumptions replace_all_single.

Theorem replace_all_c_single : forall name value s, wordy name ->
  existsb (String.eqb name) (tokens value) = false ->
  replace_all_c [(name, MObj value)] s = subst_tokens name value s.
Proof.
  intros name value s Hn Hv. destruct (single_closed name value Hn Hv) as [Hw Hc].
  rewrite <- (replace_all_single name value s Hn Hv).
  destruct (replace_all_obj_both [(name, value)] s Hw Hc) as [E1 E2].
  exact (eq_trans E1 (eq_sym E2)).
Qed.
Print Assumptions replace_all_c_single.

(** * [replace_all] with CHAINS of object-like macros

    Every round computes its match set on the text as it stands at the beginning of the round,
    so a macro name brought in by a replacement is expanded in a later round.  For an acyclic
    set of object-like macros (a rank strictly decreases from a macro to the macro names its
    value mentions) of depth below the 64-round cap, [replace_all] is the full recursive token
    substitution [tsubst (expand_tok 64 ms)]. *)

(** the change flag: once set it stays set, and a round that starts on [orig] reports a change
    as soon as one macro matches *)
Lemma apply_all_snd_true : forall ms orig res,
  snd (apply_all ms orig res true) = true.
Proof.
  induction ms as [|m r IH]; intros orig res; [reflexivity|].
  rewrite apply_all_cons. destruct (macro_matches m orig); [|apply IH].
  apply IH.
Qed.

Lemma apply_all_unchanged : forall ms orig,
  snd (apply_all ms orig orig false) = false ->
  forall m, In m ms -> macro_matches m orig = false.
Proof.
  induction ms as [|m0 r IH]; intros orig Hs m Hin; [contradiction|].
  rewrite apply_all_cons in Hs.
  destruct (macro_matches m0 orig) eqn:Em.
  - exfalso. unfold macro_matches in Em. rewrite Em in Hs.
    rewrite apply_all_snd_true in Hs. discriminate.
  - destruct Hin as [<-|Hin]; [exact Em | exact (IH orig Hs m Hin)].
Qed.

Lemma expand_tok_S : forall f ms t,
  expand_tok (S f) ms t =
  match find (fun nv => String.eqb (fst nv) t) ms with
  | Some nv => tsubst (expand_tok f ms) (snd nv)
  | None => t
  end.
Proof. reflexivity. Qed.

Lemma expand_tok_nonname : forall f ms t, ~ In t (map fst ms) -> expand_tok f ms t = t.
Proof.
  intros [|f] ms t Hn; [reflexivity|]. rewrite expand_tok_S, (find_name_none ms t Hn). reflexivity.
Qed.

Section Chain.
  Variable ms : list (string * string).
  Variable rank : string -> nat.
  Hypothesis Hnd : NoDup (map fst ms).
  Hypothesis Hw : names_wordy ms.
  Hypothesis Hrank : forall n v t,
    In (n, v) ms -> In t (tokens v) -> In t (map fst ms) -> rank t < rank n.

  Lemma expand_tok_fuel : forall f t, (In t (map fst ms) -> rank t < f) ->
    forall g, f <= g -> expand_tok g ms t = expand_tok f ms t.
  Proof.
    induction f as [|f IH]; intros t Ht g Hg.
    - assert (Hn : ~ In t (map fst ms)) by (intros H; specialize (Ht H); lia).
      rewrite !(expand_tok_nonname _ _ _ Hn). reflexivity.
    - destruct g as [|g]; [lia|]. rewrite !expand_tok_S.
      destruct (find _ ms) as [[n v]|] eqn:E; [|reflexivity].
      apply find_name_in in E as [Hin Hn]. cbn [fst] in Hn. subst n.
      apply tsubst_ext_in. intros t' Ht'. apply IH; [|lia].
      intros Hname. pose proof (Hrank t v t' Hin Ht' Hname) as H1.
      pose proof (Ht (in_map fst _ _ Hin)) as H2.
      lia.
  Qed.

  Variable b : nat.
  Hypothesis Hb : forall n, In n (map fst ms) -> rank n < b.

  Definition chain_E : string -> string := expand_tok b ms.

  Lemma chain_E_name : forall n v, In (n, v) ms -> chain_E n = tsubst chain_E v.
  Proof.
    intros n v Hin. unfold chain_E.
    pose proof (Hb n (in_map fst _ _ Hin)) as Hlt.
    destruct b as [|b']; [lia|].
    rewrite expand_tok_S at 1. rewrite (find_name_some ms n v Hnd Hin).
    apply tsubst_ext_in. intros t Ht. symmetry. apply expand_tok_fuel; [|lia].
    intros Htn. pose proof (Hrank n v t Hin Ht Htn). lia.
  Qed.

  Lemma chain_E_other : forall t, ~ In t (map fst ms) -> chain_E t = t.
  Proof. intros t Hn. apply expand_tok_nonname. exact Hn. Qed.

  Lemma chain_E_keeps_nonword : keeps_nonword chain_E.
  Proof. intros a Ha. apply chain_E_other, (nonword_not_name ms Hw). exact Ha. Qed.

  Lemma chain_E_step : forall n v x, In (n, v) ms ->
    tsubst chain_E (fst (replace_word n v x)) = tsubst chain_E x.
  Proof.
    intros n v x Hin. pose proof (Hw n v Hin) as Hn.
    rewrite (replace_word_token_exact _ _ _ Hn), subst_tokens_tsubst.
    rewrite (tsubst_tsubst _ _ _ (sub1_keeps_nonword n v Hn)).
    apply tsubst_ext_in. intros t Ht. unfold sub1.
    destruct (String.eqb_spec t n) as [E|E].
    - subst t. symmetry. apply chain_E_name. exact Hin.
    - apply (tsubst_token chain_E x t Ht).
  Qed.

  Lemma apply_all_chain_E : forall ms2, incl ms2 ms -> forall orig res c,
    tsubst chain_E (fst (apply_all (map mk_obj ms2) orig res c)) = tsubst chain_E res.
  Proof.
    induction ms2 as [|[n v] ms2 IH]; intros Hincl orig res c; [reflexivity|].
    assert (Hincl' : incl ms2 ms) by (intros x Hx; apply Hincl; right; exact Hx).
    cbn [map]. rewrite apply_all_cons.
    destruct (macro_matches (mk_obj (n, v)) orig); rewrite (IH Hincl'); [|reflexivity].
    rewrite apply_macro_obj. apply chain_E_step. apply Hincl. left. reflexivity.
  Qed.

  Definition below (k : nat) (s : string) : Prop :=
    forall t, In t (tokens s) -> In t (map fst ms) -> rank t < k.

  Lemma below_0_closed : forall s, below 0 s -> tsubst chain_E s = s.
  Proof.
    intros s H0. rewrite <- (tsubst_id s) at 2. apply tsubst_ext_in. intros t Ht.
    apply chain_E_other. intros Hname. specialize (H0 t Ht Hname). lia.
  Qed.

  (** one round lowers the largest rank present: a macro of the match set is removed for good
      (what its value brings in has lower rank), the others were absent at the start *)
  Lemma apply_all_below : forall ms2, incl ms2 ms -> forall orig res c k,
    below (S k) orig ->
    (forall t, In t (tokens res) -> In t (map fst ms) ->
               rank t < k \/ (In t (tokens orig) /\ In t (map fst ms2))) ->
    below k (fst (apply_all (map mk_obj ms2) orig res c)).
  Proof.
    induction ms2 as [|[n v] ms2 IH]; intros Hincl orig res c k Horig Hinv.
    - intros t Ht Hname. destruct (Hinv t Ht Hname) as [H|[_ []]]. exact H.
    - assert (Hincl' : incl ms2 ms) by (intros x Hx; apply Hincl; right; exact Hx).
      assert (Hin : In (n, v) ms) by (apply Hincl; left; reflexivity).
      pose proof (Hw n v Hin) as Hn.
      cbn [map]. rewrite apply_all_cons, (macro_matches_obj (n, v) orig Hn). cbn [fst].
      destruct (existsb (String.eqb n) (tokens orig)) eqn:Em.
      + apply existsb_eqb_In in Em.
        pose proof (Horig n Em (in_map fst _ _ Hin)) as Hrn.
        apply (IH Hincl'); [exact Horig|].
        rewrite apply_macro_obj. cbn [fst snd].
        rewrite (replace_word_token_exact _ _ _ Hn), subst_tokens_tsubst.
        rewrite (tokens_tsubst _ res (sub1_keeps_nonword n v Hn)).
        intros t Ht Hname. apply in_flat_map in Ht as [t0 [Ht0 Ht]]. unfold sub1 in Ht.
        destruct (String.eqb_spec t0 n) as [E|E].
        * left. pose proof (Hrank n v t Hin Ht Hname). lia.
        * rewrite (token_tokens res t0 Ht0) in Ht. destruct Ht as [<-|[]].
          destruct (Hinv t0 Ht0 Hname) as [H|[H1 H2]]; [left; exact H|].
          cbn [map fst In] in H2. destruct H2 as [H2|H2]; [congruence|]. right. auto.
      + apply (IH Hincl'); [exact Horig|].
        intros t Ht Hname. destruct (Hinv t Ht Hname) as [H|[H1 H2]]; [left; exact H|].
        cbn [map fst In] in H2. destruct H2 as [H2|H2]; [|right; auto].
        subst t. apply existsb_eqb_In in H1. congruence.
  Qed.

  Lemma round_below : forall s k, below (S k) s ->
    below k (fst (apply_all (map mk_obj ms) s s false)).
  Proof.
    intros s k Hs. apply apply_all_below; [apply incl_refl | exact Hs |].
    intros t Ht Hname. right. auto.
  Qed.

  Lemma round_unchanged : forall s, snd (apply_all (map mk_obj ms) s s false) = false ->
    fst (apply_all (map mk_obj ms) s s false) = s /\ below 0 s.
  Proof.
    intros s Hs. pose proof (apply_all_unchanged _ _ Hs) as Hno. split.
    - rewrite (apply_all_no_match _ s s false Hno). reflexivity.
    - intros t Ht Hname. apply in_map_iff in Hname as [[n v] [<- Hin]]. cbn [fst] in *.
      specialize (Hno _ (in_map mk_obj _ _ Hin)).
      rewrite (macro_matches_obj (n, v) s (Hw n v Hin)) in Hno.
      apply existsb_eqb_In in Ht. cbn [fst] in Hno. congruence.
  Qed.

  Lemma replace_rounds_chain : forall k s, below k s ->
    replace_rounds k (map mk_obj ms) s s = tsubst chain_E s.
  Proof.
    induction k as [|k IH]; intros s Hs.
    - symmetry. apply below_0_closed. exact Hs.
    - rewrite replace_rounds_S.
      destruct (snd (apply_all (map mk_obj ms) s s false)) eqn:Ec.
      + rewrite (IH _ (round_below s k Hs)). apply apply_all_chain_E. apply incl_refl.
      + destruct (round_unchanged s Ec) as [E H0]. rewrite E. symmetry.
        apply below_0_closed. exact H0.
  Qed.

  Lemma expand_tok_closed : forall f t, tokens t = [t] -> (In t (map fst ms) -> rank t < f) ->
    forall t', In t' (tokens (expand_tok f ms t)) -> ~ In t' (map fst ms).
  Proof.
    induction f as [|f IH]; intros t Htok Ht t' Ht'.
    - cbn [expand_tok] in Ht'. rewrite Htok in Ht'. destruct Ht' as [<-|[]].
      intros H. specialize (Ht H). lia.
    - rewrite expand_tok_S in Ht'. destruct (find _ ms) as [[n v]|] eqn:E.
      + apply find_name_in in E as [Hin Hn]. cbn [fst] in Hn. subst n. cbn [snd] in Ht'.
        assert (Hk : keeps_nonword (expand_tok f ms))
          by (intros a Ha; apply expand_tok_nonname, (nonword_not_name ms Hw); exact Ha).
        rewrite (tokens_tsubst _ v Hk) in Ht'. apply in_flat_map in Ht' as [t0 [Ht0 Ht']].
        apply (IH t0 (token_tokens v t0 Ht0)); [|exact Ht'].
        intros Hname. pose proof (Hrank t v t0 Hin Ht0 Hname) as H1.
        pose proof (Ht (in_map fst _ _ Hin)) as H2.
        lia.
      + rewrite Htok in Ht'. destruct Ht' as [<-|[]].
        intros H. apply in_map_iff in H as [nv [Hfst Hin]].
        pose proof (find_none _ _ E nv Hin) as Hf. cbn beta in Hf.
        rewrite Hfst, String.eqb_refl in Hf. discriminate.
  Qed.

  Lemma chain_E_closed : forall s t, In t (tokens (tsubst chain_E s)) -> ~ In t (map fst ms).
  Proof.
    intros s t Ht. rewrite (tokens_tsubst _ s chain_E_keeps_nonword) in Ht.
    apply in_flat_map in Ht as [t0 [Ht0 Ht]].
    apply (expand_tok_closed b t0 (token_tokens s t0 Ht0) (Hb t0) t Ht).
  Qed.
End Chain.

(** an acyclic set of object-like macros of depth below the round cap is expanded
    completely, whatever the order of the definitions *)
Theorem replace_all_chain : forall (ms : list (string * string)) (rank : string -> nat) s,
  NoDup (map fst ms) -> (forall n v, In (n, v) ms -> wordy n) ->
  (forall n v t, In (n, v) ms -> In t (tokens v) -> In t (map fst ms) -> rank t < rank n) ->
  (forall n, In n (map fst ms) -> rank n < 64) ->
  replace_all (map (fun nv => (fst nv, MObj (snd nv))) ms) s = tsubst (expand_tok 64 ms) s.
Proof.
  intros ms rank s Hnd Hw Hrank Hb. unfold replace_all.
  apply (replace_rounds_chain ms rank Hnd Hw Hrank 64 Hb 64 s).
  intros t _ Hname. apply Hb. exact Hname.
Qed.
Print Assumptions replace_all_chain.

(** what [expand_tok 64 ms] is: a macro name expands to its value with every token expanded in
    turn, any other token to itself ... *)
Theorem expand_tok_equations : forall (ms : list (string * string)) (rank : string -> nat),
  NoDup (map fst ms) -> (forall n v, In (n, v) ms -> wordy n) ->
  (forall n v t, In (n, v) ms -> In t (tokens v) -> In t (map fst ms) -> rank t < rank n) ->
  (forall n, In n (map fst ms) -> rank n < 64) ->
  (forall n v, In (n, v) ms -> expand_tok 64 ms n = tsubst (expand_tok 64 ms) v) /\
  (forall t, ~ In t (map fst ms) -> expand_tok 64 ms t = t).
Proof.
  intros ms rank Hnd Hw Hrank Hb. split.
  - exact (chain_E_name ms rank Hnd Hrank 64 Hb).
  - intros t Ht. apply expand_tok_nonname. exact Ht.
Qed.
Print Assumptions expand_tok_equations.

(** ... and no macro name is left as a token of the result *)
Theorem replace_all_chain_closed : forall (ms : list (string * string)) (rank : string -> nat) s t,
  NoDup (map fst ms) -> (forall n v, In (n, v) ms -> wordy n) ->
  (forall n v t, In (n, v) ms -> In t (tokens v) -> In t (map fst ms) -> rank t < rank n) ->
  (forall n, In n (map fst ms) -> rank n < 64) ->
  In t (tokens (replace_all (map (fun nv => (fst nv, MObj (snd nv))) ms) s)) ->
  ~ In t (map fst ms).
Proof.
  intros ms rank s t Hnd Hw Hrank Hb Ht.
  rewrite (replace_all_chain ms rank s Hnd Hw Hrank Hb) in Ht.
  exact (chain_E_closed ms rank Hw Hrank 64 Hb s t Ht).
Qed.
Print Assumptions replace_all_chain_closed.

(** chains of object-like macros: several rounds, so the intermediate texts must fit *)
Theorem replace_all_c_chain : forall (ms : list (string * string)) (rank : string -> nat) s,
  NoDup (map fst ms) -> (forall n v, In (n, v) ms -> wordy n) ->
  (forall n v t, In (n, v) ms -> In t (tokens v) -> In t (map fst ms) -> rank t < rank n) ->
  (forall n, In n (map fst ms) -> rank n < 64) ->
  rounds_within_cap 64 (map (fun nv => (fst nv, MObj (snd nv))) ms) s s ->
  replace_all_c (map (fun nv => (fst nv, MObj (snd nv))) ms) s = tsubst (expand_tok 64 ms) s.
Proof.
  intros ms rank s Hnd Hw Hrank Hb Hcap.
  rewrite (replace_all_c_small _ s Hcap). exact (replace_all_chain ms rank s Hnd Hw Hrank Hb).
Qed.
Print Assumptions replace_all_c_chain.

(** [nodup_b] is [nodupb] *)
Lemma nodup_b_NoDup : forall l, nodup_b l = true -> NoDup l.
Proof. exact nodupb_sound. Qed.

Lemma wordy_b_wordy : forall n, wordy_b n = true -> wordy n.
Proof.
  intros n H. unfold wordy_b in H. apply andb_true_iff in H as [Hne Hall].
  split; [|exact Hall]. intros E. subst n. discriminate.
Qed.

Theorem replace_all_chain_b : forall (ms : list (string * string)) (rank : string -> nat) s,
  chain_ok_b rank ms = true ->
  replace_all (map (fun nv => (fst nv, MObj (snd nv))) ms) s = tsubst (expand_tok 64 ms) s.
Proof.
  intros ms rank s Hok. unfold chain_ok_b in Hok. apply andb_true_iff in Hok as [Hnd Hall].
  rewrite forallb_forall in Hall.
  assert (Hone : forall n v, In (n, v) ms ->
            wordy n /\ rank n < 64 /\
            forall t, In t (tokens v) -> In t (map fst ms) -> rank t < rank n).
  { intros n v Hin. specialize (Hall (n, v) Hin).
    apply andb_true_iff in Hall as [Hall Htoks]. apply andb_true_iff in Hall as [Hwb Hlt].
    split; [exact (wordy_b_wordy n Hwb)|]. split; [apply Nat.ltb_lt; exact Hlt|].
    intros t Ht Hname. rewrite forallb_forall in Htoks. specialize (Htoks t Ht).
    apply orb_true_iff in Htoks as [Hno|Hr]; [|apply Nat.ltb_lt; exact Hr].
    apply negb_true_iff in Hno. apply existsb_eqb_In in Hname. congruence. }
  apply (replace_all_chain ms rank s (nodup_b_NoDup _ Hnd)).
  - intros n v Hin. apply (Hone n v Hin).
  - intros n v t Hin. apply (Hone n v Hin).
  - intros n Hname. apply in_map_iff in Hname as [[n' v] [Hfst Hin]]. cbn [fst] in Hfst. subst n'.
    apply (Hone n v Hin).
Qed.
Print Assumptions replace_all_chain_b.

(** the hypotheses are satisfiable: A -> B C, B -> 1, C -> 2 (A has rank 1, the others rank 0) *)
Definition chain_example : list (string * string) := [("A", "B C"); ("B", "1"); ("C", "2")].
Definition chain_example_rank (t : string) : nat := if String.eqb t "A" then 1 else 0.

Example chain_example_ok : chain_ok_b chain_example_rank chain_example = true.
Proof. vm_compute. reflexivity. Qed.

Example chain_example_expansion :
  map (expand_tok 64 chain_example) ["A"; "B"; "C"; "D"; "+"] = ["1 2"; "1"; "2"; "D"; "+"].
Proof. vm_compute. reflexivity. Qed.

Example chain_example_all_texts : forall s,
  replace_all [("A", MObj "B C"); ("B", MObj "1"); ("C", MObj "2")] s
  = tsubst (expand_tok 64 chain_example) s.
Proof. intros s. exact (replace_all_chain_b chain_example chain_example_rank s chain_example_ok). Qed.

Example chain_example_run :
  replace_all [("A", MObj "B C"); ("B", MObj "1"); ("C", MObj "2")] "A+B;C A" = "1 2+1;2 1 2"
  /\ tsubst (expand_tok 64 chain_example) "A+B;C A" = "1 2+1;2 1 2".
Proof. split; vm_compute; reflexivity. Qed.

(** two instances that need no rank function: the definitions are listed so that every value
    mentions only macros defined EARLIER (the order of -D options: -D A=1 -D B=A), or only
    macros defined LATER (the order of #define lines, whose bodies are expanded at definition
    time with the macros defined before); at most 64 macros.  The rank is the position of the
    name in the list of names, respectively in the reversed list. *)
Lemma index_of_lt : forall t l, In t l -> index_of t l < List.length l.
Proof.
  intros t l. induction l as [|x l IH]; intros Hin; [contradiction|].
  cbn [index_of List.length]. destruct (String.eqb_spec x t) as [E|E]; [lia|].
  destruct Hin as [Hin|Hin]; [congruence|]. specialize (IH Hin). lia.
Qed.

Lemma index_of_app_in : forall t l1 l2, In t l1 -> index_of t (l1 ++ l2) = index_of t l1.
Proof.
  intros t l1 l2. induction l1 as [|x l1 IH]; intros Hin; [contradiction|].
  cbn [app index_of]. destruct (String.eqb_spec x t) as [E|E]; [reflexivity|].
  destruct Hin as [Hin|Hin]; [congruence|]. rewrite (IH Hin). reflexivity.
Qed.

Lemma index_of_app_notin : forall t l1 l2, ~ In t l1 ->
  index_of t (l1 ++ l2) = List.length l1 + index_of t l2.
Proof.
  intros t l1 l2. induction l1 as [|x l1 IH]; intros Hn; [reflexivity|].
  cbn [app index_of List.length]. cbn [In] in Hn.
  destruct (String.eqb_spec x t) as [E|E]; [exfalso; auto|].
  rewrite IH; [reflexivity | auto].
Qed.

Lemma index_of_head : forall t l, index_of t (t :: l) = 0.
Proof. intros t l. cbn [index_of]. rewrite String.eqb_refl. reflexivity. Qed.

Lemma nodup_app_disjoint : forall (l1 l2 : list string) t,
  NoDup (l1 ++ l2) -> In t l1 -> ~ In t l2.
Proof. exact nodup_app_disj. Qed.

Lemma index_of_before : forall l1 n l2 t, ~ In n l1 -> In t l1 ->
  index_of t (l1 ++ n :: l2) < index_of n (l1 ++ n :: l2).
Proof.
  intros l1 n l2 t Hn Ht.
  rewrite (index_of_app_in t _ _ Ht), (index_of_app_notin n _ _ Hn), index_of_head.
  pose proof (index_of_lt t l1 Ht). lia.
Qed.

Lemma names_split : forall (ms1 ms2 : list (string * string)) n v,
  map fst (ms1 ++ (n, v) :: ms2) = (map fst ms1 ++ n :: map fst ms2)%list.
Proof. intros ms1 ms2 n v. rewrite map_app. reflexivity. Qed.

Theorem replace_all_chain_earlier : forall (ms : list (string * string)) s,
  NoDup (map fst ms) -> (forall n v, In (n, v) ms -> wordy n) ->
  (forall ms1 n v ms2 t, ms = (ms1 ++ (n, v) :: ms2)%list ->
     In t (tokens v) -> In t (map fst ms) -> In t (map fst ms1)) ->
  List.length ms <= 64 ->
  replace_all (map (fun nv => (fst nv, MObj (snd nv))) ms) s = tsubst (expand_tok 64 ms) s.
Proof.
  intros ms s Hnd Hw Hearlier Hlen.
  apply (replace_all_chain ms (fun t => index_of t (map fst ms)) s Hnd Hw).
  - intros n v t Hin Ht Hname.
    destruct (in_split _ _ Hin) as (ms1 & ms2 & Hms).
    pose proof (Hearlier ms1 n v ms2 t Hms Ht Hname) as Ht1.
    rewrite Hms, names_split in *.
    apply index_of_before; [|exact Ht1].
    intros H. apply (NoDup_remove_2 _ _ _ Hnd), in_or_app. left. exact H.
  - intros n Hname. pose proof (index_of_lt n _ Hname) as H. rewrite map_length in H. lia.
Qed.
Print Assumptions replace_all_chain_earlier.

Theorem replace_all_chain_later : forall (ms : list (string * string)) s,
  NoDup (map fst ms) -> (forall n v, In (n, v) ms -> wordy n) ->
  (forall ms1 n v ms2 t, ms = (ms1 ++ (n, v) :: ms2)%list ->
     In t (tokens v) -> In t (map fst ms) -> In t (map fst ms2)) ->
  List.length ms <= 64 ->
  replace_all (map (fun nv => (fst nv, MObj (snd nv))) ms) s = tsubst (expand_tok 64 ms) s.
Proof.
  intros ms s Hnd Hw Hlater Hlen.
  apply (replace_all_chain ms (fun t => index_of t (rev (map fst ms))) s Hnd Hw).
  - intros n v t Hin Ht Hname.
    destruct (in_split _ _ Hin) as (ms1 & ms2 & Hms).
    pose proof (Hlater ms1 n v ms2 t Hms Ht Hname) as Ht2.
    rewrite Hms, names_split in *. rewrite rev_app_distr. cbn [rev]. rewrite <- app_assoc.
    apply index_of_before; [|exact (proj1 (in_rev _ t) Ht2)].
    intros H. apply (NoDup_remove_2 _ _ _ Hnd), in_or_app. right.
    exact (proj2 (in_rev (map fst ms2) n) H).
  - intros n Hname. pose proof (index_of_lt n _ (proj1 (in_rev _ n) Hname)) as H.
    rewrite rev_length, map_length in H. lia.
Qed.
Print Assumptions replace_all_chain_later.

Lemma balanced_close : forall f d r, balanced (S f) d (String ")" r) = Some (")", r).
Proof. reflexivity. Qed.

Lemma balanced_open : forall f d r,
  balanced (S f) (S d) (String "(" r) =
  match balanced f d r with
  | Some (g, r') =>
      match balanced f (S d) r' with
      | Some (b, r'') => Some (String "(" (g ++ b), r'')
      | None => None
      end
  | None => None
  end.
Proof. reflexivity. Qed.

Lemma balanced_other : forall f d a r, paren a = false ->
  balanced (S f) d (String a r) =
  match balanced f d r with
  | Some (b, r') => Some (String a b, r')
  | None => None
  end.
Proof.
  intros f d a r H. unfold paren in H. apply orb_false_iff in H as [H1 H2].
  cbn [balanced]. rewrite H1, H2. reflexivity.
Qed.

Lemma group_app : forall g s y, ("(" ++ g ++ ")" ++ s) ++ y = String "(" (g ++ ")" ++ (s ++ y)).
Proof.
  intros g s y. cbn [append]. rewrite app_assoc_s. reflexivity.
Qed.

Lemma group_length : forall g s,
  String.length ("(" ++ g ++ ")" ++ s) = S (String.length g + S (String.length s)).
Proof. intros g s. cbn [append String.length]. rewrite length_app_s. reflexivity. Qed.

Lemma balanced_nest : forall d g, nest d g -> forall fuel rest, String.length g < fuel ->
  balanced fuel d (g ++ ")" ++ rest) = Some (g ++ ")", rest).
Proof.
  intros d g Hn. induction Hn as [d | d a s Ha Hs IH | d g s Hg IHg Hs IHs]; intros fuel rest Hf.
  - destruct fuel as [|f]; [lia|]. reflexivity.
  - destruct fuel as [|f]; [lia|]. cbn [String.length] in Hf.
    cbn [append]. rewrite (balanced_other _ _ _ _ Ha).
    change (String ")" rest) with (")" ++ rest).
    rewrite (IH f rest); [reflexivity | lia].
  - destruct fuel as [|f]; [lia|]. rewrite group_length in Hf.
    rewrite !group_app. rewrite balanced_open.
    rewrite (IHg f (s ++ ")" ++ rest)); [|lia].
    rewrite (IHs f rest); [|lia].
    rewrite app_assoc_s. reflexivity.
Qed.

Lemma capture_arg_open : forall f r,
  capture_arg (S f) (String "(" r) =
  match balanced f 3 r with
  | Some (g, r') => (String "(" (g ++ fst (capture_arg f r')), snd (capture_arg f r'))
  | None => ("", String "(" r)
  end.
Proof.
  intros f r. cbn [capture_arg]. change (Ascii.eqb "(" "(") with true.
  destruct (balanced f 3 r) as [[g r']|]; [|reflexivity].
  destruct (capture_arg f r') as [b r'']. reflexivity.
Qed.

Lemma capture_arg_other : forall f a r, special a = false ->
  capture_arg (S f) (String a r) = (String a (fst (capture_arg f r)), snd (capture_arg f r)).
Proof.
  intros f a r H. cbn [capture_arg]. rewrite H.
  unfold special in H. apply orb_false_iff in H as [_ H]. rewrite H.
  destruct (capture_arg f r) as [b r']. reflexivity.
Qed.

(** an argument made of non-special characters and groups nested at most 3 deep inside
    (4 levels in total) is captured whole, before "," and before ")" *)
Theorem capture_arg_nested : forall a, arg_ok a -> forall fuel c rest,
  String.length a < fuel -> (c = ","%char \/ c = ")"%char) ->
  capture_arg fuel (a ++ String c rest) = (a, String c rest).
Proof.
  intros a Ha. induction Ha as [| x s Hx Hs IH | g s Hg Hs IH]; intros fuel c rest Hf Hc.
  - destruct fuel as [|f]; [lia|]. destruct Hc; subst c; reflexivity.
  - destruct fuel as [|f]; [lia|]. cbn [String.length] in Hf.
    cbn [append]. rewrite (capture_arg_other _ _ _ Hx).
    rewrite (IH f c rest); [reflexivity | lia | exact Hc].
  - destruct fuel as [|f]; [lia|]. rewrite group_length in Hf.
    rewrite group_app, capture_arg_open.
    rewrite (balanced_nest 3 g Hg f (s ++ String c rest)); [|lia].
    rewrite (IH f c rest); [|lia|exact Hc].
    rewrite app_assoc_s. reflexivity.
Qed.
Print Assumptions capture_arg_nested.

Theorem capture_arg_nested_comma : forall a rest, arg_ok a ->
  capture_arg (S (String.length (a ++ "," ++ rest))) (a ++ "," ++ rest) = (a, "," ++ rest).
Proof.
  intros a rest Ha. apply (capture_arg_nested a Ha); [|left; reflexivity].
  rewrite length_app_s. lia.
Qed.
Print Assumptions capture_arg_nested_comma.

Theorem capture_arg_nested_close : forall a rest, arg_ok a ->
  capture_arg (S (String.length (a ++ ")" ++ rest))) (a ++ ")" ++ rest) = (a, ")" ++ rest).
Proof.
  intros a rest Ha. apply (capture_arg_nested a Ha); [|right; reflexivity].
  rewrite length_app_s. lia.
Qed.
Print Assumptions capture_arg_nested_close.

(** four levels are captured, five are not: the capture stops before the group and the call is
    then not recognised *)
Example capture_arg_depth4 :
  capture_arg 100 "f((((x)))),y)" = ("f((((x))))", ",y)").
Proof. vm_compute. reflexivity. Qed.

Example capture_arg_depth5_refuted :
  capture_arg 100 "(((((x))))),y)" = ("", "(((((x))))),y)")
  /\ capture_args 100 2 "(((((x))))),y)" = None
  /\ replace_call "F" ["a"; "b"] "$a+$b" "F((((((x))))),y)" = ("F((((((x))))),y)", false)
  /\ replace_call "F" ["a"; "b"] "$a+$b" "F(((((x)))),y)" = ("((((x))))+y", true).
Proof. vm_compute. repeat split; reflexivity. Qed.

Lemma capture_args_1 : forall fuel s,
  capture_args fuel 1 s =
  match snd (capture_arg fuel s) with
  | String c r' => if Ascii.eqb c ")" then Some ([fst (capture_arg fuel s)], r') else None
  | EmptyString => None
  end.
Proof. intros fuel s. cbn [capture_args]. destruct (capture_arg fuel s). reflexivity. Qed.

Lemma capture_args_SS : forall fuel n s,
  capture_args fuel (S (S n)) s =
  match snd (capture_arg fuel s) with
  | String c r' =>
      if Ascii.eqb c ","
      then match capture_args fuel (S n) r' with
           | Some (l, r'') => Some (fst (capture_arg fuel s) :: l, r'')
           | None => None
           end
      else None
  | EmptyString => None
  end.
Proof. intros fuel n s. cbn [capture_args]. destruct (capture_arg fuel s). reflexivity. Qed.

Lemma concat_cons2 : forall sep (a b : string) l,
  String.concat sep (a :: b :: l) = a ++ sep ++ String.concat sep (b :: l).
Proof. reflexivity. Qed.

Lemma capture_args_ok : forall args fuel rest, args <> [] -> Forall arg_ok args ->
  (forall a, In a args -> String.length a < fuel) ->
  capture_args fuel (List.length args) (String.concat "," args ++ ")" ++ rest) = Some (args, rest).
Proof.
  induction args as [|a args IH]; intros fuel rest Hne Hok Hf; [congruence|].
  inversion Hok as [|x l Ha Hok' E]; subst x l.
  destruct args as [|b args].
  - cbn [List.length String.concat]. rewrite capture_args_1.
    cbn [append]. rewrite (capture_arg_nested a Ha fuel ")" rest);
      [reflexivity | apply Hf; left; reflexivity | right; reflexivity].
  - rewrite concat_cons2. change (List.length (a :: b :: args)) with (S (S (List.length args))).
    rewrite capture_args_SS. rewrite app_assoc_s. cbn [append].
    rewrite (capture_arg_nested a Ha fuel "," _);
      [| apply Hf; left; reflexivity | left; reflexivity].
    cbn [fst snd]. change (Ascii.eqb "," ",") with true.
    change (S (List.length args)) with (List.length (b :: args)).
    change (String ")" rest) with (")" ++ rest).
    rewrite (IH fuel rest); [reflexivity | discriminate | exact Hok' |].
    intros x Hx. apply Hf. right. exact Hx.
Qed.

Lemma length_concat_in : forall sep (a : string) args, In a args ->
  String.length a <= String.length (String.concat sep args).
Proof.
  intros sep a args. induction args as [|x args IH]; intros Hin; [contradiction|].
  destruct args as [|y args].
  - destruct Hin as [<-|[]]. cbn [String.concat]. lia.
  - rewrite concat_cons2, !length_app_s. destruct Hin as [<-|Hin]; [lia|].
    specialize (IH Hin). lia.
Qed.

Theorem capture_args_nested : forall args rest, Forall arg_ok args -> args <> [] ->
  capture_args (S (String.length (String.concat "," args ++ ")" ++ rest))) (List.length args)
               (String.concat "," args ++ ")" ++ rest) = Some (args, rest).
Proof.
  intros args rest Hok Hne. apply capture_args_ok; [exact Hne | exact Hok |].
  intros a Ha. pose proof (length_concat_in "," a args Ha). rewrite length_app_s. lia.
Qed.
Print Assumptions capture_args_nested.

Lemma simple_arg_ok : forall a, simple_arg a -> arg_ok a.
Proof.
  unfold simple_arg. induction a as [|c a IH]; intros H; [constructor|].
  apply andb_true_iff in H as [Hc Ha].
  apply negb_true_iff in Hc. constructor; auto.
Qed.

Theorem capture_args_simple : forall args rest, Forall simple_arg args -> args <> [] ->
  capture_args (S (String.length (String.concat "," args ++ ")" ++ rest))) (List.length args)
               (String.concat "," args ++ ")" ++ rest) = Some (args, rest).
Proof.
  intros args rest Hs Hne. apply capture_args_nested; [|exact Hne].
  apply Forall_forall. intros a Ha. apply simple_arg_ok.
  rewrite Forall_forall in Hs. apply Hs. exact Ha.
Qed.
Print Assumptions capture_args_simple.

Lemma take_word_all : forall p, all_word p = true -> take_word p = (p, "").
Proof.
  induction p as [|a p IH]; intros H; [reflexivity|].
  apply andb_true_iff in H as [Ha Hp].
  cbn [take_word]. rewrite Ha, (IH Hp). reflexivity.
Qed.

Lemma lookup_arg_nth : forall ps args p, List.length ps = List.length args -> In p ps ->
  lookup_arg p ps args = nth (index_of p ps) args "".
Proof.
  induction ps as [|q ps IH]; intros args p Hlen Hin; [contradiction|].
  destruct args as [|a args]; [discriminate|].
  cbn [lookup_arg index_of]. destruct (String.eqb_spec q p) as [E|E]; [reflexivity|].
  apply IH.
  - cbn [List.length] in Hlen. lia.
  - destruct Hin as [Hin|Hin]; [congruence | exact Hin].
Qed.

Lemma is_word_not_dollar : forall b, is_word b = true -> Ascii.eqb b "$" = false.
Proof.
  intros b Hb. destruct (Ascii.eqb_spec b "$") as [E|E]; [|reflexivity].
  subst b. vm_compute in Hb. discriminate.
Qed.

Theorem expand_template_param : forall ps args p,
  NoDup ps -> List.length ps = List.length args -> In p ps -> wordy p ->
  expand_template (S (String.length ("$" ++ p))) ("$" ++ p) ps args = nth (index_of p ps) args "".
Proof.
  intros ps args p _ Hlen Hin Hp.
  destruct (wordy_head _ Hp) as (b & p' & -> & Hb & Hp').
  assert (Hall : all_word (String b p') = true) by apply Hp.
  cbn [append String.length expand_template].
  rewrite Ascii.eqb_refl, (is_word_not_dollar b Hb), (take_word_all _ Hall).
  rewrite app_empty_r.
  apply lookup_arg_nth; assumption.
Qed.
Print Assumptions expand_template_param.

(** a body that uses earlier macros is expanded completely (at definition time) *)
Example body_uses_earlier_macro :
  cpp_output (run_cpp [] "m.c" [] ["#define A 1" ++ nl; "#define B (A+A)" ++ nl; "B" ++ nl])
  = Some ("(1+1)" ++ nl).
Proof. vm_compute. reflexivity. Qed.

(** a parameter named like an earlier object-like macro is lost: the body is
    macro-expanded BEFORE the parameters are turned into template variables *)
Example param_shadow_refuted :
  cpp_output (run_cpp [] "m.c" [] ["#define x 5" ++ nl; "#define F(x) x+1" ++ nl; "F(3)" ++ nl])
  = Some ("5+1" ++ nl).
Proof. vm_compute. reflexivity. Qed.

(** positional substitution with nested parentheses, through the whole pipeline *)
Example function_macro_nested_args :
  cpp_output (run_cpp [] "m.c" []
    ["#define SUB(a,b) ((a)-(b))" ++ nl; "y = SUB(f(1,(2)),g((x)));" ++ nl])
  = Some ("y = ((f(1,(2)))-(g((x))));" ++ nl).
Proof. vm_compute. reflexivity. Qed.

(** #undef removes the macro, and only it *)
Example undef_through_pipeline :
  cpp_output (run_cpp [] "m.c" []
    ["#define A 1" ++ nl; "#define AB 2" ++ nl; "#undef A" ++ nl; "A AB A_ _A" ++ nl])
  = Some ("A 2 A_ _A" ++ nl).
Proof. vm_compute. reflexivity. Qed.

(** * A whole call of a function-like macro *)

(** [skip_blanks b = ""]: [b] is made of blanks and TABs only *)
Lemma skip_blanks_app : forall b s, skip_blanks b = "" -> skip_blanks (b ++ s) = skip_blanks s.
Proof.
  induction b as [|a b IH]; intros s H; [reflexivity|].
  cbn [skip_blanks] in H. cbn [append skip_blanks].
  destruct (is_blank_or_tab a); [exact (IH s H)|discriminate].
Qed.

Lemma skip_blanks_paren : forall b c s,
  skip_blanks b = "" -> is_blank_or_tab c = false -> skip_blanks (b ++ String c s) = String c s.
Proof.
  intros b c s Hb Hc. rewrite (skip_blanks_app b _ Hb). cbn [skip_blanks]. rewrite Hc. reflexivity.
Qed.

(** a hit of the call pattern: the name at a word boundary, blanks and TABs, the parenthesis,
    the arguments *)
Lemma rca_hit_blanks : forall f name ps tmpl prev s b s' args rest,
  s = name ++ b ++ "(" ++ s' ->
  boundary_before prev = true -> name <> "" -> skip_blanks b = "" ->
  capture_args (String.length s) (List.length ps) s' = Some (args, rest) ->
  replace_call_aux (S f) name ps tmpl prev s =
  (expand_template (S (String.length tmpl)) tmpl ps args
     ++ fst (replace_call_aux f name ps tmpl (Some ")"%char) rest), true).
Proof.
  intros f name ps tmpl prev s b s' args rest Hs Hb Hname Hbl Hcap.
  assert (Hst : starts_with name s = true) by (rewrite Hs; apply starts_with_app).
  assert (Hdrop : skip_blanks (string_drop (String.length name) s) = String "(" s').
  { rewrite Hs, drop_length_app. apply (skip_blanks_paren b "(" s' Hbl). reflexivity. }
  destruct s as [|a r]; [destruct name; [congruence|discriminate]|].
  cbn [replace_call_aux]. rewrite Hb, Hst, Hdrop.
  destruct name as [|n0 n']; [congruence|].
  cbn [String.length Nat.eqb negb andb]. change (Ascii.eqb "(" "(") with true.
  cbn [String.length] in Hcap. rewrite Hcap.
  destruct (replace_call_aux f _ ps tmpl _ rest) as [t c]. reflexivity.
Qed.

Lemma rca_hit : forall f name ps tmpl prev s args rest,
  s <> "" -> boundary_before prev = true -> starts_with (name ++ "(") s = true ->
  name <> "" ->
  capture_args (String.length s) (List.length ps) (string_drop (S (String.length name)) s)
    = Some (args, rest) ->
  replace_call_aux (S f) name ps tmpl prev s =
  (expand_template (S (String.length tmpl)) tmpl ps args
     ++ fst (replace_call_aux f name ps tmpl (Some ")"%char) rest), true).
Proof.
  intros f name ps tmpl prev s args rest _ Hb Hst Hname Hcap.
  apply (rca_hit_blanks f name ps tmpl prev s "" (string_drop (S (String.length name)) s));
    try assumption; [|reflexivity].
  rewrite (starts_with_decomp _ _ Hst) at 1. rewrite app_assoc_s, length_app_s, Nat.add_1_r. reflexivity.
Qed.

Lemma rca_nil : forall f name ps tmpl prev, replace_call_aux f name ps tmpl prev "" = ("", false).
Proof. intros [|f]; reflexivity. Qed.

(** a text that is one call: the name, blanks and TABs, the parenthesised arguments *)
Lemma replace_call_one : forall name ps tmpl b s' args,
  name <> "" -> skip_blanks b = "" ->
  capture_args (String.length (name ++ b ++ "(" ++ s')) (List.length ps) s' = Some (args, "") ->
  replace_call name ps tmpl (name ++ b ++ "(" ++ s')
  = (expand_template (S (String.length tmpl)) tmpl ps args, true).
Proof.
  intros name ps tmpl b s' args Hne Hb Hcap. unfold replace_call.
  rewrite (rca_hit_blanks _ name ps tmpl None _ b s' args "" eq_refl eq_refl Hne Hb Hcap).
  rewrite rca_nil. rewrite app_empty_r. reflexivity.
Qed.

(** the call [name blanks (a1,...,an)] with acceptable arguments is replaced by the template with
    the arguments substituted by position *)
Theorem replace_call_blank_before_paren_value : forall name ps tmpl args b,
  wordy name -> Forall arg_ok args -> args <> [] -> List.length ps = List.length args ->
  skip_blanks b = "" ->
  replace_call name ps tmpl (name ++ b ++ "(" ++ String.concat "," args ++ ")")
  = (expand_template (S (String.length tmpl)) tmpl ps args, true).
Proof.
  intros name ps tmpl args b [Hne _] Hok Hargs Hlen Hb.
  apply replace_call_one; [exact Hne | exact Hb |].
  rewrite Hlen. apply (capture_args_ok args _ ""); [exact Hargs | exact Hok |].
  intros a Ha. pose proof (length_concat_in "," a args Ha).
  rewrite !length_app_s. cbn [String.length]. lia.
Qed.
Print Assumptions replace_call_blank_before_paren_value.

Theorem replace_call_whole : forall name ps tmpl args,
  wordy name -> Forall arg_ok args -> args <> [] -> List.length ps = List.length args ->
  replace_call name ps tmpl (name ++ "(" ++ String.concat "," args ++ ")") =
  (expand_template (S (String.length tmpl)) tmpl ps args, true).
Proof.
  intros name ps tmpl args Hw Hok Hargs Hlen.
  exact (replace_call_blank_before_paren_value name ps tmpl args "" Hw Hok Hargs Hlen eq_refl).
Qed.
Print Assumptions replace_call_whole.

Theorem replace_call_blank_before_paren : forall name ps tmpl args b,
  wordy name -> Forall arg_ok args -> args <> [] -> List.length ps = List.length args ->
  skip_blanks b = "" ->
  replace_call name ps tmpl (name ++ b ++ "(" ++ String.concat "," args ++ ")")
  = replace_call name ps tmpl (name ++ "(" ++ String.concat "," args ++ ")").
Proof.
  intros name ps tmpl args b Hw Hok Hargs Hlen Hb.
  rewrite (replace_call_whole name ps tmpl args Hw Hok Hargs Hlen).
  apply replace_call_blank_before_paren_value; assumption.
Qed.
Print Assumptions replace_call_blank_before_paren.

(** a macro without parameters: blanks before the parenthesis and between the parentheses *)
Lemma capture_args_0 : forall fuel b rest,
  skip_blanks b = "" -> capture_args fuel 0 (b ++ ")" ++ rest) = Some ([], rest).
Proof.
  intros fuel b rest Hb. cbn [capture_args].
  change (b ++ ")" ++ rest) with (b ++ String ")" rest).
  rewrite (skip_blanks_paren b ")" rest Hb eq_refl). reflexivity.
Qed.

Theorem replace_call_zero_param_blank : forall name tmpl b1 b2,
  wordy name -> skip_blanks b1 = "" -> skip_blanks b2 = "" ->
  replace_call name [] tmpl (name ++ b1 ++ "(" ++ b2 ++ ")")
  = (expand_template (S (String.length tmpl)) tmpl [] [], true).
Proof.
  intros name tmpl b1 b2 [Hne _] H1 H2.
  apply replace_call_one; [exact Hne | exact H1 |]. apply (capture_args_0 _ b2 "" H2).
Qed.
Print Assumptions replace_call_zero_param_blank.

(** a call is not recognised inside a longer identifier; blanks between the name and the
    parenthesis do not matter (the repaired defect: "F (5)" used to be left as it is) *)
Example replace_call_inside_identifier :
  replace_call "F" ["a"] "[$a]" "xF(1) F(2) F_(3) GF(4) F (5)" = ("xF(1) [2] F_(3) GF(4) [5]", true).
Proof. vm_compute. reflexivity. Qed.

(** through the whole pipeline: a blank, a TAB, both or nothing before the parenthesis *)
Example blank_before_paren_example :
  let TB := String (ascii_of_nat 9) "" in
  cpp_output (run_cpp [] "m.c" [] ["#define add(a,b) a+b" ++ nl; "x = add (1,2);" ++ nl]) = Some ("x = 1+2;" ++ nl)
  /\ cpp_output (run_cpp [] "m.c" [] ["#define add(a,b) a+b" ++ nl; "x = add" ++ TB ++ "(1,2);" ++ nl]) = Some ("x = 1+2;" ++ nl)
  /\ cpp_output (run_cpp [] "m.c" [] ["#define add(a,b) a+b" ++ nl; "x = add " ++ TB ++ " (1,2);" ++ nl]) = Some ("x = 1+2;" ++ nl)
  /\ cpp_output (run_cpp [] "m.c" [] ["#define add(a,b) a+b" ++ nl; "x = add(1,2);" ++ nl]) = Some ("x = 1+2;" ++ nl).
Proof. vm_compute. repeat split; reflexivity. Qed.

Example zero_param_blank_example :
  let TB := String (ascii_of_nat 9) "" in
  cpp_output (run_cpp [] "m.c" [] ["#define f() 7" ++ nl; "x = f( );" ++ nl]) = Some ("x = 7;" ++ nl)
  /\ cpp_output (run_cpp [] "m.c" [] ["#define f() 7" ++ nl; "x = f ( );" ++ nl]) = Some ("x = 7;" ++ nl)
  /\ cpp_output (run_cpp [] "m.c" [] ["#define f() 7" ++ nl; "x = f();" ++ nl]) = Some ("x = 7;" ++ nl)
  /\ cpp_output (run_cpp [] "m.c" [] ["#define f() 7" ++ nl; "x = f" ++ TB ++ "(" ++ TB ++ " );" ++ nl]) = Some ("x = 7;" ++ nl).
Proof. vm_compute. repeat split; reflexivity. Qed.

(** what does NOT change: an object-like macro whose value starts with a parenthesis (on the
    #define line a blank after the name makes the macro object-like) is replaced as a word and
    what follows it is left alone; the name of a function-like macro that is not followed by a
    parenthesis stays as it is; only blanks and TABs may separate the name from the parenthesis
    (not a newline, not a comment remnant), and a macro with parameters still needs its
    arguments *)
Example blank_before_paren_negative :
  cpp_output (run_cpp [] "m.c" [] ["#define A (x)" ++ nl; "A (1)" ++ nl]) = Some ("(x) (1)" ++ nl)
  /\ cpp_output (run_cpp [] "m.c" [] ["#define add(a,b) a+b" ++ nl; "y = add + 1;" ++ nl]) = Some ("y = add + 1;" ++ nl)
  /\ cpp_output (run_cpp [] "m.c" [] ["#define add(a,b) a+b" ++ nl; "y = add  ;" ++ nl]) = Some ("y = add  ;" ++ nl)
  /\ replace_call "add" ["a"; "b"] "$a+$b" ("add" ++ nl ++ "(1,2)") = ("add" ++ nl ++ "(1,2)", false)
  /\ replace_call "add" ["a"; "b"] "$a+$b" "xadd (1,2) add_ (1,2)" = ("xadd (1,2) add_ (1,2)", false)
  /\ replace_call "f" [] "7" "f(1) f(,)" = ("f(1) f(,)", false).
Proof. vm_compute. repeat split; reflexivity. Qed.

(** * Why the hypotheses of [replace_all_single] and [replace_all_independent] are there *)

(** a value that mentions its own name is substituted again in each of the 64 rounds *)
Example replace_all_self_reference :
  subst_tokens "A" "A+1" "A" = "A+1" /\
  replace_all [("A", MObj "A+1")] "A" <> subst_tokens "A" "A+1" "A".
Proof. split; [vm_compute; reflexivity | vm_compute; discriminate]. Qed.

(** a value that mentions ANOTHER macro is outside them (the result is not ONE simultaneous
    substitution), but the match set of every round is computed on the text at the beginning of
    that round, so the name brought in is expanded in a later round ([replace_all_chain]) *)
Example replace_all_dependent_values :
  replace_all [("A", MObj "B"); ("B", MObj "C")] "A" = "C" /\
  replace_all [("A", MObj "B"); ("B", MObj "C")] "A B" = "C C" /\
  tsubst (subst_many [("A", "B"); ("B", "C")]) "A B" = "B C".
Proof. repeat split; vm_compute; reflexivity. Qed.

(** the same through the pipeline: a macro defined AFTER the one that mentions it (bodies are
    expanded at definition time only with the macros defined before) is expanded when the line
    is rescanned, whether or not its name occurs in the line *)
Example later_macro_rescan :
  cpp_output (run_cpp [] "m.c" [] ["#define A B" ++ nl; "#define B 7" ++ nl; "A" ++ nl])
    = Some ("7" ++ nl) /\
  cpp_output (run_cpp [] "m.c" [] ["#define A B" ++ nl; "#define B 7" ++ nl; "A B" ++ nl])
    = Some ("7 7" ++ nl).
Proof. split; vm_compute; reflexivity. Qed.

(** * The cap of [replace_all_c] really bites: a macro whose value mentions its own name twice
    doubles the text at every round: after round k the text is [dbl k], 2^(k+1)-1 characters.
    Round 15 leaves 65535 characters, still within the cap; round 16 leaves 131071 and the capped
    driver stops there, where the uncapped one would go on for 48 more rounds (2^65-1
    characters). *)
Definition doubling : list macro := [("A", MObj "A A")].

Fixpoint dbl (k : nat) : string :=
  match k with O => "A" | S j => dbl j ++ " " ++ dbl j end.

Lemma dbl_tokens : forall k, tokens (dbl (S k)) = (tokens (dbl k) ++ " " :: tokens (dbl k))%list.
Proof.
  intros k. cbn [dbl]. rewrite tokens_app by reflexivity.
  cbn [append]. rewrite tokens_nonword by reflexivity. reflexivity.
Qed.

Lemma dbl_round : forall k, apply_all doubling (dbl k) (dbl k) false = (dbl (S k), true).
Proof.
  assert (Hw : wordy "A") by (split; [discriminate | reflexivity]).
  assert (Hin : forall k, existsb (String.eqb "A") (tokens (dbl k)) = true).
  { induction k as [|k IH]; [reflexivity|]. rewrite dbl_tokens, existsb_app, IH. reflexivity. }
  assert (Hsub : forall k, subst_tokens "A" "A A" (dbl k) = dbl (S k)).
  { induction k as [|k IH]; [reflexivity|]. unfold subst_tokens in *.
    rewrite dbl_tokens, map_app, concat_app. cbn [map]. rewrite concat_cons, IH. reflexivity. }
  intros k. change doubling with [mk_obj ("A", "A A")].
  rewrite apply_all_cons, (macro_matches_obj ("A", "A A") _ Hw), apply_macro_obj.
  cbn [fst snd]. rewrite (replace_word_spec _ _ _ Hw), Hin, Hsub. reflexivity.
Qed.

Lemma dbl_length : forall k, N.of_nat (String.length (dbl k)) = (2 ^ N.of_nat (S k) - 1)%N.
Proof.
  induction k as [|k IH]; [reflexivity|].
  cbn [dbl]. rewrite !length_app_s. cbn [String.length].
  rewrite (Nat2N.inj_succ (S k)), N.pow_succ_r'.
  pose proof (N.pow_nonzero 2 (N.of_nat (S k))). lia.
Qed.

Lemma dbl_within_cap : forall k, within_cap (dbl k) = (k <=? 15)%nat.
Proof.
  intros k. unfold within_cap. rewrite dbl_length.
  destruct (Nat.leb_spec k 15) as [H|H].
  - apply N.leb_le. assert (2 ^ N.of_nat (S k) <= 2 ^ 16)%N by (apply N.pow_le_mono_r; lia). lia.
  - apply N.leb_gt. assert (2 ^ 17 <= 2 ^ N.of_nat (S k))%N by (apply N.pow_le_mono_r; lia). lia.
Qed.

Lemma replace_rounds_dbl : forall n k, replace_rounds n doubling (dbl k) (dbl k) = dbl (n + k).
Proof.
  induction n as [|n IH]; intros k; [reflexivity|].
  rewrite replace_rounds_S, dbl_round. cbn [fst snd]. rewrite IH, Nat.add_succ_r. reflexivity.
Qed.

(** the capped driver stops at the first text beyond the cap, [dbl 16] *)
Lemma replace_rounds_c_dbl : forall n k, k <= 15 ->
  replace_rounds_c n doubling (dbl k) (dbl k) = dbl (Nat.min (n + k) 16).
Proof.
  induction n as [|n IH]; intros k Hk.
  - rewrite Nat.min_l by lia. reflexivity.
  - rewrite replace_rounds_c_S, dbl_round. cbn [fst snd]. rewrite dbl_within_cap.
    destruct (Nat.leb_spec (S k) 15) as [H|H].
    + rewrite (IH _ H), Nat.add_succ_r. reflexivity.
    + rewrite Nat.min_r by lia. f_equal. lia.
Qed.

Lemma dbl_length_inj : forall j k,
  (2 ^ N.of_nat (S j) - 1 <> 2 ^ N.of_nat (S k) - 1)%N -> dbl j <> dbl k.
Proof. intros j k Hne E. apply Hne. rewrite <- !dbl_length, E. reflexivity. Qed.

Example replace_all_c_cap_bites :
  N.of_nat (String.length (replace_all_c doubling "A")) = 131071%N /\
  within_cap (replace_all_c doubling "A") = false /\
  replace_all_c doubling "A" = replace_rounds_c 17 doubling "A" "A" /\
  replace_all_c doubling "A" = replace_rounds 16 doubling "A" "A" /\
  N.of_nat (String.length (replace_rounds 15 doubling "A" "A")) = 65535%N /\
  N.of_nat (String.length (replace_rounds 17 doubling "A" "A")) = 262143%N.
Proof.
  unfold replace_all_c. change "A" with (dbl 0).
  rewrite !replace_rounds_c_dbl, !replace_rounds_dbl, dbl_within_cap, !dbl_length by lia.
  repeat split; reflexivity.
Qed.

(** so here [rounds_within_cap] fails and the two drivers differ after the same number of rounds *)
Example replace_all_c_cap_differs :
  rounds_within_capb 64 doubling "A" "A" = false /\
  replace_rounds_c 17 doubling "A" "A" <> replace_rounds 17 doubling "A" "A".
Proof.
  change "A" with (dbl 0). split.
  - destruct (rounds_within_capb 64 doubling (dbl 0) (dbl 0)) eqn:E; [exfalso|reflexivity].
    pose proof (replace_rounds_c_small _ _ _ _ (rounds_within_capb_spec _ _ _ _ E)) as H.
    rewrite replace_rounds_c_dbl, replace_rounds_dbl in H by lia.
    revert H. apply dbl_length_inj. discriminate.
  - rewrite replace_rounds_c_dbl, replace_rounds_dbl by lia. apply dbl_length_inj. discriminate.
Qed.
