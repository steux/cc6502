(** csleep(n) consumes exactly n cycles on the 6502 cycle model and changes no register and no
    memory cell other than DUMMY and the free stack byte below SP (C18). *)
From Coq Require Import String Ascii List Bool NArith ZArith Lia.
From CC Require Import Base.Str Asm.Lines M6502.Isa Asm.Operand M6502.Sem Model.Csleep Proofs.ExecFacts.
Import ListNotations.
Open Scope Z_scope.

(** straight-line execution of an instruction list *)
Fixpoint run_straight (cfg : config) (is : list instr) (s : mstate) : option (mstate * N) :=
  match is with
  | [] => Some (s, 0%N)
  | i :: r =>
      match parse_operand (i_mn i) (i_op i) with
      | None => None
      | Some op =>
          match exec cfg (i_mn i) op s with
          | XOk s' c FNext =>
              match run_straight cfg r s' with
              | Some (s'', c') => Some (s'', (c + c')%N)
              | None => None
              end
          | _ => None
          end
      end
  end.

Lemma csleep_domain n code :
  csleep_code n = Some code ->
  n = 2 \/ n = 3 \/ n = 4 \/ n = 5 \/ n = 6 \/ n = 7 \/ n = 8 \/ n = 9 \/ n = 10.
Proof.
  unfold csleep_code, csleep_table.
  destruct n as [|p|p]; try discriminate.
  do 4 (try (destruct p as [p|p|]; try discriminate)); intros _; lia.
Qed.

Definition frame_ok (s s' : mstate) : Prop :=
  rA s' = rA s /\ rX s' = rX s /\ rY s' = rY s /\ rS s' = rS s /\ fC s' = fC s /\ fV s' = fV s /\
  (forall a, 0 <= a -> a <> 45 -> a <> 256 + rS s -> mget (mem s') a = mget (mem s) a).

(** [frame_ok] is transitive because it keeps SP, so the two excepted stack cells coincide *)
Lemma frame_trans : forall s1 s2 s3, frame_ok s1 s2 -> frame_ok s2 s3 -> frame_ok s1 s3.
Proof.
  unfold frame_ok. intros s1 s2 s3 (A1 & X1 & Y1 & S1 & C1 & V1 & M1) (A2 & X2 & Y2 & S2 & C2 & V2 & M2).
  repeat split; try congruence.
  intros a Ha H45 HS. rewrite M2, M1; [reflexivity | assumption .. | congruence].
Qed.

Lemma run_straight_app : forall cfg a b s,
  run_straight cfg (a ++ b) s =
  match run_straight cfg a s with
  | Some (s1, c1) =>
      match run_straight cfg b s1 with Some (s2, c2) => Some (s2, (c1 + c2)%N) | None => None end
  | None => None
  end.
Proof.
  intros cfg a b. induction a as [|i a IH]; intros s; cbn [app run_straight].
  - destruct (run_straight cfg b s) as [[s2 c2]|]; reflexivity.
  - destruct (parse_operand (i_mn i) (i_op i)) as [op|]; [|reflexivity].
    destruct (exec cfg (i_mn i) op s) as [s' c [| | | |]|]; try reflexivity.
    rewrite IH. destruct (run_straight cfg a s') as [[s1 c1]|]; [|reflexivity].
    destruct (run_straight cfg b s1) as [[s2 c2]|]; [|reflexivity].
    rewrite N.add_assoc. reflexivity.
Qed.

(** the building blocks of the csleep sequences: each runs in a fixed number of cycles from every
    state and keeps the frame; PHA and PLA only as a pair *)
Section Blocks.
  Variable cfg : config.
  Hypothesis HL : layout cfg "DUMMY"%string = Some 45.
  Hypothesis HP : ports cfg = [].

  Definition block_ok (code : list instr) (n : N) : Prop :=
    forall s, 0 <= rS s < 256 ->
    exists s', run_straight cfg code s = Some (s', n) /\ frame_ok s s'.

  Lemma block_app : forall a n b m, block_ok a n -> block_ok b m -> block_ok (a ++ b) (n + m).
  Proof.
    intros a n b m Ha Hb s Hs. destruct (Ha s Hs) as (s1 & R1 & F1).
    assert (Hs1 : 0 <= rS s1 < 256) by (destruct F1 as (_ & _ & _ & E & _); rewrite E; exact Hs).
    destruct (Hb s1 Hs1) as (s2 & R2 & F2). exists s2. rewrite run_straight_app, R1, R2.
    split; [reflexivity | exact (frame_trans _ _ _ F1 F2)].
  Qed.

  Lemma block_nop : block_ok [nop_p] 2.
  Proof. intros s _. exists s. split; [reflexivity|]. unfold frame_ok. auto 8. Qed.

  Lemma block_sta : forall p, block_ok [sta_dummy p] 3.
  Proof.
    intros p s _. exists (set_mem s (mset (mem s) 45 (rA s))). split.
    - cbn [run_straight sta_dummy i_mn i_op]. change (parse_operand STA "DUMMY") with (Some (OMem "DUMMY" 0 IxNone)).
      cbv beta iota. unfold exec, write_operand, eff_addr. rewrite HL, HP. reflexivity.
    - unfold frame_ok. cbn [rA rX rY rS fC fV mem set_mem]. repeat split.
      intros a Ha H45 _. apply mget_mset_other; lia.
  Qed.

  Lemma block_dec : forall p, block_ok [dec_dummy p] 5.
  Proof.
    intros p s _. eexists. split.
    - cbn [run_straight dec_dummy i_mn i_op]. change (parse_operand DEC "DUMMY") with (Some (OMem "DUMMY" 0 IxNone)).
      cbv beta iota. unfold exec, eff_addr. rewrite HL, HP. reflexivity.
    - unfold frame_ok. cbn [rA rX rY rS fC fV mem set_mem set_nz set_c]. repeat split.
      intros a Ha H45 _. apply mget_mset_other; Z.div_mod_to_equations; lia.
  Qed.

  Lemma block_pha_pla : block_ok [pha_p; pla_p] 7.
  Proof.
    intros s Hs. eexists. split; [reflexivity|].
    unfold frame_ok, pull, push. cbn [rA rX rY rS fC fV mem set_mem set_nz set_a set_sp fst snd].
    rewrite (byte_round _ Hs). repeat split.
    - apply mget_mset_same.
    - intros a Ha _ HS. apply mget_mset_other; lia.
  Qed.
End Blocks.

Theorem csleep_cycles : forall (cfg : config) (n : Z) (code : list instr) (s : mstate),
  layout cfg "DUMMY"%string = Some 45 -> ports cfg = [] -> 0 <= rS s < 256 ->
  csleep_code n = Some code ->
  exists s', run_straight cfg code s = Some (s', Z.to_N n) /\ frame_ok s s'.
Proof.
  intros cfg n code s HL HP HS HC. revert s HS. change (block_ok cfg code (Z.to_N n)).
  pose proof (block_nop cfg) as Bn. pose proof (block_dec cfg HL HP true) as Bd.
  assert (Cons : forall i k r m,
            block_ok cfg [i] k -> block_ok cfg r m -> block_ok cfg (i :: r) (k + m))
    by (intros i k r m; apply (block_app cfg [i])).
  destruct (csleep_domain _ _ HC) as [-> | [-> | [-> | [-> | [-> | [-> | [-> | [-> | ->]]]]]]]];
    injection HC as <-.
  - exact Bn.
  - exact (block_sta cfg HL HP true).
  - exact (Cons _ _ _ _ Bn Bn).
  - exact Bd.
  - exact (Cons _ _ _ _ Bn (Cons _ _ _ _ Bn Bn)).
  - exact (block_pha_pla cfg).
  - exact (Cons _ _ _ _ Bn (Cons _ _ _ _ Bn (Cons _ _ _ _ Bn Bn))).
  - exact (Cons _ _ _ _ Bd (Cons _ _ _ _ Bn Bn)).
  - exact (Cons _ _ _ _ Bd Bd).
Qed.
Print Assumptions csleep_cycles.
