(** Facts about the model of label suffixing of inlined bodies ([append_code] / [push_code]):
    labels and local targets are renamed consistently, the renaming is injective (in the label and
    in the counter), an inlined block is closed, and inlining with a fresh counter keeps labels
    unique. *)
From Coq Require Import String Ascii List Bool NArith ZArith Lia.
From CC Require Import Base.Str Asm.Lines M6502.Isa Asm.Operand Model.InlineRename Model.CbSpec Model.WfCode.
From CC Require Import Model.Optimize Model.OptSpec.
From CC Require Import Proofs.StrFacts Proofs.CbFacts.
Import ListNotations.
Open Scope string_scope.
Open Scope list_scope.
Open Scope nat_scope.

Definition local_targets (c : code) : list string :=
  flat_map (fun x => match x with
                     | Ins i => match local_target i with Some t => [t] | None => [] end
                     | _ => [] end) c.

Definition suffix_of (n : N) (l : string) : string := (l ++ inline_suffix n)%string.

Lemma str_app_inv_tail : forall s a b : string, (a ++ s = b ++ s)%string -> a = b.
Proof.
  intros s a b H. apply (f_equal rev_string) in H. rewrite !rev_string_app in H.
  apply str_app_inv_head in H. rewrite <- (rev_string_invol a), H. apply rev_string_invol.
Qed.

Fixpoint all_digits (s : string) : bool :=
  match s with
  | EmptyString => true
  | String a s' => is_digit a && all_digits s'
  end.

Lemma all_digits_app_nondigit : forall p a r,
  is_digit a = false -> all_digits (p ++ String a r)%string = false.
Proof.
  induction p as [|x p IH]; intros a r Ha; cbn [String.append all_digits].
  - rewrite Ha. reflexivity.
  - rewrite (IH a r Ha). apply andb_false_r.
Qed.

(** a text ends in at most one way with a character that is no digit followed by digits *)
Lemma digits_tail_unique : forall p1 p2 a b d1 d2,
  is_digit a = false -> is_digit b = false -> all_digits d1 = true -> all_digits d2 = true ->
  (p1 ++ String a d1 = p2 ++ String b d2)%string -> p1 = p2 /\ d1 = d2.
Proof.
  induction p1 as [|x p1 IH]; intros [|y p2] a b d1 d2 Ha Hb H1 H2 E; cbn [String.append] in E;
    injection E as <- E.
  - auto.
  - rewrite E, all_digits_app_nondigit in H1 by exact Hb. discriminate H1.
  - rewrite <- E, all_digits_app_nondigit in H2 by exact Ha. discriminate H2.
  - destruct (IH _ _ _ _ _ Ha Hb H1 H2 E) as [-> ->]. auto.
Qed.

Lemma string_of_N_all_digits : forall n, all_digits (string_of_N n) = true.
Proof.
  intros n. unfold string_of_N. apply dec_digits_ind; [|reflexivity].
  intros d s Hd Hs. cbn [all_digits]. rewrite (proj1 (digit_char d Hd)). exact Hs.
Qed.

(** [l ++ "inline" ++ digits] splits uniquely *)
Lemma suffix_split : forall l n,
  suffix_of n l = ((l ++ "inlin") ++ String "e"%char (string_of_N n))%string.
Proof.
  intros l n. unfold suffix_of, inline_suffix. rewrite app_assoc_s. reflexivity.
Qed.

Theorem suffix_of_inj_same : forall n l1 l2, suffix_of n l1 = suffix_of n l2 -> l1 = l2.
Proof.
  intros n l1 l2 H. unfold suffix_of in H. apply str_app_inv_tail in H. exact H.
Qed.
Print Assumptions suffix_of_inj_same.

Theorem suffix_of_inj : forall n1 n2 l1 l2,
  suffix_of n1 l1 = suffix_of n2 l2 -> n1 = n2 /\ l1 = l2.
Proof.
  intros n1 n2 l1 l2 H. rewrite !suffix_split in H.
  apply digits_tail_unique in H as [Hl Hn]; try reflexivity; try apply string_of_N_all_digits.
  split; [exact (string_of_N_inj _ _ Hn) | exact (str_app_inv_tail _ _ _ Hl)].
Qed.
Print Assumptions suffix_of_inj.

Theorem suffix_counters_differ : forall n m l1 l2, n <> m -> suffix_of n l1 <> suffix_of m l2.
Proof.
  intros n m l1 l2 Hnm H. apply suffix_of_inj in H. destruct H as [H _]. exact (Hnm H).
Qed.
Print Assumptions suffix_counters_differ.

Theorem rename_labels : forall n c,
  all_labels (map (rename_line n) c) = map (suffix_of n) (all_labels c).
Proof.
  intros n c. unfold all_labels. induction c as [|x c IH]; [reflexivity|].
  cbn [map flat_map]. rewrite IH.
  destruct x as [l|i|tx sz|cm|]; cbn [rename_line]; try reflexivity.
  destruct (renames_operand (i_mn i)); reflexivity.
Qed.
Print Assumptions rename_labels.

Lemma local_target_renames : forall i,
  local_target i = if renames_operand (i_mn i) then Some (i_op i) else None.
Proof. intros i. unfold local_target, renames_operand. destruct (i_mn i); reflexivity. Qed.

Theorem rename_targets : forall n c,
  local_targets (map (rename_line n) c) = map (suffix_of n) (local_targets c).
Proof.
  intros n c. unfold local_targets. induction c as [|x c IH]; [reflexivity|].
  cbn [map flat_map]. rewrite IH.
  destruct x as [l|i|tx sz|cm|]; cbn [rename_line]; try reflexivity.
  rewrite (local_target_renames i).
  destruct (renames_operand (i_mn i)) eqn:E.
  - rewrite local_target_renames. cbn [i_mn i_op]. rewrite E. reflexivity.
  - rewrite local_target_renames. rewrite E. reflexivity.
Qed.
Print Assumptions rename_targets.

Lemma NoDup_map_suffix : forall n ls, NoDup ls -> NoDup (map (suffix_of n) ls).
Proof.
  intros n ls H. induction H as [|x ls Hx Hnd IH]; cbn [map]; constructor; [|exact IH].
  intros Hin. apply in_map_iff in Hin. destruct Hin as [y [Hy Hin]].
  apply suffix_of_inj_same in Hy. subst y. exact (Hx Hin).
Qed.

Theorem rename_nodup : forall n c,
  NoDup (all_labels c) -> NoDup (all_labels (map (rename_line n) c)).
Proof.
  intros n c H. rewrite rename_labels. apply NoDup_map_suffix. exact H.
Qed.
Print Assumptions rename_nodup.

(** the renamed line of an instruction is an instruction with the same mnemonic, cycles, bytes
    and [protected] flag; only the operand text of a branch/JMP changes *)
Theorem rename_ins_shape : forall n i,
  exists i', rename_line n (Ins i) = Ins i' /\
             i_mn i' = i_mn i /\ i_prot i' = i_prot i /\
             i_cycles i' = i_cycles i /\ i_alt i' = i_alt i /\ i_bytes i' = i_bytes i /\
             i_op i' = if renames_operand (i_mn i) then suffix_of n (i_op i) else i_op i.
Proof.
  intros n i. cbn [rename_line]. destruct (renames_operand (i_mn i)) eqn:Em.
  - eexists. split; [reflexivity|]. cbn [i_mn i_prot i_cycles i_alt i_bytes i_op].
    repeat split; reflexivity.
  - exists i. repeat split; reflexivity.
Qed.
Print Assumptions rename_ins_shape.

Theorem rename_is_marked : forall n l, is_marked (rename_line n l) = is_marked l.
Proof.
  intros n l. destruct l as [y|i|tx sz|cm|]; cbn [rename_line is_marked]; try reflexivity.
  destruct (renames_operand (i_mn i)); reflexivity.
Qed.
Print Assumptions rename_is_marked.

(** inlining neither removes, duplicates nor reorders protected instructions and inline
    assembly: the marked lines of the renamed body are the renamed marked lines of the body *)
Theorem rename_marked : forall n c,
  marked (map (rename_line n) c) = map (rename_line n) (marked c).
Proof.
  intros n c. unfold marked. induction c as [|x c IH]; [reflexivity|].
  cbn [map filter]. rewrite rename_is_marked, IH.
  destruct (is_marked x); reflexivity.
Qed.
Print Assumptions rename_marked.

Theorem push_code_marked : forall dst body n,
  marked (push_code dst body n) = marked dst ++ map (rename_line n) (marked body).
Proof.
  intros dst body n. unfold push_code, append_code, marked.
  rewrite !filter_app. fold (marked (map (rename_line n) body)). rewrite rename_marked.
  cbn [filter is_marked]. rewrite app_nil_r. reflexivity.
Qed.
Print Assumptions push_code_marked.

Lemma endof_suffix : forall n,
  suffix_of n ".endof" = (".endofinline" ++ string_of_N n)%string.
Proof. intros n. reflexivity. Qed.

(** closedness: every local target of the inlined body is defined inside the inlined block *)
Theorem push_code_closed : forall (dst body : code) (n : N),
  (forall t, In t (local_targets body) -> In t (all_labels body) \/ t = ".endof"%string) ->
  forall t, In t (local_targets (map (rename_line n) body)) ->
            In t (all_labels (map (rename_line n) body
                              ++ [Lbl (".endofinline" ++ string_of_N n)%string])).
Proof.
  intros dst body n Hclosed t Ht.
  rewrite rename_targets in Ht. apply in_map_iff in Ht. destruct Ht as [t0 [Ht0 Hin]].
  rewrite all_labels_app, rename_labels. apply in_or_app.
  destruct (Hclosed t0 Hin) as [Hdef|Hend].
  - left. subst t. apply in_map. exact Hdef.
  - right. subst t t0. rewrite endof_suffix. left. reflexivity.
Qed.
Print Assumptions push_code_closed.

Lemma push_code_labels : forall dst body n,
  all_labels (push_code dst body n)
  = all_labels dst ++ map (suffix_of n) (all_labels body ++ [".endof"%string]).
Proof.
  intros dst body n. unfold push_code, append_code.
  rewrite !all_labels_app, rename_labels, map_app, <- app_assoc.
  cbn [map]. rewrite endof_suffix. reflexivity.
Qed.

(** freshness: inlining with a counter no existing label was made with keeps labels unique *)
Theorem push_code_nodup : forall (dst body : code) (n : N),
  NoDup (all_labels dst) -> NoDup (all_labels body) ->
  ~ In ".endof"%string (all_labels body) ->
  (forall l, In l (all_labels dst) -> forall l0, l <> suffix_of n l0) ->
  NoDup (all_labels (push_code dst body n)).
Proof.
  intros dst body n Hdst Hbody Hend Hfresh.
  rewrite push_code_labels. apply (nodup_insert _ [] _).
  - apply NoDup_map_suffix. apply (nodup_insert _ [] _).
    + constructor; [intros []|constructor].
    + exact Hbody.
    + intros x Hx [Hx'|[]]. subst x. exact (Hend Hx).
  - exact Hdst.
  - intros x Hx Hin. apply in_map_iff in Hin. destruct Hin as [l0 [Hl0 _]].
    exact (Hfresh x Hx l0 (eq_sym Hl0)).
Qed.
Print Assumptions push_code_nodup.

Theorem push_code_new_labels : forall (dst body : code) (n : N) (l : string),
  In l (all_labels (push_code dst body n)) ->
  In l (all_labels dst) \/ exists l0, l = suffix_of n l0.
Proof.
  intros dst body n l H. rewrite push_code_labels in H. apply in_app_or in H.
  destruct H as [H|H]; [left; exact H|right].
  apply in_map_iff in H. destruct H as [l0 [Hl0 _]]. exists l0. symmetry. exact Hl0.
Qed.
Print Assumptions push_code_new_labels.

(** the freshness hypothesis of [push_code_nodup] for a counter [n] survives an inlining made
    with another counter [m], whatever the inlined body (in particular a body that itself
    contains suffixed labels of earlier, nested, inlinings) *)
Theorem push_code_fresh_preserved : forall (dst body : code) (m n : N),
  n <> m ->
  (forall l, In l (all_labels dst) -> forall l0, l <> suffix_of n l0) ->
  forall l, In l (all_labels (push_code dst body m)) -> forall l0, l <> suffix_of n l0.
Proof.
  intros dst body m n Hnm Hfresh l Hl l0 Heq.
  apply push_code_new_labels in Hl. destruct Hl as [Hl|[l1 Hl1]].
  - exact (Hfresh l Hl l0 Heq).
  - subst l. symmetry in Heq. exact (suffix_counters_differ n m l0 l1 Hnm Heq).
Qed.
Print Assumptions push_code_fresh_preserved.

Theorem push_code_twice_nodup : forall (dst b1 b2 : code) (n1 n2 : N),
  n1 <> n2 ->
  NoDup (all_labels dst) -> NoDup (all_labels b1) -> NoDup (all_labels b2) ->
  ~ In ".endof"%string (all_labels b1) -> ~ In ".endof"%string (all_labels b2) ->
  (forall l, In l (all_labels dst) -> forall l0, l <> suffix_of n1 l0) ->
  (forall l, In l (all_labels dst) -> forall l0, l <> suffix_of n2 l0) ->
  NoDup (all_labels (push_code (push_code dst b1 n1) b2 n2)).
Proof.
  intros dst b1 b2 n1 n2 Hne Hdst Hb1 Hb2 He1 He2 Hf1 Hf2.
  apply push_code_nodup.
  - apply push_code_nodup; assumption.
  - exact Hb2.
  - exact He2.
  - apply push_code_fresh_preserved; [intros E; apply Hne; symmetry; exact E|exact Hf2].
Qed.
Print Assumptions push_code_twice_nodup.

(** a label that ends with a suffix of counter [n] applied after a suffix of counter [k]
    (nested inlining) can be read back level by level *)
Theorem suffix_nested_inj : forall n1 n2 k1 k2 l1 l2,
  suffix_of n1 (suffix_of k1 l1) = suffix_of n2 (suffix_of k2 l2) ->
  n1 = n2 /\ k1 = k2 /\ l1 = l2.
Proof.
  intros n1 n2 k1 k2 l1 l2 H. apply suffix_of_inj in H. destruct H as [Hn H].
  apply suffix_of_inj in H. destruct H as [Hk Hl]. auto.
Qed.
Print Assumptions suffix_nested_inj.
