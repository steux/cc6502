(** POINTER operations (Model/GenPtr.v) on the executable 6502 semantics (M6502/Sem.v): for ALL
    byte-valued machine states, [ports cfg = []], [Sem.run] halts normally ([halts_to]) and the
    final state is what the C statement says.

    The layout hypotheses, explicit in every statement:
      [zp_ptr cfg p pp]      the pointer [p] occupies the two consecutive ZERO-PAGE cells [pp], [pp+1]
                             ([exec] resolves [(p),Y] only when [pp < 255]: [eff_addr], [OInd]);
      [tmp_wf cfg pp pt]     the scratch cell [cctmp] is at [pt], outside the stack page, not a cell
                             of the pointer;  [ptr_wf] = both;
      [var_wf cfg x px pp pt]  the 8-bit variable [x] is at [px], outside the stack page, not a cell
                             of the pointer, not the scratch cell;
      [no_self_alias pp pt t]  THE ALIASING HYPOTHESIS: the cell [t] the pointer designates (its
                             16-bit value plus the index, mod 65536) is none of [pp], [pp+1], [pt].
                             It MAY be the cell of any variable or array element.
    [ptr_val st pp] = lo + 256 * hi of the two cells of the pointer; [ptr_at m pp y] = the cell
    [(p),Y] designates when Y = [y]: [(ptr_val + y) mod 65536].

    [deref_load_correct]    [dst = *p;]     dst' = mem[(p)]; Y restored (X, S kept); only [dst] and
                            [cctmp] changed
    [deref_store_correct]   [*p = src;]     mem'[(p)] = src (variable or constant); only that cell
                            and [cctmp] changed
    [idx_load_correct], [idx_store_correct]      the constant-index forms [p[k]]
    [idx_y_load_correct], [idx_y_store_correct]  Y is the index: no parking, no aliasing hypothesis
    [addr_of_correct], [ptr_copy_correct]        [p = &x;] / [p = arr;]: [ptr_val] = the address;
                            [q = p;]
    [addr_of_deref_correct], [addr_of_idx_load_correct]   [p = &x; dst = *p;]: dst' = x;
                            [p = arr; dst = p[k];]: dst' = arr[k] (no aliasing hypothesis on the
                            state: the layout says where [p] points)
    [ptr_inc_correct], [ptr_dec_correct], [ptr_add_correct]   (v + 1), (v - 1), (v + k) mod 65536
    [deref_inc_correct], [deref_add_correct], [deref_plus_correct]   [( *p )++;], [*p += k;],
                            [dst = *p + y;]
    [if_deref_tpl_correct]  [if ( *p ) B] for ANY body [B] (specification on byte-valued states, no
                            RTS / RTI, the end label fresh): when the designated cell is not 0 the
                            body runs from a state with Y RESTORED; when it is 0 control arrives
                            at the end label in [deref_tested st pt 0]: Y = 0
    [if_deref_taken_correct], [if_deref_zero_y_lost], [if_deref_zero_y_changed]   the two halves
                            for the body [dst = k;]: the listing does NOT restore Y when [*p] = 0
    [if_deref_y_not_restored]   the Coq-checked witness of that defect: the exact listing run by
                            [Sem.run] on a concrete state with Y = 7 ends with Y = 0
    One layout hypothesis [ptr_layout], satisfiable ([cfg_ptr_layout]), gives the hypotheses of all
    of them for the declarations of the 17 listings ([ptr_layout_p]); the closed forms of the
    listings are in Props/C01ptr.v. *)
From Coq Require Import String Ascii List Bool Arith NArith ZArith Lia ZifyBool.
From CC Require Import Base.Str Asm.Lines M6502.Isa Asm.Operand M6502.Sem
  Model.OptSem Proofs.OptSemFacts Proofs.ExecFacts Model.GenTemplates Proofs.GenTemplatesFacts
  Proofs.GenCmp16Facts Model.GenLoops Proofs.GenLoopsFacts
  Model.GenIf Proofs.GenIfFacts Proofs.GenSplitFacts Model.GenPtr.
Import ListNotations.
Open Scope string_scope.
Open Scope list_scope.
Open Scope Z_scope.

Lemma parse_sym_ident : forall v, v <> ""%string -> all_ident v = true -> parse_sym_off v = Some (v, 0).
Proof.
  intros v Hne Hid. unfold parse_sym_off. rewrite (ident_no_plus _ Hid).
  destruct (String.eqb_spec v ""); [contradiction|reflexivity].
Qed.
Print Assumptions parse_sym_ident.

Lemma parse_paren_ident : forall c r, is_ident_char c = true ->
  parse_paren_sym_off (String c r) = parse_sym_off (String c r).
Proof.
  intros c r H. destruct c as [b0 b1 b2 b3 b4 b5 b6 b7].
  (* the match tests the bits of "(" one after the other *)
  destruct b0; [reflexivity|]. destruct b1; [reflexivity|]. destruct b2; [reflexivity|].
  destruct b3; [|reflexivity]. destruct b4; [reflexivity|]. destruct b5; [|reflexivity].
  destruct b6; [reflexivity|]. destruct b7; [reflexivity|]. discriminate H.
Qed.
Print Assumptions parse_paren_ident.

(** [p] is a pointer symbol: a plain symbol whose indirect text denotes [(p),Y] *)
Definition ptr_name (p : string) : Prop :=
  var_name p /\
  forall m, takes_label m = false -> parse_operand m (ind p) = Some (OInd p 0).

(** [x] is a symbol whose address bytes can be taken *)
Definition sym_name (x : string) : Prop :=
  forall m, takes_label m = false ->
    parse_operand m (immlo x) = Some (OImm (ILo x 0)) /\
    parse_operand m (immhi x) = Some (OImm (IHi x 0)).

Theorem ident_ptr_name : forall v, v <> ""%string -> all_ident v = true -> ptr_name v.
Proof.
  intros v Hne Hid. split; [apply ident_var_name; assumption|].
  intros m Hm. rewrite parse_operand_eq, Hm. unfold ind. cbn [append].
  change (String.eqb (String "(" (v ++ "),Y")) "") with false. cbv iota.
  change (Ascii.eqb "("%char "#"%char) with false.
  change (Ascii.eqb "("%char "("%char) with true. cbv iota.
  unfold parse_ind. rewrite StrFacts.strip_suffix_app. rewrite (parse_sym_ident v Hne Hid). reflexivity.
Qed.
Print Assumptions ident_ptr_name.

Theorem ident_sym_name : forall v, v <> ""%string -> all_ident v = true -> sym_name v.
Proof.
  intros v Hne Hid m Hm.
  assert (Hp : parse_paren_sym_off v = Some (v, 0)).
  { destruct v as [|c r]; [contradiction|].
    pose proof Hid as Hid'. cbn [all_ident] in Hid'. apply andb_true_iff in Hid'.
    rewrite (parse_paren_ident c r (proj1 Hid')). apply parse_sym_ident; assumption. }
  split; rewrite parse_operand_eq, Hm; unfold immlo, immhi; cbn [append String.eqb];
    rewrite Ascii.eqb_refl; cbn [parse_imm]; rewrite Hp; reflexivity.
Qed.
Print Assumptions ident_sym_name.

Lemma pn_var : forall p, ptr_name p -> var_name p.
Proof. intros p H. exact (proj1 H). Qed.
Print Assumptions pn_var.
Lemma pn_ind : forall p, ptr_name p -> forall m, takes_label m = false ->
  parse_operand m (ind p) = Some (OInd p 0).
Proof. intros p H. exact (proj2 H). Qed.
Print Assumptions pn_ind.
Lemma sn_lo : forall x, sym_name x -> forall m, takes_label m = false ->
  parse_operand m (immlo x) = Some (OImm (ILo x 0)).
Proof. intros x H m Hm. exact (proj1 (H m Hm)). Qed.
Print Assumptions sn_lo.
Lemma sn_hi : forall x, sym_name x -> forall m, takes_label m = false ->
  parse_operand m (immhi x) = Some (OImm (IHi x 0)).
Proof. intros x H m Hm. exact (proj2 (H m Hm)). Qed.
Print Assumptions sn_hi.

Print Assumptions cctmp_var_name.

(** the 16-bit value of the pointer at [pp] and the cell [(p),Y] designates when Y = [y] *)
Definition ptr_val (st : mstate) (pp : Z) : Z := word (mem st) pp.
Definition ptr_at (m : memory) (pp y : Z) : Z := (word m pp + y) mod 65536.

Definition ind_cross (s : mstate) (pp : Z) : bool :=
  negb ((word (mem s) pp + rY s) / 256 =? word (mem s) pp / 256).

Lemma eff_addr_ind : forall cfg m s p pp, ports cfg = [] ->
  layout cfg p = Some pp -> 0 <= pp -> pp + 1 < 256 ->
  eff_addr cfg m s (OInd p 0) = Some (ptr_at (mem s) pp (rY s), IndY, ind_cross s pp).
Proof.
  intros cfg m s p pp Hp Hl H0 H1. unfold eff_addr, ptr_at, ind_cross, word. rewrite Hl, Hp.
  rewrite Z.add_0_r. cbn [read_addr].
  destruct (Z.ltb_spec pp 255); [reflexivity|lia].
Qed.
Print Assumptions eff_addr_ind.

Lemma exec_rd_ind : forall cfg p pp, ports cfg = [] ->
  layout cfg p = Some pp -> 0 <= pp -> pp + 1 < 256 -> forall m s, is_rd m = true ->
  exec cfg m (OInd p 0) s
  = XOk (rd_sem m s (mget (mem s) (ptr_at (mem s) pp (rY s)))) (cyc m IndY (ind_cross s pp)) FNext.
Proof.
  intros cfg p pp Hp Hl H0 H1 m s Hm.
  apply (exec_rd_eff cfg m _ s _ _ _ _ Hm (eff_addr_ind cfg m s p pp Hp Hl H0 H1)).
  rewrite Hp. reflexivity.
Qed.
Print Assumptions exec_rd_ind.

Lemma exec_st_ind : forall cfg p pp, ports cfg = [] ->
  layout cfg p = Some pp -> 0 <= pp -> pp + 1 < 256 -> forall m s, is_st m = true ->
  exec cfg m (OInd p 0) s
  = XOk (set_mem s (mset (mem s) (ptr_at (mem s) pp (rY s)) (st_reg m s)))
        (cyc m IndY (ind_cross s pp)) FNext.
Proof.
  intros cfg p pp Hp Hl H0 H1 m s Hm.
  apply (exec_st_eff cfg m _ s _ _ _ _ Hm (eff_addr_ind cfg m s p pp Hp Hl H0 H1)).
  rewrite Hp. reflexivity.
Qed.
Print Assumptions exec_st_ind.

Lemma exec_rd_immlo : forall cfg x px, layout cfg x = Some px -> forall m s, is_rd m = true ->
  exec cfg m (OImm (ILo x 0)) s = XOk (rd_sem m s (byte px)) (base_cycles m Imm) FNext.
Proof.
  intros cfg x px Hl m s Hm.
  destruct m; try discriminate Hm; unfold exec, read_operand, imm_value; rewrite Hl, Z.add_0_r;
    reflexivity.
Qed.
Print Assumptions exec_rd_immlo.

Lemma exec_rd_immhi : forall cfg x px, layout cfg x = Some px -> forall m s, is_rd m = true ->
  exec cfg m (OImm (IHi x 0)) s = XOk (rd_sem m s (byte (px / 256))) (base_cycles m Imm) FNext.
Proof.
  intros cfg x px Hl m s Hm.
  destruct m; try discriminate Hm; unfold exec, read_operand, imm_value; rewrite Hl, Z.add_0_r;
    reflexivity.
Qed.
Print Assumptions exec_rd_immhi.

(** the pointer [p] occupies the two consecutive ZERO-PAGE cells [pp], [pp+1] (the indirect
    indexed mode takes its base address from page zero only) *)
Definition zp_ptr (cfg : config) (p : string) (pp : Z) : Prop :=
  ptr_name p /\ layout cfg p = Some pp /\ 0 <= pp /\ pp + 1 < 256.

(** the scratch cell [cctmp] is at [pt]: not a cell of the pointer, outside the stack page *)
Definition tmp_wf (cfg : config) (pp pt : Z) : Prop :=
  layout cfg cctmp = Some pt /\ 0 <= pt < 65536 /\ ~ (256 <= pt < 512) /\
  pt <> pp /\ pt <> pp + 1.

Definition ptr_wf (cfg : config) (p : string) (pp pt : Z) : Prop :=
  zp_ptr cfg p pp /\ tmp_wf cfg pp pt.

(** an 8-bit variable [x] at [px]: not a cell of the pointer, not the scratch cell, outside the
    stack page *)
Definition var_wf (cfg : config) (x : string) (px pp pt : Z) : Prop :=
  var_name x /\ layout cfg x = Some px /\ 0 <= px < 65536 /\ ~ (256 <= px < 512) /\
  px <> pp /\ px <> pp + 1 /\ px <> pt.

(** THE ALIASING HYPOTHESIS: the cell [t] the pointer designates is none of the pointer's own two
    cells nor the scratch cell.  (It MAY be the cell of any variable, of an array element, of
    another pointer: that is the point of a pointer.) *)
Definition no_self_alias (pp pt t : Z) : Prop := t <> pp /\ t <> pp + 1 /\ t <> pt.

(** * Running a template

    By [run_tac] of Proofs/GenTemplatesFacts.v: the parse facts and one-step equations of the operand
    forms of this file ([pn_ind], [sn_lo], [sn_hi]; [exec_rd_ind] ..., applied to the pointer or the
    symbol) are put in the context, where [parse_tac] and [exec_solve] find them. *)

Lemma ptr_at_range : forall m pp y, 0 <= ptr_at m pp y < 65536.
Proof. intros m pp y. unfold ptr_at. apply Z.mod_pos_bound. lia. Qed.
Print Assumptions ptr_at_range.

Lemma word_mset_other : forall m a v p, a <> p -> a <> p + 1 -> 0 <= a -> 0 <= p ->
  word (mset m a v) p = word m p.
Proof.
  intros m a v p H0 H1 Ha Hp. unfold word. rewrite !mget_mset_other by lia. reflexivity.
Qed.
Print Assumptions word_mset_other.

Lemma ptr_at_mset_other : forall m a v p y, a <> p -> a <> p + 1 -> 0 <= a -> 0 <= p ->
  ptr_at (mset m a v) p y = ptr_at m p y.
Proof. intros. unfold ptr_at. rewrite word_mset_other by assumption. reflexivity. Qed.
Print Assumptions ptr_at_mset_other.

(** [keeps_xys] of a parked template: Y is read back from the scratch cell *)
Ltac prestored := split; [reflexivity|split; [mem_simp; reflexivity|reflexivity]].

(** ** loads through the pointer

    Of the aliasing hypothesis a load uses one part: the designated cell is not the scratch cell. *)
Lemma idx_load_any : forall cfg dst p k pd pp pt st,
  ports cfg = [] -> ptr_wf cfg p pp pt -> var_wf cfg dst pd pp pt -> 0 <= k < 256 ->
  ptr_at (mem st) pp k <> pt ->
  exists st', halts_to cfg (idx_load dst p k) st st' /\
    mget (mem st') pd = mget (mem st) (ptr_at (mem st) pp k) /\
    only_changes [pd; pt] st st' /\ keeps_xys st st'.
Proof.
  intros cfg dst p k pd pp pt st Hp ((Np & Lp & Rp & Rp') & Lt & Rt & _ & Dt & Dt')
    (Nd & Ld & Rd & _ & _ & _ & Dd) Rk Al.
  pose proof (pn_var p Np). pose proof (pn_ind p Np). pose proof cctmp_var_name.
  pose proof (exec_rd_ind cfg p pp Hp Lp Rp Rp').
  pose proof (ptr_at_range (mem st) pp k).
  eexists. split; [apply runs_to_halts_to; cbn [idx_load park]; run_tac|]. post_tac.
  rewrite ptr_at_mset_other, (byte_id k) by lia.
  split; [mem_simp; reflexivity|]. split; [msets_frame|prestored].
Qed.

Theorem idx_load_correct : forall cfg dst p k pd pp pt st,
  ports cfg = [] -> ptr_wf cfg p pp pt -> var_wf cfg dst pd pp pt -> 0 <= k < 256 ->
  bytes_ok st ->
  no_self_alias pp pt (ptr_at (mem st) pp k) ->
  exists st', halts_to cfg (idx_load dst p k) st st' /\
    mget (mem st') pd = mget (mem st) (ptr_at (mem st) pp k) /\
    only_changes [pd; pt] st st' /\ keeps_xys st st'.
Proof.
  intros cfg dst p k pd pp pt st Hp Wp Wd Rk _ (_ & _ & Al).
  exact (idx_load_any cfg dst p k pd pp pt st Hp Wp Wd Rk Al).
Qed.
Print Assumptions idx_load_correct.

Lemma ptr_at_zero : forall st pp, bytes_ok st -> ptr_at (mem st) pp 0 = ptr_val st pp.
Proof.
  intros st pp Hb. unfold ptr_at, ptr_val. rewrite Z.add_0_r.
  apply Z.mod_small. apply word_range. apply Hb.
Qed.
Print Assumptions ptr_at_zero.

Theorem deref_load_correct : forall cfg dst p pd pp pt st,
  ports cfg = [] -> ptr_wf cfg p pp pt -> var_wf cfg dst pd pp pt ->
  bytes_ok st ->
  no_self_alias pp pt (ptr_val st pp) ->
  exists st', halts_to cfg (deref_load dst p) st st' /\
    mget (mem st') pd = mget (mem st) (ptr_val st pp) /\
    only_changes [pd; pt] st st' /\ keeps_xys st st'.
Proof.
  intros cfg dst p pd pp pt st Hp Wp Wd Hb Hal.
  rewrite <- (ptr_at_zero st pp Hb) in *.
  apply (idx_load_correct cfg dst p 0 pd pp pt st Hp Wp Wd ltac:(lia) Hb Hal).
Qed.
Print Assumptions deref_load_correct.

(** the source of a parked store: a variable as above, or a byte constant *)
Definition src_wf (cfg : config) (s : src8) (pp pt : Z) : Prop :=
  match s with
  | SVar x => exists px, var_wf cfg x px pp pt
  | SConst k => 0 <= k < 256
  end.

(** the source of a store without parking: any variable, or a byte constant *)
Definition src_ok (cfg : config) (s : src8) : Prop :=
  match s with
  | SVar x => var_at cfg x
  | SConst k => 0 <= k < 256
  end.

Definition src_val (cfg : config) (s : src8) (st : mstate) : Z :=
  match s with SVar x => var_val cfg x st | SConst k => k end.

Theorem idx_store_correct : forall cfg p k src pp pt st,
  ports cfg = [] -> ptr_wf cfg p pp pt -> src_wf cfg src pp pt -> 0 <= k < 256 ->
  bytes_ok st ->
  no_self_alias pp pt (ptr_at (mem st) pp k) ->
  exists st', halts_to cfg (idx_store p k src) st st' /\
    mget (mem st') (ptr_at (mem st) pp k) = src_val cfg src st /\
    only_changes [ptr_at (mem st) pp k; pt] st st' /\ keeps_xys st st'.
Proof.
  intros cfg p k src pp pt st Hp ((Np & Lp & Rp & Rp') & Lt & Rt & _ & Dt & Dt') Ws Rk _
    (_ & _ & Al).
  pose proof (pn_var p Np). pose proof (pn_ind p Np). pose proof cctmp_var_name.
  pose proof (exec_st_ind cfg p pp Hp Lp Rp Rp').
  pose proof (ptr_at_range (mem st) pp k).
  destruct src as [x|c]; cbn [src_wf src_val] in *.
  - destruct Ws as (px & Nx & Lx & Rx & _ & _ & _ & Dx). rewrite (var_val_at cfg x px st Lx).
    eexists. split; [apply runs_to_halts_to; cbn [idx_store park src_text]; run_tac|]. post_tac.
    rewrite ptr_at_mset_other, (byte_id k) by lia.
    split; [mem_simp; reflexivity|]. split; [msets_frame|prestored].
  - eexists. split; [apply runs_to_halts_to; cbn [idx_store park src_text]; run_tac|]. post_tac.
    rewrite ptr_at_mset_other, (byte_id k), (byte_id c) by lia.
    split; [mem_simp; reflexivity|]. split; [msets_frame|prestored].
Qed.
Print Assumptions idx_store_correct.

Theorem deref_store_correct : forall cfg p src pp pt st,
  ports cfg = [] -> ptr_wf cfg p pp pt -> src_wf cfg src pp pt ->
  bytes_ok st ->
  no_self_alias pp pt (ptr_val st pp) ->
  exists st', halts_to cfg (deref_store p src) st st' /\
    mget (mem st') (ptr_val st pp) = src_val cfg src st /\
    only_changes [ptr_val st pp; pt] st st' /\ keeps_xys st st'.
Proof.
  intros cfg p src pp pt st Hp Wp Ws Hb Hal.
  rewrite <- (ptr_at_zero st pp Hb) in *.
  apply (idx_store_correct cfg p 0 src pp pt st Hp Wp Ws ltac:(lia) Hb Hal).
Qed.
Print Assumptions deref_store_correct.

(** ** Y is the index: no parking, no aliasing hypothesis *)
Theorem idx_y_load_correct : forall cfg dst p pd pp st,
  ports cfg = [] -> zp_ptr cfg p pp ->
  var_name dst -> layout cfg dst = Some pd -> 0 <= pd < 65536 ->
  exists st', halts_to cfg (idx_y_load dst p) st st' /\
    mget (mem st') pd = mget (mem st) (ptr_at (mem st) pp (rY st)) /\
    only_changes [pd] st st' /\ keeps_xys st st'.
Proof.
  intros cfg dst p pd pp st Hp (Np & Lp & Rp & Rp') Nd Ld Rd.
  pose proof (pn_ind p Np). pose proof (exec_rd_ind cfg p pp Hp Lp Rp Rp').
  eexists. split; [apply runs_to_halts_to; cbn [idx_y_load]; run_tac|]. post_tac.
  split; [apply mget_mset_same|]. frame_tac.
Qed.
Print Assumptions idx_y_load_correct.

Theorem idx_y_store_correct : forall cfg p src pp st,
  ports cfg = [] -> zp_ptr cfg p pp -> src_ok cfg src ->
  exists st', halts_to cfg (idx_y_store p src) st st' /\
    mget (mem st') (ptr_at (mem st) pp (rY st)) = src_val cfg src st /\
    only_changes [ptr_at (mem st) pp (rY st)] st st' /\ keeps_xys st st'.
Proof.
  intros cfg p src pp st Hp (Np & Lp & Rp & Rp') Ws.
  pose proof (pn_ind p Np). pose proof (exec_st_ind cfg p pp Hp Lp Rp Rp').
  pose proof (ptr_at_range (mem st) pp (rY st)).
  destruct src as [x|c]; cbn [src_ok src_val] in *.
  - destruct Ws as (Nx & px & Lx & Rx). rewrite (var_val_at cfg x px st Lx).
    eexists. split; [apply runs_to_halts_to; cbn [idx_y_store src_text]; run_tac|]. post_tac.
    split; [apply mget_mset_same|]. frame_tac.
  - eexists. split; [apply runs_to_halts_to; cbn [idx_y_store src_text]; run_tac|]. post_tac. rewrite (byte_id c) by lia.
    split; [apply mget_mset_same|]. frame_tac.
Qed.
Print Assumptions idx_y_store_correct.

(** ** [p = &x;] / [p = arr;]: the pointer holds the address of the symbol *)

Lemma word_addr : forall m pp px, 0 <= pp -> 0 <= px < 65536 ->
  word (mset (mset m pp (byte px)) (pp + 1) (byte (px / 256))) pp = px.
Proof.
  intros m pp px Hpp Hpx. unfold word. rewrite mget_mset_same.
  rewrite mget_mset_other by lia. rewrite mget_mset_same. arith_tac.
Qed.
Print Assumptions word_addr.

Theorem addr_of_correct : forall cfg p x pp px st,
  ports cfg = [] -> var_name p -> sym_name x ->
  layout cfg p = Some pp -> layout cfg x = Some px ->
  0 <= pp -> pp + 1 < 65536 -> 0 <= px < 65536 ->
  exists st', halts_to cfg (addr_of_tpl p x) st st' /\
    ptr_val st' pp = px /\
    only_changes [pp; pp + 1] st st' /\ keeps_xys st st'.
Proof.
  intros cfg p x pp px st Hp Np Nx Lp Lx Rp Rp' Rx.
  pose proof (sn_lo x Nx). pose proof (sn_hi x Nx).
  pose proof (exec_rd_immlo cfg x px Lx). pose proof (exec_rd_immhi cfg x px Lx).
  eexists. split; [apply runs_to_halts_to; cbn [addr_of_tpl]; run_tac|]. post_tac. unfold ptr_val. state_simp.
  split; [apply word_addr; lia|]. frame_tac.
Qed.
Print Assumptions addr_of_correct.

Theorem ptr_copy_correct : forall cfg q p pq pp st,
  ports cfg = [] -> var_name q -> var_name p ->
  layout cfg q = Some pq -> layout cfg p = Some pp ->
  0 <= pq -> pq + 1 < 65536 -> 0 <= pp -> pp + 1 < 65536 -> pq <> pp + 1 ->
  exists st', halts_to cfg (ptr_copy_tpl q p) st st' /\
    ptr_val st' pq = ptr_val st pp /\
    only_changes [pq; pq + 1] st st' /\ keeps_xys st st'.
Proof.
  intros cfg q p pq pp st Hp Nq Np Lq Lp Rq Rq' Rp Rp' Hne.
  destruct (copy2_gen cfg (Cell pp) pq (Cell (pp + 1)) (pq + 1) p q (hi p) (hi q) st)
    as (st' & Hr & _ & _ & Hw & Hf);
    [apply cell_r, cell_var|apply cell_w, cell_var|apply cell_r, cell_varh|apply cell_w, cell_varh|cbn; lia|lia|];
    try assumption; try lia.
  exists st'. split; [apply runs_to_halts_to; exact Hr|]. split; [exact Hw|exact Hf].
Qed.
Print Assumptions ptr_copy_correct.

Lemma halts_to_app : forall cfg a b st s1 s2,
  no_ret a -> no_ret b -> (forall l, In l (defs b) -> ~ In l (defs a)) ->
  halts_to cfg a st s1 -> halts_to cfg b s1 s2 -> halts_to cfg (a ++ b) st s2.
Proof.
  intros cfg a b st s1 s2 Na Nb Hd (sa & Ea & N1 & H1) (sb & Eb & N2 & H2).
  destruct (halts_to_reach cfg (a ++ b) (sa ++ sb) st (eq s2) (slines_app a b sa sb Ea Eb))
    as (s' & Hh & <-); [|exact Hh].
  apply reach_seq.
  apply (reach_body cfg (sa ++ sb) sa [] sb 0 N1 st s1);
    [reflexivity|reflexivity|exact H1|exact (slines_no_ret a sa Ea Na)|intros l _ []|].
  intros n1 _. cbn [length Nat.add].
  apply (reach_body cfg (sa ++ sb) sb sa [] (length sa) N2 s1 s2);
    [rewrite app_nil_r; reflexivity|reflexivity|exact H2|exact (slines_no_ret b sb Eb Nb)| |].
  - intros l. rewrite (slines_defs a sa Ea), (slines_defs b sb Eb). apply Hd.
  - intros n2 _. split; [rewrite app_length; reflexivity|reflexivity].
Qed.

Lemma only_changes_app : forall d1 d2 s1 s2 s3,
  only_changes d1 s1 s2 -> only_changes d2 s2 s3 -> only_changes (d1 ++ d2) s1 s3.
Proof.
  intros d1 d2 s1 s2 s3 H1 H2 a Ha Hn.
  rewrite H2, H1; [reflexivity|exact Ha| |exact Ha|]; intros K; apply Hn, in_or_app; tauto.
Qed.

(** ** address-of, then a load through the pointer: [p = arr; dst = p[k];] reads [arr[k]] *)
Theorem addr_of_idx_load_correct : forall cfg p x dst k px pd pp pt st,
  ports cfg = [] -> ptr_wf cfg p pp pt -> sym_name x -> layout cfg x = Some px ->
  0 <= px -> 0 <= k < 256 -> px + k < 65536 ->
  var_wf cfg dst pd pp pt ->
  no_self_alias pp pt (px + k) ->
  exists st', halts_to cfg (addr_of_tpl p x ++ idx_load dst p k) st st' /\
    mget (mem st') pd = mget (mem st) (px + k) /\
    ptr_val st' pp = px /\
    only_changes [pp; pp + 1; pd; pt] st st' /\ keeps_xys st st'.
Proof.
  intros cfg p x dst k px pd pp pt st Hp Wp Nx Lx Rx Rk Rxk Wd (A0 & A1 & A2).
  pose proof Wp as ((Np & Lp & Rp & Rp') & _ & Rt & _ & Dt & Dt').
  pose proof Wd as (_ & _ & Rd & _ & Dd & Dd' & _).
  destruct (addr_of_correct cfg p x pp px st Hp (pn_var p Np) Nx Lp Lx Rp ltac:(lia) ltac:(lia))
    as (s1 & H1 & V1 & F1 & K1).
  assert (E : ptr_at (mem s1) pp k = px + k).
  { unfold ptr_at. fold (ptr_val s1 pp). rewrite V1. apply Z.mod_small. lia. }
  destruct (idx_load_any cfg dst p k pd pp pt s1 Hp Wp Wd Rk) as (s2 & H2 & V2 & F2 & K2);
    [rewrite E; exact A2|].
  exists s2. split; [apply halts_to_app with (s1 := s1); [reflexivity|reflexivity|intros l []|exact H1|exact H2]|].
  rewrite V2, E. split; [apply F1; [lia|cbn [In]; lia]|].
  split; [rewrite <- V1; unfold ptr_val, word; rewrite !F2 by (cbn [In]; lia); reflexivity|].
  split; [exact (only_changes_app _ _ _ _ _ F1 F2)|exact (keeps_xys_trans st s1 s2 K1 K2)].
Qed.
Print Assumptions addr_of_idx_load_correct.

(** [p = &x; dst = *p;]: [dst] holds [x] *)
Theorem addr_of_deref_correct : forall cfg p x dst px pd pp pt st,
  ports cfg = [] -> ptr_wf cfg p pp pt -> sym_name x ->
  var_wf cfg x px pp pt -> var_wf cfg dst pd pp pt ->
  exists st', halts_to cfg (addr_of_tpl p x ++ deref_load dst p) st st' /\
    mget (mem st') pd = mget (mem st) px /\
    ptr_val st' pp = px /\
    only_changes [pp; pp + 1; pd; pt] st st' /\ keeps_xys st st'.
Proof.
  intros cfg p x dst px pd pp pt st Hp Wp Nx Wx Wd.
  destruct Wx as (_ & Lx & Rx & _ & D0 & D1 & D2).
  destruct (addr_of_idx_load_correct cfg p x dst 0 px pd pp pt st Hp Wp Nx Lx ltac:(lia) ltac:(lia)
              ltac:(lia) Wd) as (st' & Hr & Hv & Hf).
  { rewrite Z.add_0_r. repeat split; assumption. }
  rewrite Z.add_0_r in Hv. exists st'. split; [exact Hr|]. split; [exact Hv|exact Hf].
Qed.
Print Assumptions addr_of_deref_correct.

(** ** pointer arithmetic: the 16-bit forms, element size 1 *)
Theorem ptr_inc_correct : forall cfg p lbl pp st,
  ports cfg = [] -> var_name p -> lbl <> ""%string -> layout cfg p = Some pp ->
  0 <= pp -> pp + 1 < 65536 -> bytes_ok st ->
  exists st', halts_to cfg (ptr_inc p lbl) st st' /\
    ptr_val st' pp = (ptr_val st pp + 1) mod 65536 /\
    only_changes [pp; pp + 1] st st' /\ keeps_xys st st'.
Proof.
  intros. apply halts_of_runs, (inc2_gen cfg pp (pp + 1));
    [apply cell_m, cell_var|apply cell_m, cell_varh|lia|..]; try assumption; lia.
Qed.
Print Assumptions ptr_inc_correct.

Theorem ptr_dec_correct : forall cfg p lbl pp st,
  ports cfg = [] -> var_name p -> lbl <> ""%string -> layout cfg p = Some pp ->
  0 <= pp -> pp + 1 < 65536 -> bytes_ok st ->
  exists st', halts_to cfg (ptr_dec p lbl) st st' /\
    ptr_val st' pp = (ptr_val st pp - 1) mod 65536 /\
    only_changes [pp; pp + 1] st st' /\ keeps_xys st st'.
Proof.
  intros. apply halts_of_runs, (dec2_gen cfg pp (pp + 1));
    [apply cell_r, cell_var|apply cell_m, cell_var|apply cell_m, cell_varh|lia|..]; try assumption; lia.
Qed.
Print Assumptions ptr_dec_correct.

Theorem ptr_add_correct : forall cfg p k pp st,
  ports cfg = [] -> var_name p -> layout cfg p = Some pp ->
  0 <= pp -> pp + 1 < 65536 -> 0 <= k < 65536 -> bytes_ok st ->
  exists st', halts_to cfg (ptr_add p k) st st' /\
    ptr_val st' pp = (ptr_val st pp + k) mod 65536 /\
    only_changes [pp; pp + 1] st st' /\ keeps_xys st st'.
Proof.
  intros. apply halts_of_runs, (arith16c_gen ADC (or_introl eq_refl) cfg (Cell pp) pp (Cell (pp + 1)) (pp + 1));
    [apply cell_r, cell_var|apply cell_w, cell_var|apply cell_r, cell_varh|apply cell_w, cell_varh|cbn; lia|lia|..];
    try assumption; lia.
Qed.
Print Assumptions ptr_add_correct.

(** ** [*p += k;], [( *p )++;], [dst = *p + y;] *)
Theorem deref_add_correct : forall cfg p k pp pt st,
  ports cfg = [] -> ptr_wf cfg p pp pt -> 0 <= k < 256 -> bytes_ok st ->
  no_self_alias pp pt (ptr_val st pp) ->
  exists st', halts_to cfg (deref_add p k) st st' /\
    mget (mem st') (ptr_val st pp) = (mget (mem st) (ptr_val st pp) + k) mod 256 /\
    only_changes [ptr_val st pp; pt] st st' /\ keeps_xys st st'.
Proof.
  intros cfg p k pp pt st Hp ((Np & Lp & Rp & Rp') & Lt & Rt & _ & Dt & Dt') Rk Hb Hal.
  rewrite <- (ptr_at_zero st pp Hb) in *. destruct Hal as (_ & _ & Al).
  pose proof (pn_var p Np). pose proof (pn_ind p Np). pose proof cctmp_var_name.
  pose proof (exec_rd_ind cfg p pp Hp Lp Rp Rp'). pose proof (exec_st_ind cfg p pp Hp Lp Rp Rp').
  pose proof (ptr_at_range (mem st) pp 0).
  eexists. split; [apply runs_to_halts_to; cbn [deref_add park]; run_tac|]. post_tac. change (byte 0) with 0.
  rewrite ptr_at_mset_other, (byte_id k) by lia.
  split; [mem_simp; reflexivity|]. split; [msets_frame|prestored].
Qed.
Print Assumptions deref_add_correct.

(** [( *p )++;]: the designated cell is incremented mod 256 *)
Theorem deref_inc_correct : forall cfg p pp pt st,
  ports cfg = [] -> ptr_wf cfg p pp pt -> bytes_ok st ->
  no_self_alias pp pt (ptr_val st pp) ->
  exists st', halts_to cfg (deref_inc p) st st' /\
    mget (mem st') (ptr_val st pp) = (mget (mem st) (ptr_val st pp) + 1) mod 256 /\
    only_changes [ptr_val st pp; pt] st st' /\ keeps_xys st st'.
Proof.
  intros cfg p pp pt st Hp Wp Hb Hal.
  apply (deref_add_correct cfg p 1 pp pt st Hp Wp ltac:(lia) Hb Hal).
Qed.
Print Assumptions deref_inc_correct.

Theorem deref_plus_correct : forall cfg dst p y pd py pp pt st,
  ports cfg = [] -> ptr_wf cfg p pp pt -> var_wf cfg dst pd pp pt -> var_wf cfg y py pp pt ->
  bytes_ok st ->
  no_self_alias pp pt (ptr_val st pp) ->
  exists st', halts_to cfg (deref_plus dst p y) st st' /\
    mget (mem st') pd = (mget (mem st) (ptr_val st pp) + mget (mem st) py) mod 256 /\
    only_changes [pd; pt] st st' /\ keeps_xys st st'.
Proof.
  intros cfg dst p y pd py pp pt st Hp ((Np & Lp & Rp & Rp') & Lt & Rt & _ & Dt & Dt')
    (Nd & Ld & Rd & _ & _ & _ & Dd) (Ny & Ly & Ry & _ & _ & _ & Dy) Hb Hal.
  rewrite <- (ptr_at_zero st pp Hb) in *. destruct Hal as (_ & _ & Al).
  pose proof (pn_var p Np). pose proof (pn_ind p Np). pose proof cctmp_var_name.
  pose proof (exec_rd_ind cfg p pp Hp Lp Rp Rp').
  pose proof (ptr_at_range (mem st) pp 0).
  eexists. split; [apply runs_to_halts_to; cbn [deref_plus park]; run_tac|]. post_tac. change (byte 0) with 0.
  rewrite ptr_at_mset_other by lia.
  split; [mem_simp; reflexivity|]. split; [msets_frame|prestored].
Qed.
Print Assumptions deref_plus_correct.

(** * The condition [if ( *p ) B]

    As emitted, the [BEQ] to the end label precedes the [LDY cctmp]: Y is restored only on the
    path into the body. *)

(** the state after [STY cctmp; LDY #0; LDA (p),Y] when the designated cell holds [v]: this is the
    state at the end label when [v = 0] (Y = 0: the parked value is NOT restored) ... *)
Definition deref_tested (st : mstate) (pt v : Z) : mstate :=
  set_nz (set_a (set_nz (set_y (set_mem st (mset (mem st) pt (rY st))) 0) 0) v) v.
(** ... and the state in which the body starts when [v <> 0]: Y restored *)
Definition deref_restored (st : mstate) (pt v : Z) : mstate :=
  set_nz (set_y (deref_tested st pt v) (rY st)) (rY st).

(** where the body starts: Y, X, S of [st]; memory of [st] but for the scratch cell *)
Lemma deref_restored_spec : forall st pt v,
  rY (deref_restored st pt v) = rY st /\ rX (deref_restored st pt v) = rX st /\
  rS (deref_restored st pt v) = rS st /\ rA (deref_restored st pt v) = v /\
  mem (deref_restored st pt v) = mset (mem st) pt (rY st).
Proof. intros st pt v. repeat split; reflexivity. Qed.
Print Assumptions deref_restored_spec.

(** where control arrives when the designated cell is 0: Y = 0 *)
Lemma deref_tested_spec : forall st pt v,
  rY (deref_tested st pt v) = 0 /\ rX (deref_tested st pt v) = rX st /\
  rS (deref_tested st pt v) = rS st /\ rA (deref_tested st pt v) = v /\
  mem (deref_tested st pt v) = mset (mem st) pt (rY st).
Proof. intros st pt v. repeat split; reflexivity. Qed.
Print Assumptions deref_tested_spec.

Definition sderef_head (p lbl : string) : list sline :=
  [SIns STY (OMem cctmp 0 IxNone) false cctmp;
   SIns LDY (OImm (INum 0)) false (imm 0);
   SIns LDA (OInd p 0) false (ind p);
   sbr BEQ lbl false;
   SIns LDY (OMem cctmp 0 IxNone) false cctmp].

Lemma slines_if_deref : forall p B slB lbl, ptr_name p -> lbl <> ""%string ->
  slines_of B = Some slB ->
  slines_of (if_deref_tpl p B lbl) = Some (sderef_head p lbl ++ slB ++ [SLbl lbl]).
Proof.
  intros p B slB lbl Np Hl HB. unfold if_deref_tpl. pose proof cctmp_var_name. pose proof (pn_ind p Np).
  apply slines_app; [unfold sderef_head, sbr; slines_tac|].
  apply slines_app; [exact HB|reflexivity].
Qed.
Print Assumptions slines_if_deref.

Lemma deref_restored_bytes_ok : forall st pt v, bytes_ok st -> 0 <= v < 256 ->
  bytes_ok (deref_restored st pt v).
Proof.
  intros st pt v (HA & HX & HY & HS & HM) Hv.
  destruct (deref_restored_spec st pt v) as (Ey & Ex & Es & Ea & Em).
  unfold bytes_ok. rewrite Ey, Ex, Es, Ea, Em.
  exact (conj Hv (conj HX (conj HY (conj HS (mget_mset_bytes _ _ _ HM HY))))).
Qed.
Print Assumptions deref_restored_bytes_ok.

Lemma if_deref_reach : forall cfg p lbl slB pp pt N (R : mstate -> mstate -> Prop) st,
  ports cfg = [] -> ptr_wf cfg p pp pt ->
  no_ret_s slB -> ~ In lbl (sdefs slB) -> bytes_ok st ->
  no_self_alias pp pt (ptr_val st pp) ->
  (mget (mem st) (ptr_val st pp) <> 0 ->
     exists st', sl_halts cfg slB N (deref_restored st pt (mget (mem st) (ptr_val st pp))) st' /\
                 R (deref_restored st pt (mget (mem st) (ptr_val st pp))) st') ->
  reach cfg (sderef_head p lbl ++ slB ++ [SLbl lbl]) 0 st
    (fun (_ pc' : nat) (s' : mstate) =>
      pc' = length (sderef_head p lbl ++ slB ++ [SLbl lbl]) /\
      if mget (mem st) (ptr_val st pp) =? 0
      then s' = deref_tested st pt 0
      else R (deref_restored st pt (mget (mem st) (ptr_val st pp))) s').
Proof.
  intros cfg p lbl slB pp pt N R st Hp ((Np & Lp & Rp & Rp') & Lt & Rt & _ & Dt & Dt') Hnr Fl Hb Hal
    Hbody.
  rewrite <- (ptr_at_zero st pp Hb) in *. destruct Hal as (_ & _ & Al).
  remember (sderef_head p lbl ++ slB ++ [SLbl lbl]) as sl eqn:Esl.
  assert (E3 : sl = (sderef_head p lbl ++ slB) ++ SLbl lbl :: [])
    by (subst sl; rewrite <- !app_assoc; reflexivity).
  assert (Hlen : length sl = S (length (sderef_head p lbl ++ slB)))
    by (rewrite E3, app_length; cbn [length]; lia).
  assert (Hkl : find_label lbl sl 0 = Some (length (sderef_head p lbl ++ slB))).
  { rewrite E3. apply find_label_mid. rewrite sdefs_app. cbn [sderef_head sbr sdefs app]. exact Fl. }
  assert (Hn : forall i, (i < 5)%nat -> nth_error sl i = nth_error (sderef_head p lbl) i).
  { intros i Hi. subst sl. apply nth_error_app1. cbn [sderef_head length]. exact Hi. }
  eapply reach_next; [rewrite Hn by lia; reflexivity
                     |apply exec_st_mem; [assumption|reflexivity|eassumption|lia]|].
  eapply reach_next; [rewrite Hn by lia; reflexivity|apply exec_rd_imm; reflexivity|].
  eapply reach_next; [rewrite Hn by lia; reflexivity
                     |apply (exec_rd_ind cfg p pp Hp Lp Rp Rp'); reflexivity|].
  state_simp. change (byte 0) with 0. pose proof (ptr_at_range (mem st) pp 0) as RT.
  rewrite ptr_at_mset_other by lia. rewrite (mget_mset_other (mem st) pt) by lia.
  set (T := ptr_at (mem st) pp 0) in *. set (v := mget (mem st) T) in *.
  fold (deref_tested st pt v).
  eapply reach_branch; [rewrite Hn by lia; reflexivity|reflexivity|exact Hkl|].
  cbn [branch_taken]. unfold deref_tested at 1. cbn [fZ set_nz].
  destruct (v =? 0) eqn:Ev.
  - apply Z.eqb_eq in Ev. rewrite Ev.
    eapply reach_lbl_mid; [exact E3|reflexivity|].
    apply reach_stop. split; [rewrite Hlen; reflexivity|reflexivity].
  - apply Z.eqb_neq in Ev. destruct (Hbody Ev) as (st' & Hh & HR).
    eapply reach_next; [rewrite Hn by lia; reflexivity
                       |apply exec_rd_mem; [assumption|reflexivity|eassumption|lia]|].
    rewrite Z.add_0_r. cbn [rd_sem].
    replace (mget (mem (deref_tested st pt v)) pt) with (rY st)
      by (unfold deref_tested; cbn [mem set_nz set_a set_y set_mem]; rewrite mget_mset_same;
          reflexivity).
    fold (deref_restored st pt v). apply reach_seq.
    eapply (reach_body cfg sl slB (sderef_head p lbl) [SLbl lbl] 5 N _ st');
      [exact Esl|reflexivity|exact Hh|exact Hnr| |].
    + intros l _ Hin. cbn [sderef_head sbr sdefs] in Hin. exact Hin.
    + intros n1 Hn1. cbv beta.
      eapply reach_lbl_mid; [exact E3|rewrite app_length; reflexivity|].
      apply reach_stop. split; [rewrite Hlen, app_length; reflexivity|exact HR].
Qed.
Print Assumptions if_deref_reach.

(** ** [if_deref_tpl_correct]: any body

    The body [B] has the specification [R] on byte-valued states, contains no RTS / RTI and does
    not define the label of the template.  Then [if ( *p ) B] halts normally from any byte-valued
    [st] satisfying the aliasing hypothesis, and
      - if the designated cell is NOT 0: [R mid st'] where [mid = deref_restored ...] is the state
        in which the body starts: Y RESTORED, X, S as in [st], memory that of [st] but for the
        scratch cell ([deref_restored_spec]);
      - if it is 0: the final state is [deref_tested st pt 0]: Y = 0, the parked value is NOT
        restored ([deref_tested_spec]). *)
Theorem if_deref_tpl_correct : forall cfg p B lbl pp pt (R : mstate -> mstate -> Prop) st,
  ports cfg = [] -> ptr_wf cfg p pp pt -> lbl <> ""%string ->
  no_ret B -> fresh_in lbl B ->
  (forall s, bytes_ok s -> exists s', halts_to cfg B s s' /\ R s s') ->
  bytes_ok st ->
  no_self_alias pp pt (ptr_val st pp) ->
  exists st', halts_to cfg (if_deref_tpl p B lbl) st st' /\
    (if mget (mem st) (ptr_val st pp) =? 0
     then st' = deref_tested st pt 0
     else R (deref_restored st pt (mget (mem st) (ptr_val st pp))) st').
Proof.
  intros cfg p B lbl pp pt R st Hp Wp Hl Hnr Fl HB Hb Hal.
  destruct (HB st Hb) as (s0 & (slB & HslB & _) & _).
  unfold fresh_in in Fl. rewrite <- (slines_defs _ _ HslB) in Fl.
  pose proof (proj1 (proj1 Wp)) as Np.
  assert (Hv : 0 <= mget (mem st) (ptr_val st pp) < 256) by (apply Hb).
  pose proof (deref_restored_bytes_ok st pt _ Hb Hv) as Hbm.
  destruct (HB _ Hbm) as (st1 & Hh1 & HR1).
  destruct (halts_to_sl_halts _ _ _ _ _ HslB Hh1) as (N & HN).
  eapply halts_to_reach; [apply (slines_if_deref p B slB lbl Np Hl HslB)|].
  apply (if_deref_reach cfg p lbl slB pp pt N R st Hp Wp (slines_no_ret _ _ HslB Hnr) Fl Hb Hal).
  intros _. exists st1. split; [exact HN|exact HR1].
Qed.
Print Assumptions if_deref_tpl_correct.

Lemma if_deref_assign8 : forall cfg p dst k lbl pd pp pt st,
  ports cfg = [] -> ptr_wf cfg p pp pt -> lbl <> ""%string ->
  var_wf cfg dst pd pp pt -> 0 <= k < 256 ->
  bytes_ok st ->
  no_self_alias pp pt (ptr_val st pp) ->
  exists st', halts_to cfg (if_deref_tpl p (assign8 dst k) lbl) st st' /\
    (if mget (mem st) (ptr_val st pp) =? 0
     then st' = deref_tested st pt 0
     else mget (mem st') pd = k /\
          only_changes [pd] (deref_restored st pt (mget (mem st) (ptr_val st pp))) st' /\
          keeps_xys (deref_restored st pt (mget (mem st) (ptr_val st pp))) st').
Proof.
  intros cfg p dst k lbl pd pp pt st Hp Wp Hl (Nd & Ld & Rd & _) Rk Hb Hal.
  apply (if_deref_tpl_correct cfg p (assign8 dst k) lbl pp pt
           (fun s s' => mget (mem s') pd = k /\ only_changes [pd] s s' /\ keeps_xys s s') st
           Hp Wp Hl (assign8_no_ret dst k) (assign8_fresh lbl dst k)
           (fun s _ => halts_of_runs _ _ _ _ (assign8_correct cfg dst k pd s Hp Nd Ld Rd Rk)) Hb Hal).
Qed.

(** the designated cell is not 0: the body runs, Y is restored *)
Theorem if_deref_taken_correct : forall cfg p dst k lbl pd pp pt st,
  ports cfg = [] -> ptr_wf cfg p pp pt -> lbl <> ""%string ->
  var_wf cfg dst pd pp pt -> 0 <= k < 256 ->
  bytes_ok st ->
  no_self_alias pp pt (ptr_val st pp) ->
  mget (mem st) (ptr_val st pp) <> 0 ->
  exists st', halts_to cfg (if_deref_tpl p (assign8 dst k) lbl) st st' /\
    mget (mem st') pd = k /\
    only_changes [pd; pt] st st' /\ keeps_xys st st'.
Proof.
  intros cfg p dst k lbl pd pp pt st Hp Wp Hl Wd Rk Hb Hal Hv.
  destruct (if_deref_assign8 cfg p dst k lbl pd pp pt st Hp Wp Hl Wd Rk Hb Hal) as (st' & Hr & HP).
  apply Z.eqb_neq in Hv. rewrite Hv in HP. destruct HP as (Hk & Hoc & Kx & Ky & Ks).
  destruct Wp as (_ & _ & Rt & _).
  exists st'. split; [exact Hr|]. split; [exact Hk|]. split; [|repeat split; assumption].
  intros a Ha Hn. cbn [In] in Hn. rewrite (Hoc a Ha) by (cbn [In]; tauto).
  apply mget_mset_other; lia.
Qed.
Print Assumptions if_deref_taken_correct.

(** the designated cell is 0: control falls to the end label with Y = 0: the value of Y parked
    in [cctmp] is lost (it is still in [cctmp]); nothing else changed *)
Theorem if_deref_zero_y_lost : forall cfg p dst k lbl pd pp pt st,
  ports cfg = [] -> ptr_wf cfg p pp pt -> lbl <> ""%string ->
  var_wf cfg dst pd pp pt -> 0 <= k < 256 ->
  bytes_ok st ->
  no_self_alias pp pt (ptr_val st pp) ->
  mget (mem st) (ptr_val st pp) = 0 ->
  exists st', halts_to cfg (if_deref_tpl p (assign8 dst k) lbl) st st' /\
    rY st' = 0 /\ mget (mem st') pt = rY st /\
    rX st' = rX st /\ rS st' = rS st /\ only_changes [pt] st st'.
Proof.
  intros cfg p dst k lbl pd pp pt st Hp Wp Hl Wd Rk Hb Hal Hv.
  destruct (if_deref_assign8 cfg p dst k lbl pd pp pt st Hp Wp Hl Wd Rk Hb Hal) as (st' & Hr & HP).
  rewrite Hv in HP. cbn [Z.eqb] in HP. subst st'. destruct Wp as (_ & _ & Rt & _).
  exists (deref_tested st pt 0). split; [exact Hr|].
  split; [reflexivity|]. split; [apply mget_mset_same|]. split; [reflexivity|]. split; [reflexivity|].
  intros a Ha Hn. cbn [In] in Hn. apply mget_mset_other; lia.
Qed.
Print Assumptions if_deref_zero_y_lost.

(** in particular, whenever Y is not 0 on entry, the statement does NOT preserve Y *)
Corollary if_deref_zero_y_changed : forall cfg p dst k lbl pd pp pt st,
  ports cfg = [] -> ptr_wf cfg p pp pt -> lbl <> ""%string ->
  var_wf cfg dst pd pp pt -> 0 <= k < 256 ->
  bytes_ok st ->
  no_self_alias pp pt (ptr_val st pp) ->
  mget (mem st) (ptr_val st pp) = 0 -> rY st <> 0 ->
  exists st', halts_to cfg (if_deref_tpl p (assign8 dst k) lbl) st st' /\ ~ keeps_xys st st'.
Proof.
  intros cfg p dst k lbl pd pp pt st Hp Wp Hl Wd Rk Hb Hal Hv Hy.
  destruct (if_deref_zero_y_lost cfg p dst k lbl pd pp pt st Hp Wp Hl Wd Rk Hb Hal Hv)
    as (st' & Hr & Ey & _).
  exists st'. split; [exact Hr|]. intros (_ & Ky & _). congruence.
Qed.
Print Assumptions if_deref_zero_y_changed.

(** * The listings: [unsigned char a, b, c; unsigned char arr[8]; unsigned char *p, *q;]

    One well-formedness hypothesis on the layout, from which the hypotheses of the theorems above
    follow for the compiler's own names ([ptr_layout_p]); the closed forms of the listings
    ([plisting_NN] of Model/GenPtr.v) are in Props/C01ptr.v. *)

Fixpoint all_sat (P : Z -> Prop) (l : list Z) : Prop :=
  match l with [] => True | x :: r => P x /\ all_sat P r end.
Fixpoint distinct (l : list Z) : Prop :=
  match l with [] => True | x :: r => all_sat (fun y => x <> y) r /\ distinct r end.

(** [a], [b], [c] at [pa], [pb], [pc]; [arr] at [parr .. parr+7]; [p] at [pp], [pp+1]; [q] at [pq],
    [pq+1]; the scratch cell at [pt]:
      - [p] and [q] occupy two consecutive ZERO-PAGE cells each;
      - all cells are addresses outside the stack page;
      - the cells of a, b, c, cctmp, p, q are pairwise distinct, and none is a cell of [arr]. *)
Definition ptr_layout (cfg : config) (pa pb pc parr pp pq pt : Z) : Prop :=
  ports cfg = [] /\
  layout cfg "a" = Some pa /\ layout cfg "b" = Some pb /\ layout cfg "c" = Some pc /\
  layout cfg "arr" = Some parr /\ layout cfg "p" = Some pp /\ layout cfg "q" = Some pq /\
  layout cfg cctmp = Some pt /\
  (0 <= pp /\ pp + 1 < 256) /\ (0 <= pq /\ pq + 1 < 256) /\
  all_sat (fun x => 0 <= x < 65536 /\ ~ (256 <= x < 512)) [pa; pb; pc; pt] /\
  (0 <= parr /\ parr + 8 <= 65536 /\ ~ (parr < 512 /\ 256 < parr + 8)) /\
  distinct [pa; pb; pc; pt; pp; pp + 1; pq; pq + 1] /\
  all_sat (fun x => x < parr \/ parr + 8 <= x) [pa; pb; pc; pt; pp; pp + 1; pq; pq + 1].

Lemma ptr_names_listing :
  ptr_name "p" /\ ptr_name "q" /\ var_name "a" /\ var_name "b" /\ var_name "c" /\
  sym_name "a" /\ sym_name "arr".
Proof.
  repeat match goal with |- _ /\ _ => split end;
    first [ apply ident_ptr_name; [discriminate|reflexivity]
          | apply ident_var_name; [discriminate|reflexivity]
          | apply ident_sym_name; [discriminate|reflexivity] ].
Qed.
Print Assumptions ptr_names_listing.

Lemma ptr_layout_p : forall cfg pa pb pc parr pp pq pt,
  ptr_layout cfg pa pb pc parr pp pq pt ->
  ports cfg = [] /\ ptr_wf cfg "p" pp pt /\ ptr_wf cfg "q" pq pt /\
  var_wf cfg "a" pa pp pt /\ var_wf cfg "b" pb pp pt /\ var_wf cfg "c" pc pp pt /\
  (layout cfg "arr" = Some parr /\ 0 <= parr /\ parr + 8 <= 65536) /\
  (forall i, 0 <= i < 8 -> no_self_alias pp pt (parr + i)) /\
  pq <> pp + 1.
Proof.
  intros cfg pa pb pc parr pp pq pt
    (Hp & La & Lb & Lc & Larr & Lp & Lq & Lt & Zp & Zq & Hrange & Harr & Hdist & Hoff).
  cbn [all_sat distinct] in Hrange, Hdist, Hoff.
  destruct ptr_names_listing as (Np & Nq & Na & Nb & Nc & Sa & Sarr).
  assert (Warr : forall i, 0 <= i < 8 -> no_self_alias pp pt (parr + i)).
  { clear Hdist Hrange. intros i Hi. unfold no_self_alias. lia. }
  repeat match goal with K : _ /\ _ |- _ => destruct K end.
  unfold ptr_wf, zp_ptr, tmp_wf, var_wf.
  repeat match goal with |- _ /\ _ => split end; try assumption.
  apply not_eq_sym. assumption.
Qed.
Print Assumptions ptr_layout_p.

(** the hypotheses of the theorems, under the names the instances use *)
Ltac lay_p H :=
  let W := fresh "W" in
  pose proof (ptr_layout_p _ _ _ _ _ _ _ _ H) as W;
  pose proof W as (_ & ((_ & Lp & Rp & Rp') & _) & ((_ & Lq & Rq & Rq') & _) & (_ & La & Ra & _) & _);
  destruct W as (Hp & Wp & Wq & Wa & Wb & Wc & (Larr & Rarr & Rarr') & Warr & Dqp);
  destruct ptr_names_listing as (Np & Nq & Na & Nb & Nc & Sa & Sarr);
  pose proof (proj1 Np) as Vp; pose proof (proj1 Nq) as Vq.

(** * A concrete layout: the hypotheses are satisfiable; the defect, run

    a, b, c at 128, 129, 130; arr at 131 .. 138; p at 140, 141; q at 142, 143; cctmp at 144 *)
Definition cfg_ptr : config :=
  mkCfg (fun y =>
    if String.eqb y "a" then Some 128 else if String.eqb y "b" then Some 129
    else if String.eqb y "c" then Some 130 else if String.eqb y "arr" then Some 131
    else if String.eqb y "p" then Some 140 else if String.eqb y "q" then Some 142
    else if String.eqb y "cctmp" then Some 144 else None) [].

Lemma cfg_ptr_layout : ptr_layout cfg_ptr 128 129 130 131 140 142 144.
Proof.
  unfold ptr_layout. cbn [all_sat distinct].
  repeat match goal with |- _ /\ _ => split end; try reflexivity; try lia.
Qed.
Print Assumptions cfg_ptr_layout.

(** A = 0, X = 1, Y = [y], S = 255; a, b, c = [va], [vb], [vc]; arr[i] = 10 + i; p = [vp] *)
Definition st_ptr (va vb vc y vp : Z) : mstate :=
  mkS 0 1 y 255 false false false false
    (mset (mset (mset (mset (mset (mset (mset (mset (mset (mset (mset (mset (mset mem_empty
       128 va) 129 vb) 130 vc) 131 10) 132 11) 133 12) 134 13) 135 14) 136 15) 137 16) 138 17)
       140 (vp mod 256)) 141 (vp / 256)).

(** the final a, b, c, the pointer, X, Y, S *)
Definition run_ptr (c : code) (st : mstate) : option (Z * Z * Z * Z * Z * Z * Z) :=
  match slines_of c with
  | Some sl =>
      match Sem.run cfg_ptr [] (fun _ _ => None) (fun _ _ => None) 40 "f" sl 0 [] st [] 0%N with
      | Halt s' _ _ =>
          Some (mget (mem s') 128, mget (mem s') 129, mget (mem s') 130, word (mem s') 140,
                rX s', rY s', rS s')
      | _ => None
      end
  | None => None
  end.

(** [p = &a; b = *p;] and [p = arr; b = p[2];] with Y = 7 *)
Example run_addr_of_a_deref :
  run_ptr (addr_of_tpl "p" "a" ++ deref_load "b" "p") (st_ptr 42 0 0 7 0)
  = Some (42, 42, 0, 128, 1, 7, 255).
Proof. vm_compute. reflexivity. Qed.
Print Assumptions run_addr_of_a_deref.
Example run_addr_of_arr_idx :
  run_ptr (addr_of_tpl "p" "arr" ++ idx_load "b" "p" 2) (st_ptr 42 0 0 7 0)
  = Some (42, 12, 0, 131, 1, 7, 255).
Proof. vm_compute. reflexivity. Qed.
Print Assumptions run_addr_of_arr_idx.

(** [p++] across a page: 0x01FF + 1 = 0x0200;  [p--]: 0x0200 - 1 = 0x01FF *)
Example run_ptr_inc_carry :
  run_ptr (ptr_inc "p" ".ifend1") (st_ptr 0 0 0 7 511) = Some (0, 0, 0, 512, 1, 7, 255).
Proof. vm_compute. reflexivity. Qed.
Print Assumptions run_ptr_inc_carry.
Example run_ptr_dec_borrow :
  run_ptr (ptr_dec "p" ".ifend1") (st_ptr 0 0 0 7 512) = Some (0, 0, 0, 511, 1, 7, 255).
Proof. vm_compute. reflexivity. Qed.
Print Assumptions run_ptr_dec_borrow.

(** [( *p )++] with p = &a, a = 255: wraps to 0 *)
Example run_deref_inc_wrap :
  run_ptr (deref_inc "p") (st_ptr 255 0 0 7 128) = Some (0, 0, 0, 128, 1, 7, 255).
Proof. vm_compute. reflexivity. Qed.
Print Assumptions run_deref_inc_wrap.

(** THE DEFECT, on the exact listing [if ( *p ) c = 1;] ([plisting_16]), p = &a, Y = 7 on entry:
      - a = 5: the body runs, c = 1, Y = 7 on exit;
      - a = 0: the [BEQ .ifend1] jumps over [LDY cctmp]: Y = 0 on exit, the 7 is lost. *)
Example if_deref_y_restored_when_taken :
  run_ptr (if_deref_tpl "p" (assign8 "c" 1) ".ifend1") (st_ptr 5 0 0 7 128)
  = Some (5, 0, 1, 128, 1, 7, 255).
Proof. vm_compute. reflexivity. Qed.
Print Assumptions if_deref_y_restored_when_taken.

Example if_deref_y_not_restored :
  run_ptr (if_deref_tpl "p" (assign8 "c" 1) ".ifend1") (st_ptr 0 0 0 7 128)
  = Some (0, 0, 0, 128, 1, 0, 255).
Proof. vm_compute. reflexivity. Qed.
Print Assumptions if_deref_y_not_restored.

Lemma st_ptr_bytes_ok : forall va vb vc y vp,
  0 <= va < 256 -> 0 <= vb < 256 -> 0 <= vc < 256 -> 0 <= y < 256 -> 0 <= vp < 65536 ->
  bytes_ok (st_ptr va vb vc y vp).
Proof.
  intros va vb vc y vp Ha Hb Hc Hy Hp. apply bytes_ok_mk; try lia.
  repeat (apply mget_mset_bytes; [|Z.div_mod_to_equations; lia]). intros b. rewrite mget_empty. lia.
Qed.
Print Assumptions st_ptr_bytes_ok.

(** the same as a statement about [halts_to] and [keeps_xys]: on a byte-valued state satisfying
    the layout and aliasing hypotheses, the listing halts and does NOT keep Y *)
Theorem if_deref_y_not_restored_halts :
  exists st st', bytes_ok st /\ no_self_alias 140 144 (ptr_val st 140) /\
    halts_to cfg_ptr (if_deref_tpl "p" (assign8 "c" 1) ".ifend1") st st' /\
    rY st = 7 /\ rY st' = 0 /\ ~ keeps_xys st st'.
Proof.
  pose (st := st_ptr 0 0 0 7 128).
  assert (Hb : bytes_ok st) by (apply st_ptr_bytes_ok; lia).
  assert (Hal : no_self_alias 140 144 (ptr_val st 140)) by (vm_compute; repeat split; discriminate).
  lay_p cfg_ptr_layout.
  destruct (if_deref_zero_y_lost cfg_ptr "p" "c" 1 ".ifend1" 130 140 144 st Hp Wp ltac:(discriminate)
              Wc ltac:(lia) Hb Hal ltac:(vm_compute; reflexivity)) as (st' & Hr & Hy & _).
  exists st, st'. split; [exact Hb|]. split; [exact Hal|]. split; [exact Hr|].
  split; [reflexivity|]. split; [exact Hy|].
  intros (_ & Ky & _). rewrite Hy in Ky. discriminate Ky.
Qed.
Print Assumptions if_deref_y_not_restored_halts.
