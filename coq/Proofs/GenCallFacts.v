(** Function calls (Model/GenCall.v) on the executable 6502 semantics with a NON-EMPTY program
    table: [Sem.run cfg prog ...].  [JSR f] looks [f] up in [prog] ([find_func]), pushes two marker
    bytes on the hardware stack (the call depth [d = length stack + 1], then [255 - d]; cells
    [256 + S] and [256 + byte (S - 1)] of [mem], S going down by two), and runs the callee's lines
    from 0 with the caller's frame [(fname, c, pc + 1)] pushed on [stack]; [RTS] pulls two bytes,
    faults unless they are the markers of the innermost frame, and resumes the caller.  Falling
    off the end of a called function faults: every function of [prog] is its body followed by the
    RTS line of the harness ([harness_fun], [prog_of]).

    [goes fname c stack pc s pc' s']: inside the function [fname] with lines [c], under ANY call
    stack [stack], [Sem.run] goes from line [pc] in state [s] to line [pc'] in state [s'], the
    call stack being [stack] again (calls made on the way have returned).
    [call_rule]        THE CALL RULE, for an arbitrary [stack] (any depth): if the callee, entered
                       with the markers pushed, goes to one of its RTS lines in a state whose S is
                       the S at entry and where the two marker cells are intact, the [JSR] goes to
                       the next line of the caller in that state with S restored to the caller's S.
                       Every register and every memory cell is as the callee left it; the two
                       cells [256 + S], [256 + byte (S - 1)] below the caller's S hold the markers.
    [call_rule_raw]    the same with the two [pull]s explicit
    [fun_ok], [call_seg]   a callee specification for all stacks and entry states, and the rule
                       for it: position independent ([seg_wp]: inside any code, any stack)
    [call_tpl_correct] arguments with specifications ([expr_ok]: value in A, writes confined to a
                       set of cells outside the stack page, S, X, Y unchanged): the parameter
                       cells hold the argument values, A holds the result of the callee; the call
                       is again an [expr_ok], so calls nest as arguments
    and the closed forms for the listing statements, on [calls_to]: [Sem.run] on main with the
    program table, from an empty call stack, halts normally; S after = S before for ALL
    byte-valued states (the stack pointer wraps inside page 1 consistently, no lower bound on S
    is needed); the variables and parameter cells are anywhere outside the stack page
    ([off_stack]: the frame conditions exclude page 1, where the markers are written). *)
From Coq Require Import String Ascii List Bool Arith NArith ZArith Lia ZifyBool.
From CC Require Import Base.Str Asm.Lines M6502.Isa Asm.Operand M6502.Sem
  Model.OptSem Proofs.OptSemFacts Model.CheckBranches Model.CbSpec
  Proofs.ExecFacts Model.GenTemplates Proofs.GenTemplatesFacts Proofs.GenCmp16Facts Model.GenLoops
  Proofs.GenLoopsFacts Model.GenTables Proofs.GenTablesFacts Model.GenIf Proofs.GenIfFacts
  Model.GenCtl Proofs.GenCtlFacts Model.GenCall.
Import ListNotations.
Open Scope string_scope.
Open Scope list_scope.
Open Scope Z_scope.

Section Goes.
  Variable cfg : config.
  Variable prog : sprogram.

  Definition goes (fname : string) (c : list sline) (stack : list frame)
      (pc : nat) (s : mstate) (pc' : nat) (s' : mstate) : Prop :=
    exists N : nat, forall inl_sem ext_call fuel tr cy, exists tr' cy',
      Sem.run cfg prog inl_sem ext_call (N + fuel) fname c pc stack s tr cy
      = Sem.run cfg prog inl_sem ext_call fuel fname c pc' stack s' tr' cy'.

  Lemma goes_refl : forall fname c stack pc s, goes fname c stack pc s pc s.
  Proof. intros fname c stack pc s. exists O. intros. exists tr, cy. reflexivity. Qed.

  Lemma goes_trans : forall fname c stack pc1 s1 pc2 s2 pc3 s3,
    goes fname c stack pc1 s1 pc2 s2 -> goes fname c stack pc2 s2 pc3 s3 ->
    goes fname c stack pc1 s1 pc3 s3.
  Proof.
    intros fname c stack pc1 s1 pc2 s2 pc3 s3 (N1 & H1) (N2 & H2). exists (N1 + N2)%nat.
    intros inl_sem ext_call fuel tr cy.
    destruct (H1 inl_sem ext_call (N2 + fuel)%nat tr cy) as (tr1 & cy1 & E1).
    destruct (H2 inl_sem ext_call fuel tr1 cy1) as (tr2 & cy2 & E2).
    exists tr2, cy2. rewrite <- Nat.add_assoc, E1, E2. reflexivity.
  Qed.

  Lemma goes_stepn : forall fname c stack n pc s pc' s',
    stepn cfg c n pc s = Some (pc', s') -> goes fname c stack pc s pc' s'.
  Proof.
    intros fname c stack n pc s pc' s' H. exists n. intros inl_sem ext_call fuel tr cy.
    apply (stepn_run cfg c n pc s pc' s' H).
  Qed.

  Lemma goes_reach : forall fname c stack pc s (Q : nat -> nat -> mstate -> Prop),
    reach cfg c pc s Q -> exists n pc' s', goes fname c stack pc s pc' s' /\ Q n pc' s'.
  Proof.
    intros fname c stack pc s Q (n & pc' & s' & Hs & HQ). exists n, pc', s'.
    split; [apply (goes_stepn fname c stack n _ _ _ _ Hs)|exact HQ].
  Qed.

  Definition is_rts (c : list sline) (pc : nat) : Prop :=
    exists o p raw, nth_error c pc = Some (SIns RTS o p raw).

  Definition enter (d : Z) (s : mstate) : mstate := push (push s (byte d)) (byte (255 - d)).

  Theorem call_rule_raw : forall fname c stack i s f cf p raw pr s2 s3 s4,
    nth_error c i = Some (SIns JSR (OLbl f) p raw) ->
    find_func f prog = Some cf ->
    goes f cf ((fname, c, S i) :: stack) 0 (enter (Z.of_nat (length stack) + 1) s) pr s2 ->
    is_rts cf pr ->
    pull s2 = (s3, byte (255 - (Z.of_nat (length stack) + 1))) ->
    pull s3 = (s4, byte (Z.of_nat (length stack) + 1)) ->
    goes fname c stack i s (S i) s4.
  Proof.
    intros fname c stack i s f cf p raw pr s2 s3 s4 Hn Hf (N & Hg) (o' & p' & raw' & Hr) Hp1 Hp2.
    exists (S (N + 1)). intros inl_sem ext_call fuel tr cy.
    destruct (Hg inl_sem ext_call (1 + fuel)%nat (if p then EvI JSR raw :: tr else tr) (cy + 6)%N)
      as (tr1 & cy1 & E1).
    unfold enter in E1. do 2 eexists.
    cbn [Nat.add]. rewrite run_S, Hn. cbn [exec]. cbv zeta. rewrite Hf.
    rewrite <- Nat.add_assoc. eapply eq_trans; [exact E1|].
    cbn [Nat.add]. rewrite run_S, Hr. cbn [exec]. cbv zeta.
    cbn [length]. rewrite Nat2Z.inj_succ, <- Z.add_1_r.
    rewrite Hp1, Hp2, !Z.eqb_refl. cbn [andb]. reflexivity.
  Qed.

  Lemma set_sp_set_sp : forall s a b, set_sp (set_sp s a) b = set_sp s b.
  Proof. reflexivity. Qed.

  (** ** THE CALL RULE.  [s] is the state at the [JSR] (line [i] of the caller [fname] / [c], under
      the call stack [stack], any depth); the callee [f] has the lines [cf] in the program table;
      entered in [enter d s] (markers pushed, [d] the new depth) it goes to one of its RTS lines
      [pr] in a state [s2] with the S it was entered with and with the two marker cells intact.
      Then the caller goes on at line [i + 1] in [set_sp s2 (rS s)]: the state the callee left,
      with S restored. *)
  Theorem call_rule : forall fname c stack i s f cf p raw pr s2,
    nth_error c i = Some (SIns JSR (OLbl f) p raw) ->
    find_func f prog = Some cf ->
    0 <= rS s < 256 ->
    goes f cf ((fname, c, S i) :: stack) 0 (enter (Z.of_nat (length stack) + 1) s) pr s2 ->
    is_rts cf pr ->
    rS s2 = rS (enter (Z.of_nat (length stack) + 1) s) ->
    mget (mem s2) (256 + rS s) = byte (Z.of_nat (length stack) + 1) ->
    mget (mem s2) (256 + byte (rS s - 1)) = byte (255 - (Z.of_nat (length stack) + 1)) ->
    goes fname c stack i s (S i) (set_sp s2 (rS s)).
  Proof.
    intros fname c stack i s f cf p raw pr s2 Hn Hf HS Hg Hr ES Hm1 Hm2.
    assert (E2 : rS s2 = byte (byte (rS s - 1) - 1)) by (rewrite ES; reflexivity).
    apply (call_rule_raw fname c stack i s f cf p raw pr s2
             (set_sp s2 (byte (rS s - 1))) (set_sp s2 (rS s)) Hn Hf Hg Hr).
    - unfold pull. rewrite E2, byte_round, Hm2 by apply byte_range. reflexivity.
    - unfold pull. cbn [rS set_sp mem]. rewrite byte_round, Hm1 by exact HS. reflexivity.
  Qed.
End Goes.
Print Assumptions call_rule_raw.
Print Assumptions call_rule.

(** outside the hardware stack page *)
Definition off_stack (a : Z) : Prop := a < 256 \/ 512 <= a.

Definition only_changes_off (W : list Z) (s s' : mstate) : Prop :=
  forall a, 0 <= a -> off_stack a -> ~ In a W -> mget (mem s') a = mget (mem s) a.

Lemma only_changes_off_refl : forall W s, only_changes_off W s s.
Proof. intros W s a _ _ _. reflexivity. Qed.

Lemma only_changes_off_mem : forall W s s', mem s' = mem s -> only_changes_off W s s'.
Proof. intros W s s' E a _ _ _. rewrite E. reflexivity. Qed.

Lemma only_changes_off_trans : forall W s1 s2 s3,
  only_changes_off W s1 s2 -> only_changes_off W s2 s3 -> only_changes_off W s1 s3.
Proof. intros W s1 s2 s3 H1 H2 a Ha Ho Hn. rewrite (H2 a Ha Ho Hn). apply (H1 a Ha Ho Hn). Qed.

Lemma only_changes_off_incl : forall W W' s s', (forall a, In a W -> In a W') ->
  only_changes_off W s s' -> only_changes_off W' s s'.
Proof.
  intros W W' s s' Hi H a Ha Ho Hn. apply (H a Ha Ho). intros Hin. apply Hn. apply Hi. exact Hin.
Qed.

Lemma only_changes_to_off : forall W s s', only_changes W s s' -> only_changes_off W s s'.
Proof. intros W s s' H a Ha _ Hn. apply (H a Ha Hn). Qed.

Lemma only_changes_off_set : forall W s p v, 0 <= p -> In p W ->
  only_changes_off W s (set_mem s (mset (mem s) p v)).
Proof.
  intros W s p v Hp Hin a Ha _ Hn. cbn [mem set_mem].
  apply mget_mset_other; [intros E; apply Hn; rewrite <- E; exact Hin|exact Hp|exact Ha].
Qed.

Definition res_off (res : mstate -> Z) : Prop :=
  forall s s', (forall a, 0 <= a -> off_stack a -> mget (mem s') a = mget (mem s) a) ->
    res s' = res s.

Definition val_indep (D : list Z) (val : mstate -> Z) : Prop :=
  forall s s', only_changes_off D s s' -> val s' = val s.

(** an expression: its value in A, writes confined to [W] outside the stack page (the stack page
    itself is free), S, X, Y unchanged, byte-valued again *)
Definition expr_rel (W : list Z) (val : mstate -> Z) (s s' : mstate) : Prop :=
  rA s' = val s /\ bytes_ok s' /\ only_changes_off W s s' /\ keeps_xys s s'.

Definition call_rel (W : list Z) (res : mstate -> Z) (eff : list (Z * (mstate -> Z)))
    (s s' : mstate) : Prop :=
  expr_rel W res s s' /\ forall p v, In (p, v) eff -> mget (mem s') p = v s.

Section Segments.
  Variable cfg : config.
  Variable prog : sprogram.

  (** from the first line of [seg] in state [s], inside any function, any code around, any call
      stack, [Sem.run] gets past the last line of [seg] in a state satisfying [Q] *)
  Definition seg_wp (seg : list sline) (s : mstate) (Q : mstate -> Prop) : Prop :=
    forall fname pre post stack, exists s',
      goes cfg prog fname (pre ++ seg ++ post) stack (length pre) s (length pre + length seg)%nat s'
      /\ Q s'.

  Lemma seg_wp_nil : forall s (Q : mstate -> Prop), Q s -> seg_wp [] s Q.
  Proof.
    intros s Q HQ fname pre post stack. exists s. split; [|exact HQ].
    cbn [length]. rewrite Nat.add_0_r. apply goes_refl.
  Qed.

  Lemma seg_wp_app : forall a b s (Q1 Q2 : mstate -> Prop),
    seg_wp a s Q1 -> (forall s1, Q1 s1 -> seg_wp b s1 Q2) -> seg_wp (a ++ b) s Q2.
  Proof.
    intros a b s Q1 Q2 Ha Hb fname pre post stack.
    destruct (Ha fname pre (b ++ post) stack) as (s1 & G1 & H1).
    destruct (Hb s1 H1 fname (pre ++ a) post stack) as (s2 & G2 & H2).
    exists s2. split; [|exact H2].
    rewrite <- !app_assoc in G2. rewrite <- app_assoc. rewrite !app_length in *.
    rewrite Nat.add_assoc. apply (goes_trans cfg prog _ _ _ _ _ _ _ _ _ G1 G2).
  Qed.

  Lemma seg_wp_weaken : forall seg s (Q Q' : mstate -> Prop),
    (forall s', Q s' -> Q' s') -> seg_wp seg s Q -> seg_wp seg s Q'.
  Proof.
    intros seg s Q Q' HQ H fname pre post stack.
    destruct (H fname pre post stack) as (s' & G & Hq). exists s'. split; [exact G|apply HQ; exact Hq].
  Qed.

  Lemma seg_wp_ins : forall m o p raw s s' k (Q : mstate -> Prop),
    exec cfg m o s = XOk s' k FNext -> Q s' -> seg_wp [SIns m o p raw] s Q.
  Proof.
    intros m o p raw s s' k Q He HQ fname pre post stack. exists s'. split; [|exact HQ].
    apply (goes_stepn cfg prog fname _ stack 1%nat).
    cbn [stepn app]. rewrite nth_error_mid, He. cbn [length]. rewrite Nat.add_1_r. reflexivity.
  Qed.

  (** [f] is in the program table; entered in ANY byte-valued state, under any call stack, it goes
      to one of its RTS lines with A = [res] of the entry state, having changed only the cells
      [W], those of [eff] holding the given values; S, X, Y as at entry *)
  Definition fun_ok (f : string) (W : list Z) (res : mstate -> Z)
      (eff : list (Z * (mstate -> Z))) : Prop :=
    exists cf, find_func f prog = Some cf /\
      forall stack s1, bytes_ok s1 ->
        exists pr s2, goes cfg prog f cf stack 0 s1 pr s2 /\ is_rts cf pr /\
          rA s2 = res s1 /\ bytes_ok s2 /\ only_changes W s1 s2 /\ keeps_xys s1 s2 /\
          (forall p v, In (p, v) eff -> mget (mem s2) p = v s1).

  (** the effects are about cells outside the stack page, in terms of the memory outside it *)
  Definition eff_off (eff : list (Z * (mstate -> Z))) : Prop :=
    forall p v, In (p, v) eff -> res_off v.

  Lemma enter_bytes_ok : forall d s, bytes_ok s -> bytes_ok (enter d s).
  Proof.
    intros d s Hb. unfold enter.
    apply push_bytes_ok; [apply push_bytes_ok; [exact Hb|]|]; apply byte_range.
  Qed.

  Lemma enter_mem_off : forall d s, 0 <= rS s < 256 -> forall a, 0 <= a -> off_stack a ->
    mget (mem (enter d s)) a = mget (mem s) a.
  Proof.
    intros d s HS a Ha Ho. unfold enter, push, off_stack, byte in *. cbn [mem set_sp set_mem rS].
    rewrite !mget_mset_other by (Z.div_mod_to_equations; lia). reflexivity.
  Qed.

  (** the [JSR] as a segment: the callee's result in A, its effects, its writes [W] (outside the
      stack page), X, Y and S as before the call: the call is balanced.  The stack page itself is
      not described: the two cells below S hold the markers *)
  Theorem call_seg : forall f W res eff p raw s,
    fun_ok f W res eff -> (forall a, In a W -> off_stack a) -> res_off res -> eff_off eff ->
    bytes_ok s ->
    seg_wp [SIns JSR (OLbl f) p raw] s (call_rel W res eff s).
  Proof.
    intros f W res eff p raw s (cf & Hf & Hspec) HW Hres Heff Hb fname pre post stack.
    pose proof Hb as (HA & HX & HY & HS & HM).
    set (d := Z.of_nat (length stack) + 1).
    pose proof (enter_bytes_ok d s Hb) as Hb1.
    destruct (Hspec ((fname, pre ++ [SIns JSR (OLbl f) p raw] ++ post, S (length pre)) :: stack)
                (enter d s) Hb1) as (pr & s2 & Hg & Hr & HrA & Hb2 & Hoc & (Kx & Ky & Ks) & He).
    assert (Hm1 : mget (mem s2) (256 + rS s) = byte d).
    { rewrite (Hoc (256 + rS s)); [|lia|intros Hin; destruct (HW _ Hin); lia].
      unfold enter, push, byte. cbn [mem set_sp set_mem rS].
      rewrite mget_mset_other by (Z.div_mod_to_equations; lia). apply mget_mset_same. }
    assert (Hm2 : mget (mem s2) (256 + byte (rS s - 1)) = byte (255 - d)).
    { rewrite (Hoc (256 + byte (rS s - 1)));
        [|arith_tac|intros Hin; destruct (HW _ Hin); arith_tac].
      unfold enter, push. cbn [mem set_sp set_mem rS]. apply mget_mset_same. }
    pose proof (enter_mem_off d s HS) as Hent.
    exists (set_sp s2 (rS s)). split.
    - cbn [length]. rewrite Nat.add_1_r.
      apply (call_rule cfg prog fname _ stack (length pre) s f cf p raw pr s2);
        [apply nth_error_mid|exact Hf|exact HS|exact Hg|exact Hr|exact Ks|exact Hm1|exact Hm2].
    - split.
      + unfold expr_rel. cbn [rA set_sp]. split; [rewrite HrA; apply Hres; exact Hent|].
        split; [destruct Hb2 as (HA2 & HX2 & HY2 & HS2 & HM2); apply bytes_ok_mk; assumption|].
        split.
        * intros a Ha Ho Hn. cbn [mem set_sp]. rewrite (Hoc a Ha Hn). apply (Hent a Ha Ho).
        * repeat split; cbn [rX rY rS set_sp]; [rewrite Kx|rewrite Ky]; reflexivity.
      + intros q v Hin. cbn [mem set_sp]. rewrite (He q v Hin). apply (Heff q v Hin). exact Hent.
  Qed.

  Corollary call_at : forall fname c stack i f W res eff p raw s,
    nth_error c i = Some (SIns JSR (OLbl f) p raw) ->
    fun_ok f W res eff -> (forall a, In a W -> off_stack a) -> res_off res -> eff_off eff ->
    bytes_ok s ->
    exists s', goes cfg prog fname c stack i s (S i) s' /\ call_rel W res eff s s'.
  Proof.
    intros fname c stack i f W res eff p raw s Hn Hf HW Hres Heff Hb.
    destruct (nth_error_split c i Hn) as (pre & post & -> & <-).
    destruct (call_seg f W res eff p raw s Hf HW Hres Heff Hb fname pre post stack) as (s' & G & H).
    exists s'. split; [|exact H]. cbn [length] in G. rewrite Nat.add_1_r in G. exact G.
  Qed.
End Segments.
Print Assumptions call_seg.

Section CallTpl.
  Variable cfg : config.
  Variable prog : sprogram.

  (** [E] assembles, and from every byte-valued state [s] it runs (as a segment: anywhere, under
      any call stack) to a state related to [s] by [R] *)
  Definition code_ok (E : code) (R : mstate -> mstate -> Prop) : Prop :=
    exists sl, slines_of E = Some sl /\ forall s, bytes_ok s -> seg_wp cfg prog sl s (R s).

  Definition expr_ok (E : code) (W : list Z) (val : mstate -> Z) : Prop :=
    code_ok E (expr_rel W val).

  Lemma code_ok_weaken : forall E (R R' : mstate -> mstate -> Prop),
    (forall s s', bytes_ok s -> R s s' -> R' s s') -> code_ok E R -> code_ok E R'.
  Proof.
    intros E R R' HR (sl & Hsl & H). exists sl. split; [exact Hsl|].
    intros s Hb. eapply seg_wp_weaken; [|apply (H s Hb)]. intros s' Hx. apply (HR s s' Hb Hx).
  Qed.

  Lemma code_ok_app : forall A B (R1 R2 : mstate -> mstate -> Prop),
    code_ok A R1 -> code_ok B R2 -> (forall s s1, bytes_ok s -> R1 s s1 -> bytes_ok s1) ->
    code_ok (A ++ B) (fun s s' => exists s1, R1 s s1 /\ R2 s1 s').
  Proof.
    intros A B R1 R2 (sa & Ha & HA) (sb & Hb & HB) Hbo. exists (sa ++ sb).
    split; [apply slines_app; assumption|].
    intros s Hbs. eapply seg_wp_app; [apply (HA s Hbs)|].
    intros s1 H1. cbv beta. eapply seg_wp_weaken; [|apply (HB s1 (Hbo s s1 Hbs H1))].
    intros s' H2. exists s1. split; assumption.
  Qed.

  Lemma code_ok_nil : forall R : mstate -> mstate -> Prop, (forall s, R s s) -> code_ok [] R.
  Proof.
    intros R HR. exists []. split; [reflexivity|]. intros s _. apply seg_wp_nil. apply HR.
  Qed.

  Lemma code_ok_ins : forall m op o (f : mstate -> mstate),
    parse_operand m op = Some o ->
    (forall s, exists k, exec cfg m o s = XOk (f s) k FNext) ->
    code_ok [ins m op] (fun s s' => s' = f s).
  Proof.
    intros m op o f Hp He. exists [SIns m o false op].
    split; [apply slines_ins; [exact Hp|reflexivity]|].
    intros s _. destruct (He s) as (k & E). apply (seg_wp_ins cfg prog m o false op s (f s) k _ E).
    reflexivity.
  Qed.

  Hypothesis Hports : ports cfg = [].

  Lemma evar_ok : forall x px, var_name x -> layout cfg x = Some px -> 0 <= px < 65536 ->
    expr_ok (evar x) [] (fun s => mget (mem s) px).
  Proof.
    intros x px Vx Lx Rx. unfold expr_ok, evar.
    eapply code_ok_weaken;
      [|apply (code_ok_ins LDA x (OMem x 0 IxNone) (fun s => lda_st s (mget (mem s) px)));
        [apply vn_lo; [exact Vx|reflexivity]|intros s; apply (exec_lda_var cfg x px s Hports Lx Rx)]].
    intros s s' Hb ->. split; [reflexivity|].
    split; [apply lda_st_bytes_ok; [exact Hb|destruct Hb as (_ & _ & _ & _ & HM); apply HM]|].
    split; [apply only_changes_off_mem; reflexivity|repeat split; reflexivity].
  Qed.

  Lemma econst_ok : forall k, 0 <= k < 256 -> expr_ok (econst k) [] (fun _ => k).
  Proof.
    intros k Hk. unfold expr_ok, econst.
    eapply code_ok_weaken;
      [|apply (code_ok_ins LDA (imm k) (OImm (INum k)) (fun s => lda_st s k));
        [apply parse_imm_num; [reflexivity|lia]|intros s; apply (exec_lda_imm cfg k s Hk)]].
    intros s s' Hb ->. split; [reflexivity|]. split; [apply lda_st_bytes_ok; assumption|].
    split; [apply only_changes_off_mem; reflexivity|repeat split; reflexivity].
  Qed.

  Lemma clc_adc_ok : forall op o (v : mstate -> Z),
    parse_operand ADC op = Some o ->
    (forall s, exists k, exec cfg ADC o s = XOk (adc s (v s)) k FNext) ->
    (forall s c, v (set_c s c) = v s) ->
    code_ok [ins CLC ""; ins ADC op] (fun s s' => s' = adc (set_c s false) (v s)).
  Proof.
    intros op o v Hp He Hv.
    eapply code_ok_weaken;
      [|apply (code_ok_app [ins CLC ""] [ins ADC op]
                 (fun s s' => s' = set_c s false) (fun s s' => s' = adc s (v s)));
        [apply (code_ok_ins CLC "" ONone); [reflexivity|intros s; eexists; reflexivity]
        |apply (code_ok_ins ADC op o (fun s => adc s (v s))); [exact Hp|exact He]
        |intros s s1 Hb ->; exact Hb]].
    intros s s' _ (s1 & -> & ->). rewrite Hv. reflexivity.
  Qed.

  Lemma adc_expr_rel : forall W val (v : mstate -> Z) s s1,
    expr_rel W val s s1 -> 0 <= v s1 < 256 ->
    expr_rel W (fun s => (val s + v s1) mod 256) s (adc (set_c s1 false) (v s1)).
  Proof.
    intros W val v s s1 (HA1 & Hb1 & Hoc1 & Hk1) Hv.
    split; [cbn [adc rA set_nz set_v set_c set_a fC b2z]; rewrite HA1, Z.add_0_r; reflexivity|].
    split; [|split; [exact Hoc1|exact Hk1]].
    destruct Hb1 as (RA & RX & RY & RS & RM). apply bytes_ok_mk; try assumption. apply byte_range.
  Qed.

  Lemma eadd_const_ok : forall E W val k, 0 <= k < 256 -> expr_ok E W val ->
    expr_ok (eadd_const E k) W (fun s => (val s + k) mod 256).
  Proof.
    intros E W val k Hk HE. unfold expr_ok, eadd_const.
    assert (Hc : code_ok [ins CLC ""; ins ADC (imm k)] (fun s s' => s' = adc (set_c s false) k)).
    { apply (clc_adc_ok (imm k) (OImm (INum k)) (fun _ => k));
        [apply parse_imm_num; [reflexivity|lia]| |reflexivity].
      intros s. eexists. rewrite (exec_rd_imm cfg ADC s k eq_refl), (byte_id k Hk). reflexivity. }
    eapply code_ok_weaken;
      [|apply (code_ok_app E _ (expr_rel W val) _ HE Hc); intros s s1 _ (_ & Hb1 & _); exact Hb1].
    intros s s' Hb (s1 & H1 & ->). apply (adc_expr_rel W val (fun _ => k) s s1 H1 Hk).
  Qed.

  Lemma eadd_var_ok : forall E W val y py, var_name y -> layout cfg y = Some py ->
    0 <= py < 65536 -> off_stack py -> ~ In py W -> expr_ok E W val ->
    expr_ok (eadd_var E y) W (fun s => (val s + mget (mem s) py) mod 256).
  Proof.
    intros E W val y py Vy Ly Ry Oy Ny HE. unfold expr_ok, eadd_var.
    assert (Hc : code_ok [ins CLC ""; ins ADC y]
                   (fun s s' => s' = adc (set_c s false) (mget (mem s) py))).
    { apply (clc_adc_ok y (OMem y 0 IxNone) (fun s => mget (mem s) py));
        [apply vn_lo; [exact Vy|reflexivity]| |reflexivity].
      intros s. eexists.
      rewrite (exec_rd_mem cfg ADC s y 0 py Hports eq_refl Ly ltac:(lia)), Z.add_0_r. reflexivity. }
    eapply code_ok_weaken;
      [|apply (code_ok_app E _ (expr_rel W val) _ HE Hc); intros s s1 _ (_ & Hb1 & _); exact Hb1].
    intros s s' Hb (s1 & H1 & ->).
    pose proof H1 as (_ & Hb1 & Hoc1 & _). pose proof Hb1 as (_ & _ & _ & _ & RM).
    pose proof (adc_expr_rel W val (fun s => mget (mem s) py) s s1 H1 (RM py)) as H.
    unfold expr_rel in *. rewrite (Hoc1 py ltac:(lia) Oy Ny) in H |- *. exact H.
  Qed.

  Lemma sta_ok : forall x px, var_name x -> layout cfg x = Some px -> 0 <= px < 65536 ->
    code_ok [ins STA x] (fun s s' => s' = set_mem s (mset (mem s) px (rA s))).
  Proof.
    intros x px Vx Lx Rx.
    apply (code_ok_ins STA x (OMem x 0 IxNone)); [apply vn_lo; [exact Vx|reflexivity]|].
    intros s. eexists. rewrite (exec_st_mem cfg STA s x 0 px Hports eq_refl Lx ltac:(lia)).
    rewrite Z.add_0_r. reflexivity.
  Qed.

  Lemma sta_bytes_ok : forall s px, bytes_ok s -> bytes_ok (set_mem s (mset (mem s) px (rA s))).
  Proof.
    intros s px (HA & HX & HY & HS & HM). apply bytes_ok_mk; try assumption.
    apply mget_mset_bytes; assumption.
  Qed.

  Definition assign_rel (pd : Z) (W : list Z) (val : mstate -> Z) (s s' : mstate) : Prop :=
    mget (mem s') pd = val s /\ bytes_ok s' /\ only_changes_off (pd :: W) s s' /\ keeps_xys s s'.

  Lemma assign_expr_ok : forall dst pd E W val, var_name dst -> layout cfg dst = Some pd ->
    0 <= pd < 65536 -> expr_ok E W val ->
    code_ok (assign_expr dst E) (assign_rel pd W val).
  Proof.
    intros dst pd E W val Vd Ld Rd HE. unfold assign_expr.
    eapply code_ok_weaken;
      [|apply (code_ok_app E _ _ _ HE (sta_ok dst pd Vd Ld Rd));
        intros s s1 _ (_ & Hb1 & _); exact Hb1].
    intros s s' Hb (s1 & (HA1 & Hb1 & Hoc1 & Hk1) & ->). unfold assign_rel. cbn [mem set_mem].
    split; [rewrite mget_mset_same; exact HA1|].
    split; [apply sta_bytes_ok; exact Hb1|].
    split; [|exact Hk1].
    apply (only_changes_off_trans _ _ s1);
      [|apply only_changes_off_set; [apply Rd|left; reflexivity]].
    apply (only_changes_off_incl W); [intros a Hin; right; exact Hin|exact Hoc1].
  Qed.
End CallTpl.

(** an argument with its meaning: the code, the address of the parameter cell, the value, the
    cells its evaluation may write *)
Record arg_sem := mkAS { as_arg : arg_code; as_addr : Z; as_val : mstate -> Z; as_writes : list Z }.

(** [Sem.run] on main (the lines of [c]) with the program table, from an empty call stack, with any
    fuel above some bound, halts normally in [st'] *)
Definition calls_to (cfg : config) (prog : sprogram) (c : code) (st st' : mstate) : Prop :=
  exists sl, slines_of c = Some sl /\ exists N : nat,
    forall inl_sem ext_call fuel, (N < fuel)%nat ->
      exists tr cy,
        Sem.run cfg prog inl_sem ext_call fuel "main"%string sl 0 [] st [] 0%N = Halt st' tr cy.

Lemma goes_calls_to : forall cfg prog C sl st st', slines_of C = Some sl ->
  goes cfg prog "main" sl [] 0 st (length sl) st' -> calls_to cfg prog C st st'.
Proof.
  intros cfg prog C sl st st' Hsl (N & HN). exists sl. split; [exact Hsl|]. exists N.
  intros inl_sem ext_call fuel Hf.
  destruct (HN inl_sem ext_call (S (fuel - N - 1)) [] 0%N) as (tr' & cy' & E).
  replace fuel with (N + S (fuel - N - 1))%nat by lia. rewrite E, run_off_end. eauto.
Qed.

Section CallTpl2.
  Variable cfg : config.
  Variable prog : sprogram.
  Hypothesis Hports : ports cfg = [].

  (** argument [a] of a call of [fn], the parameters at [done] being already stored; [D]: all the
      cells the argument passing may write (parameter cells of [fn], and of the functions called
      in the arguments) *)
  Definition arg_ok1 (fn : string) (D done : list Z) (a : arg_sem) : Prop :=
    var_name (param_name fn (arg_param (as_arg a))) /\
    layout cfg (param_name fn (arg_param (as_arg a))) = Some (as_addr a) /\
    0 <= as_addr a < 65536 /\ off_stack (as_addr a) /\ In (as_addr a) D /\
    ~ In (as_addr a) done /\
    expr_ok cfg prog (arg_eval (as_arg a)) (as_writes a) (as_val a) /\
    (forall x, In x (as_writes a) -> In x D) /\
    (forall p, In p done -> ~ In p (as_writes a)) /\
    val_indep D (as_val a).

  Fixpoint args_ok (fn : string) (D done : list Z) (args : list arg_sem) : Prop :=
    match args with
    | [] => True
    | a :: r => arg_ok1 fn D done a /\ args_ok fn D (as_addr a :: done) r
    end.

  Lemma args_ok_indep : forall fn D args done b,
    args_ok fn D done args -> In b args -> val_indep D (as_val b).
  Proof.
    intros fn D args. induction args as [|a r IH]; intros done b Hok Hin; [contradiction|].
    cbn [args_ok] in Hok. destruct Hok as (H1 & Hr). destruct Hin as [<-|Hin].
    - apply H1.
    - apply (IH _ b Hr Hin).
  Qed.

  (** after the arguments: every parameter cell holds the value of its argument (evaluated in the
      state before), only cells of [D] changed outside the stack page, S, X, Y unchanged *)
  Definition pass_rel (D : list Z) (args : list arg_sem) (done : list Z) (s s' : mstate) : Prop :=
    bytes_ok s' /\ only_changes_off D s s' /\ keeps_xys s s' /\
    (forall a, In a args -> mget (mem s') (as_addr a) = as_val a s) /\
    (forall p, In p done -> mget (mem s') p = mget (mem s) p).

  Lemma pass_ok : forall fn D args done,
    (forall p, In p done -> 0 <= p /\ off_stack p) ->
    args_ok fn D done args ->
    code_ok cfg prog (flat_map (pass_arg fn) (map as_arg args)) (pass_rel D args done).
  Proof.
    intros fn D args. induction args as [|a r IH]; intros done Hdone Hok.
    - cbn [map flat_map].
      apply (code_ok_weaken cfg prog [] (fun s s' => s' = s)); [|apply code_ok_nil; reflexivity].
      intros s s' Hb ->. split; [exact Hb|]. split; [apply only_changes_off_refl|].
      split; [apply keeps_xys_refl|]. split; [intros a []|reflexivity].
    - cbn [args_ok] in Hok.
      destruct Hok as ((Vp & Lp & Rp & Op & HpD & Hpn & HE & HWD & HWdone & Hind) & Hr).
      cbn [map flat_map]. unfold pass_arg at 1.
      assert (Hdone' : forall p, In p (as_addr a :: done) -> 0 <= p /\ off_stack p).
      { intros p [<-|Hin]; [split; [lia|exact Op]|apply Hdone; exact Hin]. }
      pose proof (code_ok_app cfg prog _ _ _ _ HE (sta_ok cfg prog Hports _ _ Vp Lp Rp)
                    (fun s s1 _ H => proj1 (proj2 H))) as H12.
      eapply code_ok_weaken;
        [|apply (code_ok_app cfg prog _ _ _ _ H12 (IH _ Hdone' Hr))].
      + intros s s' Hb (s2 & (s1 & (HA1 & Hb1 & Hoc1 & Hk1) & ->) & (Hb' & Hoc2 & Hk2 & Hargs & Hd2)).
        assert (Hoc02 : only_changes_off D s
                          (set_mem s1 (mset (mem s1) (as_addr a) (rA s1)))).
        { intros x Hx Ho Hn. cbn [mem set_mem].
          rewrite mget_mset_other; [|intros E; apply Hn; rewrite <- E; exact HpD|lia|exact Hx].
          apply (Hoc1 x Hx Ho). intros Hin. apply Hn. apply HWD. exact Hin. }
        split; [exact Hb'|].
        split; [apply (only_changes_off_trans _ _ _ _ Hoc02 Hoc2)|].
        split; [apply (keeps_xys_trans _ _ _ Hk1); exact Hk2|].
        split.
        * intros b [<-|Hin].
          -- rewrite (Hd2 (as_addr a) (or_introl eq_refl)). cbn [mem set_mem].
             rewrite mget_mset_same. exact HA1.
          -- rewrite (Hargs b Hin). apply (args_ok_indep _ _ _ _ b Hr Hin). exact Hoc02.
        * intros p Hin. destruct (Hdone p Hin) as (Hp0 & Hpo).
          rewrite (Hd2 p (or_intror Hin)). cbn [mem set_mem].
          rewrite mget_mset_other; [|intros E; apply Hpn; rewrite E; exact Hin|lia|exact Hp0].
          apply (Hoc1 p Hp0 Hpo). apply HWdone. exact Hin.
      + intros s s2 Hb (s1 & (_ & Hb1 & _) & ->). apply sta_bytes_ok. exact Hb1.
  Qed.

  Lemma jsr_ok : forall fn Wf res eff, fn <> ""%string ->
    fun_ok cfg prog fn Wf res eff -> (forall a, In a Wf -> off_stack a) -> res_off res ->
    eff_off eff ->
    code_ok cfg prog [ins JSR fn] (call_rel Wf res eff).
  Proof.
    intros fn Wf res eff Hfn Hf HW Hres Heff. exists [SIns JSR (OLbl fn) false fn].
    split; [apply slines_ins; [apply parse_lbl; [reflexivity|exact Hfn]|reflexivity]|].
    intros s Hb. apply (call_seg cfg prog fn Wf res eff false fn s Hf HW Hres Heff Hb).
  Qed.

  (** ** [call_tpl_correct]

      [fn] has the specification [fun_ok fn Wf res eff] (result [res] and effects [eff], functions
      of the memory outside the stack page at entry; writes [Wf] outside the stack page).  The
      arguments are expressions with specifications, none disturbing a parameter cell already
      stored, and whose values do not depend on the cells [D] the argument passing writes.
      Then from every byte-valued [s] the call goes through a state [s1] (at the [JSR]) where
      every parameter cell holds the value of its argument and nothing else outside [D] and the
      stack page has changed, to a state [s'] where A holds the result of the callee on [s1], the
      effects of the callee have taken place, only cells of [D] and [Wf] changed outside the stack
      page, and S, X, Y are what they were in [s]: the call is balanced. *)
  Theorem call_tpl_correct : forall fn args D Wf res eff,
    fn <> ""%string ->
    fun_ok cfg prog fn Wf res eff -> (forall a, In a Wf -> off_stack a) -> res_off res ->
    eff_off eff ->
    args_ok fn D [] args ->
    code_ok cfg prog (call_tpl fn (map as_arg args))
      (fun s s' => exists s1, pass_rel D args [] s s1 /\ call_rel Wf res eff s1 s' /\
                              only_changes_off (D ++ Wf) s s' /\ keeps_xys s s').
  Proof.
    intros fn args D Wf res eff Hfn Hf HW Hres Heff Hargs. unfold call_tpl.
    eapply code_ok_weaken;
      [|apply (code_ok_app cfg prog _ _ _ _ (pass_ok fn D args [] (fun p H => match H with end) Hargs)
                 (jsr_ok fn Wf res eff Hfn Hf HW Hres Heff))].
    - intros s s' Hb (s1 & Hp & Hc). exists s1. split; [exact Hp|]. split; [exact Hc|].
      pose proof Hp as (Hb1 & Hoc1 & Hk1 & _). destruct Hc as ((HA & Hb' & Hoc & Hk) & _).
      split; [|apply (keeps_xys_trans _ _ _ Hk1 Hk)].
      apply (only_changes_off_trans _ _ s1).
      + apply (only_changes_off_incl D); [intros x Hx; apply in_or_app; left; exact Hx|exact Hoc1].
      + apply (only_changes_off_incl Wf); [intros x Hx; apply in_or_app; right; exact Hx|exact Hoc].
    - intros s s1 _ (Hb1 & _). exact Hb1.
  Qed.

  (** the call as an expression: [val] is the result of the callee on any state where the
      parameter cells hold the argument values; calls nest as arguments *)
  Corollary call_expr_ok : forall fn args D Wf res eff val,
    fn <> ""%string ->
    fun_ok cfg prog fn Wf res eff -> (forall a, In a Wf -> off_stack a) -> res_off res ->
    eff_off eff ->
    args_ok fn D [] args ->
    (forall s s1, bytes_ok s -> pass_rel D args [] s s1 -> res s1 = val s) ->
    expr_ok cfg prog (call_tpl fn (map as_arg args)) (D ++ Wf) val.
  Proof.
    intros fn args D Wf res eff val Hfn Hf HW Hres Heff Hargs Hval. unfold expr_ok.
    eapply code_ok_weaken; [|apply (call_tpl_correct fn args D Wf res eff Hfn Hf HW Hres Heff Hargs)].
    intros s s' Hb (s1 & Hp & ((HA & Hb' & _) & _) & Hoc & Hk).
    split; [rewrite HA; apply (Hval s s1 Hb Hp)|]. split; [exact Hb'|]. split; assumption.
  Qed.

  (** a statement with a specification, run as main *)
  Theorem code_ok_calls_to : forall C (R : mstate -> mstate -> Prop) st,
    code_ok cfg prog C R -> bytes_ok st -> exists st', calls_to cfg prog C st st' /\ R st st'.
  Proof.
    intros C R st (sl & Hsl & H) Hb.
    destruct (H st Hb "main"%string [] [] []) as (s' & G & HR).
    cbn [app length Nat.add] in G. rewrite app_nil_r in G.
    exists s'. split; [apply (goes_calls_to cfg prog C sl st s' Hsl G)|exact HR].
  Qed.

  Lemma calls_to_bytes_ok : forall C st st', calls_to cfg prog C st st' -> bytes_ok st ->
    bytes_ok st'.
  Proof.
    intros C st st' (sl & _ & N & H) Hb.
    destruct (H (fun _ _ => None) (fun _ _ => None) (S N) (Nat.lt_succ_diag_r _)) as (tr & cy & Hr).
    exact (run_halt_bytes_ok _ _ _ _ _ _ _ _ _ _ _ _ _ Hr Hb).
  Qed.
End CallTpl2.
Print Assumptions pass_ok.
Print Assumptions call_tpl_correct.
Print Assumptions call_expr_ok.
Print Assumptions code_ok_calls_to.

(** the function [f] of the program table is [body] as the harness runs it: followed by an RTS *)
Definition prog_has (prog : sprogram) (f : string) (body : code) : Prop :=
  exists cf, slines_of (harness_fun body) = Some cf /\ find_func f prog = Some cf.

(** a variable: its cell, anywhere outside the stack page *)
Definition var_cell (cfg : config) (x : string) (p : Z) : Prop :=
  layout cfg x = Some p /\ 0 <= p < 65536 /\ off_stack p.

(** a function of the program table, by a run of [stepn] on its lines (no call inside) *)
Lemma fun_ok_reach : forall cfg prog f body cf W res eff,
  prog_has prog f body -> slines_of (harness_fun body) = Some cf ->
  (forall s1, bytes_ok s1 ->
     reach cfg cf 0 s1 (fun (_ pc' : nat) (s2 : mstate) =>
       is_rts cf pc' /\ rA s2 = res s1 /\ only_changes W s1 s2 /\ keeps_xys s1 s2 /\
       forall p v, In (p, v) eff -> mget (mem s2) p = v s1)) ->
  fun_ok cfg prog f W res eff.
Proof.
  intros cfg prog f body cf W res eff (cf' & Hcf & Hf) Ecf H. rewrite Ecf in Hcf. inversion Hcf; subst cf'.
  exists cf. split; [exact Hf|].
  intros stack s1 Hb. destruct (H s1 Hb) as (n & pc' & s2 & Hs & Hr & HA & Hoc & Hk & He).
  exists pc', s2. split; [apply (goes_stepn cfg prog f cf stack n _ _ _ _ Hs)|].
  split; [exact Hr|]. split; [exact HA|]. split; [apply (stepn_bytes_ok cfg cf n _ _ _ _ Hs Hb)|].
  split; [exact Hoc|]. split; [exact Hk|exact He].
Qed.

Ltac names_tac := apply ident_var_name; [discriminate|reflexivity].

Lemma is_rts_intro : forall c pc o p raw, nth_error c pc = Some (SIns RTS o p raw) -> is_rts c pc.
Proof. intros c pc o p raw H. exists o, p, raw. exact H. Qed.

(** [void f() { c = 1; }] *)
Lemma fun_f_ok : forall cfg prog pc,
  ports cfg = [] -> var_cell cfg "c" pc -> prog_has prog "f" fun_f ->
  fun_ok cfg prog "f" [pc] (fun _ => 1) [(pc, fun _ => 1)].
Proof.
  intros cfg prog pc Hp (Lc & Rc & Oc) Hprog.
  assert (Vc : var_name "c") by names_tac.
  eapply (fun_ok_reach cfg prog "f" _ _ _ _ _ Hprog);
    [cbn; reflexivity|].
  intros s1 Hb.
  repeat rstep. apply reach_stop.
  split; [eapply is_rts_intro; reflexivity|]. post_tac. change (byte 1) with 1.
  split; [reflexivity|]. split; [msets_frame|]. split; [kept|].
  intros p v [E|[]]. inversion E; subst. mem_simp. reflexivity.
Qed.

(** [unsigned char g() { return a; }] *)
Lemma fun_g_ok : forall cfg prog pa,
  ports cfg = [] -> var_cell cfg "a" pa -> prog_has prog "g" fun_g ->
  fun_ok cfg prog "g" [] (fun s => mget (mem s) pa) [].
Proof.
  intros cfg prog pa Hp (La & Ra & Oa) Hprog.
  assert (Va : var_name "a") by names_tac.
  eapply (fun_ok_reach cfg prog "g" _ _ _ _ _ Hprog);
    [cbn; reflexivity|].
  intros s1 Hb.
  repeat rstep. apply reach_stop.
  split; [eapply is_rts_intro; reflexivity|]. post_tac.
  split; [reflexivity|]. split; [msets_frame|]. split; [kept|intros p v []].
Qed.

(** [unsigned char h(unsigned char x) { return x + 1; }] *)
Lemma fun_h_ok : forall cfg prog px,
  ports cfg = [] -> var_cell cfg "h_x" px -> prog_has prog "h" fun_h ->
  fun_ok cfg prog "h" [] (fun s => (mget (mem s) px + 1) mod 256) [].
Proof.
  intros cfg prog px Hp (Lx & Rx & Ox) Hprog.
  assert (Vx : var_name "h_x") by names_tac.
  eapply (fun_ok_reach cfg prog "h" _ _ _ _ _ Hprog);
    [cbn; reflexivity|].
  intros s1 Hb.
  repeat rstep. apply reach_stop.
  split; [eapply is_rts_intro; reflexivity|]. post_tac. change (byte 1) with 1.
  split; [reflexivity|]. split; [msets_frame|]. split; [kept|intros p v []].
Qed.

(** [unsigned char k(unsigned char x, unsigned char y) { return x + y; }] *)
Lemma fun_k_ok : forall cfg prog px py,
  ports cfg = [] -> var_cell cfg "k_x" px -> var_cell cfg "k_y" py -> prog_has prog "k" fun_k ->
  fun_ok cfg prog "k" [] (fun s => (mget (mem s) px + mget (mem s) py) mod 256) [].
Proof.
  intros cfg prog px py Hp (Lx & Rx & Ox) (Ly & Ry & Oy) Hprog.
  assert (Vx : var_name "k_x") by names_tac. assert (Vy : var_name "k_y") by names_tac.
  eapply (fun_ok_reach cfg prog "k" _ _ _ _ _ Hprog);
    [cbn; reflexivity|].
  intros s1 Hb.
  repeat rstep. apply reach_stop.
  split; [eapply is_rts_intro; reflexivity|]. post_tac.
  split; [reflexivity|]. split; [msets_frame|]. split; [kept|intros p v []].
Qed.

(** [void set(unsigned char x) { c = x; }] *)
Lemma fun_set_ok : forall cfg prog px pc,
  ports cfg = [] -> var_cell cfg "set_x" px -> var_cell cfg "c" pc -> prog_has prog "set" fun_set ->
  fun_ok cfg prog "set" [pc] (fun s => mget (mem s) px) [(pc, fun s => mget (mem s) px)].
Proof.
  intros cfg prog px pc Hp (Lx & Rx & Ox) (Lc & Rc & Oc) Hprog.
  assert (Vx : var_name "set_x") by names_tac. assert (Vc : var_name "c") by names_tac.
  eapply (fun_ok_reach cfg prog "set" _ _ _ _ _ Hprog);
    [cbn; reflexivity|].
  intros s1 Hb.
  repeat rstep. apply reach_stop.
  split; [eapply is_rts_intro; reflexivity|]. post_tac.
  split; [reflexivity|]. split; [msets_frame|]. split; [kept|].
  intros p v [E|[]]. inversion E; subst. mem_simp. reflexivity.
Qed.

(** [unsigned char m(unsigned char x) { if (x < b) return b; return x; }]: two RTS of its own *)
Lemma fun_m_ok : forall cfg prog px pb,
  ports cfg = [] -> var_cell cfg "m_x" px -> var_cell cfg "b" pb -> prog_has prog "m" fun_m ->
  fun_ok cfg prog "m" [] (fun s => Z.max (mget (mem s) px) (mget (mem s) pb)) [].
Proof.
  intros cfg prog px pb Hp (Lx & Rx & Ox) (Lb & Rb & Ob) Hprog.
  assert (Vx : var_name "m_x") by names_tac. assert (Vb : var_name "b") by names_tac.
  eapply (fun_ok_reach cfg prog "m" _ _ _ _ _ Hprog);
    [cbn; reflexivity|].
  intros s1 (HA & HX & HY & HS & HM).
  pose proof (HM px) as Mx. pose proof (HM pb) as Mb.
  repeat rstep; apply reach_stop;
    (split; [eapply is_rts_intro; reflexivity|]); post_tac;
    (split; [|split; [msets_frame|split; [kept|intros p v []]]]).
  - lia.
  - lia.
Qed.
Print Assumptions fun_f_ok.
Print Assumptions fun_g_ok.
Print Assumptions fun_h_ok.
Print Assumptions fun_k_ok.
Print Assumptions fun_set_ok.
Print Assumptions fun_m_ok.

Record call_addrs := mkCA {
  ad_a : Z; ad_b : Z; ad_c : Z; ad_i : Z;
  ad_hx : Z; ad_kx : Z; ad_ky : Z; ad_sx : Z; ad_mx : Z }.

(** the environment of the listing: no split-port RAM; the four variables and the five parameter
    cells are different cells, anywhere outside the stack page; the program table holds the six
    functions as the harness lays them out (body, then RTS) *)
Definition call_env (cfg : config) (prog : sprogram) (A : call_addrs) : Prop :=
  ports cfg = [] /\
  var_cell cfg "a" (ad_a A) /\ var_cell cfg "b" (ad_b A) /\ var_cell cfg "c" (ad_c A) /\
  var_cell cfg "i" (ad_i A) /\ var_cell cfg "h_x" (ad_hx A) /\ var_cell cfg "k_x" (ad_kx A) /\
  var_cell cfg "k_y" (ad_ky A) /\ var_cell cfg "set_x" (ad_sx A) /\ var_cell cfg "m_x" (ad_mx A) /\
  NoDup [ad_a A; ad_b A; ad_c A; ad_i A; ad_hx A; ad_kx A; ad_ky A; ad_sx A; ad_mx A] /\
  prog_has prog "f" fun_f /\ prog_has prog "g" fun_g /\ prog_has prog "h" fun_h /\
  prog_has prog "k" fun_k /\ prog_has prog "set" fun_set /\ prog_has prog "m" fun_m.

(** two cells of the environment are different: by their positions in the [NoDup] list
    (a 0, b 1, c 2, i 3, h_x 4, k_x 5, k_y 6, set_x 7, m_x 8).  Only the inequalities a proof needs
    are put in the context: [lia] is exponential in the number of disequalities *)
Lemma nodup_nth_neq : forall (l : list Z) (i j : nat) d, NoDup l ->
  (i < length l)%nat -> (j < length l)%nat -> i <> j -> nth i l d <> nth j l d.
Proof.
  intros l i j d Hn Hi Hj Hij E. apply Hij. apply (proj1 (NoDup_nth l d) Hn i j Hi Hj E).
Qed.

Ltac neq Hnd i j :=
  exact (nodup_nth_neq _ i j 0 Hnd ltac:(cbn [length]; lia) ltac:(cbn [length]; lia) ltac:(lia)).

(** [call_env], taken apart: per cell its layout entry [L..], range [R..] and [off_stack] [O..];
    [Hnd] the [NoDup]; [Pf] .. [Pm] the six functions *)
Ltac env_tac He :=
  destruct He as (Hp & (La & Ra & Oa) & (Lb & Rb & Ob) & (Lc & Rc & Oc) & (Li & Ri & Oi) &
                  (Lhx & Rhx & Ohx) & (Lkx & Rkx & Okx) & (Lky & Rky & Oky) &
                  (Lsx & Rsx & Osx) & (Lmx & Rmx & Omx) & Hnd & Pf & Pg & Ph & Pk & Pset & Pm).

Lemma val_indep_cell : forall D p, 0 <= p -> off_stack p -> ~ In p D ->
  val_indep D (fun s => mget (mem s) p).
Proof. intros D p Hp Ho Hn s s' H. apply (H p Hp Ho Hn). Qed.

Lemma val_indep_const : forall D k, val_indep D (fun _ => k).
Proof. intros D k s s' _. reflexivity. Qed.

Section Statements.
  Variable cfg : config.
  Variable prog : sprogram.
  Hypothesis Hports : ports cfg = [].

  (** [dst = E;] for any code [E] with a specification *)
  Lemma assign_code_ok : forall dst pd E (R : mstate -> mstate -> Prop),
    var_name dst -> layout cfg dst = Some pd -> 0 <= pd < 65536 ->
    code_ok cfg prog E R -> (forall s s', bytes_ok s -> R s s' -> bytes_ok s') ->
    code_ok cfg prog (assign_expr dst E)
      (fun s s2 => exists s', R s s' /\ s2 = set_mem s' (mset (mem s') pd (rA s'))).
  Proof.
    intros dst pd E R Vd Ld Rd HE Hb. unfold assign_expr.
    apply (code_ok_app cfg prog E _ R _ HE (sta_ok cfg prog Hports dst pd Vd Ld Rd) Hb).
  Qed.

  (** an argument given by an expression with a specification *)
  Lemma arg_ok_intro : forall fn D done par pp E W val,
    var_name (param_name fn par) -> var_cell cfg (param_name fn par) pp -> In pp D ->
    ~ In pp done -> expr_ok cfg prog E W val -> (forall x, In x W -> In x D) ->
    (forall p, In p done -> ~ In p W) -> val_indep D val ->
    arg_ok1 cfg prog fn D done (mkAS (mkArg par E) pp val W).
  Proof.
    intros fn D done par pp E W val Vp (Lp & Rp & Op) HD Hdone HE HW Hd Hi.
    exact (conj Vp (conj Lp (conj Rp (conj Op (conj HD (conj Hdone (conj HE (conj HW (conj Hd Hi))))))))).
  Qed.
End Statements.

Lemma res_off_const : forall k : Z, res_off (fun _ => k).
Proof. intros k s s' _. reflexivity. Qed.

Lemma res_off_cell : forall p, 0 <= p -> off_stack p -> res_off (fun s => mget (mem s) p).
Proof. intros p Hp Ho s s' H. apply (H p Hp Ho). Qed.

(** [f();]: [c = 1]; balanced *)
Theorem stmt_f_correct : forall cfg prog A st, call_env cfg prog A -> bytes_ok st ->
  exists st', calls_to cfg prog (call_tpl "f" []) st st' /\
    mget (mem st') (ad_c A) = 1 /\
    only_changes_off [ad_c A] st st' /\ keeps_xys st st'.
Proof.
  intros cfg prog A st He Hb. env_tac He.
  destruct (code_ok_calls_to cfg prog _ _ st
              (call_tpl_correct cfg prog Hp "f" [] [] [ad_c A] (fun _ => 1) [(ad_c A, fun _ => 1)]
                 ltac:(discriminate) (fun_f_ok cfg prog (ad_c A) Hp (conj Lc (conj Rc Oc)) Pf)
                 ltac:(intros a [<-|[]]; exact Oc) (res_off_const 1)
                 ltac:(intros p v [E|[]]; inversion E; apply res_off_const) I) Hb)
    as (st' & Hc & s1 & _ & (_ & Heff) & Hoc & Hk).
  exists st'. split; [exact Hc|]. split; [apply (Heff _ _ (or_introl eq_refl))|].
  split; assumption.
Qed.
Print Assumptions stmt_f_correct.

(** [dst = e;] as a statement of main, for an expression with a specification *)
Lemma stmt_assign_expr : forall cfg prog dst pd E W W' val st,
  ports cfg = [] -> var_name dst -> layout cfg dst = Some pd -> 0 <= pd < 65536 ->
  expr_ok cfg prog E W val -> (forall x, In x (pd :: W) -> In x W') -> bytes_ok st ->
  exists st', calls_to cfg prog (assign_expr dst E) st st' /\
    mget (mem st') pd = val st /\ only_changes_off W' st st' /\ keeps_xys st st'.
Proof.
  intros cfg prog dst pd E W W' val st Hp Vd Ld Rd HE HW Hb.
  destruct (code_ok_calls_to cfg prog _ _ st (assign_expr_ok cfg prog Hp dst pd E W val Vd Ld Rd HE) Hb)
    as (st' & Hc & Hv & _ & Hoc & Hk).
  exists st'. split; [exact Hc|]. split; [exact Hv|]. split; [|exact Hk].
  apply (only_changes_off_incl _ _ _ _ HW Hoc).
Qed.

Section ListingCalls.
  Variable cfg : config.
  Variable prog : sprogram.
  Variable A : call_addrs.
  Hypothesis He : call_env cfg prog A.

  (** [g()] as an expression *)
  Lemma g_expr_ok : expr_ok cfg prog (call_tpl "g" []) [] (fun s => mget (mem s) (ad_a A)).
  Proof.
    env_tac He.
    apply (call_expr_ok cfg prog Hp "g" [] [] [] (fun s => mget (mem s) (ad_a A)) []);
      [discriminate|apply (fun_g_ok cfg prog (ad_a A) Hp (conj La (conj Ra Oa)) Pg)
      |intros a []|apply (res_off_cell (ad_a A)); [lia|exact Oa]|intros p v []|exact I|].
    intros s s1 _ (_ & Hoc & _). apply (Hoc (ad_a A)); [lia|exact Oa|intros []].
  Qed.

  (** [h(e)] for any argument expression [e] whose value does not depend on [h_x] and on what
      [e] writes: the result in A, and the parameter cell, which holds the value of [e] *)
  Lemma h_call_ok : forall E W val,
    expr_ok cfg prog E W val -> val_indep (ad_hx A :: W) val ->
    code_ok cfg prog (call_tpl "h" [mkArg "x" E])
      (fun s s' => expr_rel ((ad_hx A :: W) ++ []) (fun s => (val s + 1) mod 256) s s' /\
                   mget (mem s') (ad_hx A) = val s).
  Proof.
    intros E W val HE Hind. env_tac He.
    assert (Vhx : var_name (param_name "h" "x")) by names_tac.
    eapply code_ok_weaken;
      [|apply (call_tpl_correct cfg prog Hp "h" [mkAS (mkArg "x" E) (ad_hx A) val W] (ad_hx A :: W) []
                 (fun s => (mget (mem s) (ad_hx A) + 1) mod 256) [] ltac:(discriminate)
                 (fun_h_ok cfg prog (ad_hx A) Hp (conj Lhx (conj Rhx Ohx)) Ph) ltac:(intros a [])
                 ltac:(intros s s' H; cbv beta; rewrite (H (ad_hx A) ltac:(lia) Ohx); reflexivity)
                 ltac:(intros p v [])
                 (conj (arg_ok_intro cfg prog "h" (ad_hx A :: W) [] "x" (ad_hx A) E W val Vhx
                          (conj Lhx (conj Rhx Ohx)) (or_introl eq_refl) (fun H => H) HE
                          (fun x Hx => or_intror Hx) (fun p H => match H with end) Hind) I))].
    intros s s' Hb (s1 & (_ & _ & _ & Hargs & _) & ((HA & Hb' & Hoc2 & _) & _) & Hoc & Hk).
    pose proof (Hargs _ (or_introl eq_refl)) as Hx. cbn [as_addr as_val] in Hx.
    split; [split; [rewrite HA, Hx; reflexivity|split; [exact Hb'|split; assumption]]|].
    rewrite (Hoc2 (ad_hx A) ltac:(lia) Ohx ltac:(intros [])). exact Hx.
  Qed.

  Lemma h_expr_ok : forall E W val,
    expr_ok cfg prog E W val -> val_indep (ad_hx A :: W) val ->
    expr_ok cfg prog (call_tpl "h" [mkArg "x" E]) ((ad_hx A :: W) ++ [])
      (fun s => (val s + 1) mod 256).
  Proof.
    intros E W val HE Hind.
    apply (code_ok_weaken cfg prog _ _ _ (fun s s' _ H => proj1 H) (h_call_ok E W val HE Hind)).
  Qed.

  Lemma a_expr_ok : expr_ok cfg prog (evar "a") [] (fun s => mget (mem s) (ad_a A)).
  Proof.
    env_tac He. apply (evar_ok cfg prog Hp "a" (ad_a A)); [names_tac|exact La|exact Ra].
  Qed.

  Lemma a_indep_hx : val_indep [ad_hx A] (fun s => mget (mem s) (ad_a A)).
  Proof.
    env_tac He. assert (N : ad_a A <> ad_hx A) by neq Hnd 0%nat 4%nat.
    apply val_indep_cell; [lia|exact Oa|cbn [In]; lia].
  Qed.

  (** [h(a)] and [h(h(a))] *)
  Lemma ha_expr_ok :
    expr_ok cfg prog (call_tpl "h" [mkArg "x" (evar "a")]) ([ad_hx A] ++ [])
      (fun s => (mget (mem s) (ad_a A) + 1) mod 256).
  Proof. apply (h_expr_ok _ [] _ a_expr_ok a_indep_hx). Qed.

  Lemma hha_expr_ok :
    expr_ok cfg prog (call_tpl "h" [mkArg "x" (call_tpl "h" [mkArg "x" (evar "a")])])
      ((ad_hx A :: [ad_hx A] ++ []) ++ [])
      (fun s => ((mget (mem s) (ad_a A) + 1) mod 256 + 1) mod 256).
  Proof.
    apply (h_expr_ok _ _ _ ha_expr_ok).
    env_tac He. assert (N : ad_a A <> ad_hx A) by neq Hnd 0%nat 4%nat.
    intros s s' H. cbv beta. rewrite (H (ad_a A)); [reflexivity|lia|exact Oa|cbn [app In]; lia].
  Qed.

  (** [c = h(a);]: [c = a + 1], the parameter cell [h_x] holds [a]; every other cell outside the
      stack page (in particular [a], [b], [i]) and S, X, Y unchanged *)
  Theorem stmt_h_correct : forall st, bytes_ok st ->
    exists st', calls_to cfg prog (assign_call "c" "h" [mkArg "x" (evar "a")]) st st' /\
      mget (mem st') (ad_c A) = (mget (mem st) (ad_a A) + 1) mod 256 /\
      mget (mem st') (ad_hx A) = mget (mem st) (ad_a A) /\
      mget (mem st') (ad_a A) = mget (mem st) (ad_a A) /\
      mget (mem st') (ad_b A) = mget (mem st) (ad_b A) /\
      mget (mem st') (ad_i A) = mget (mem st) (ad_i A) /\
      only_changes_off [ad_c A; ad_hx A] st st' /\ keeps_xys st st'.
  Proof.
    intros st Hb. pose proof He as He'. env_tac He'.
    assert (N1 : ad_a A <> ad_c A) by neq Hnd 0%nat 2%nat.
    assert (N2 : ad_a A <> ad_hx A) by neq Hnd 0%nat 4%nat.
    assert (N3 : ad_b A <> ad_c A) by neq Hnd 1%nat 2%nat.
    assert (N4 : ad_b A <> ad_hx A) by neq Hnd 1%nat 4%nat.
    assert (N5 : ad_i A <> ad_c A) by neq Hnd 3%nat 2%nat.
    assert (N6 : ad_i A <> ad_hx A) by neq Hnd 3%nat 4%nat.
    assert (N7 : ad_c A <> ad_hx A) by neq Hnd 2%nat 4%nat.
    clear Hnd.
    destruct (code_ok_calls_to cfg prog _ _ st
                (assign_code_ok cfg prog Hp "c" (ad_c A) _ _ ltac:(names_tac) Lc Rc
                   (h_call_ok _ [] _ a_expr_ok a_indep_hx)
                   ltac:(intros s s' _ ((_ & Hx & _) & _); exact Hx)) Hb)
      as (st' & Hc & s2 & ((HA & Hb2 & Hoc & Hk) & Hx) & ->).
    assert (Hfr : only_changes_off [ad_c A; ad_hx A] st
                    (set_mem s2 (mset (mem s2) (ad_c A) (rA s2)))).
    { apply (only_changes_off_trans _ _ s2);
        [|apply only_changes_off_set; [apply Rc|left; reflexivity]].
      apply (only_changes_off_incl ([ad_hx A] ++ [])); [intros a Hin; right; exact Hin|exact Hoc]. }
    exists (set_mem s2 (mset (mem s2) (ad_c A) (rA s2))). split; [exact Hc|].
    split; [cbn [mem set_mem]; rewrite mget_mset_same; exact HA|].
    split; [cbn [mem set_mem]; rewrite mget_mset_other by lia; exact Hx|].
    split; [apply Hfr; [lia|exact Oa|cbn [In]; lia]|].
    split; [apply Hfr; [lia|exact Ob|cbn [In]; lia]|].
    split; [apply Hfr; [lia|exact Oi|cbn [In]; lia]|].
    split; [exact Hfr|apply (keeps_xys_trans _ _ _ Hk); kept].
  Qed.

  (** [c = h(h(a));]: [c = a + 2] *)
  Theorem stmt_hh_correct : forall st, bytes_ok st ->
    exists st', calls_to cfg prog
                  (assign_call "c" "h" [mkArg "x" (call_tpl "h" [mkArg "x" (evar "a")])]) st st' /\
      mget (mem st') (ad_c A) = (mget (mem st) (ad_a A) + 2) mod 256 /\
      only_changes_off [ad_c A; ad_hx A] st st' /\ keeps_xys st st'.
  Proof.
    intros st Hb. pose proof He as He'. env_tac He'.
    destruct (stmt_assign_expr cfg prog "c" (ad_c A) _ _ [ad_c A; ad_hx A] _ st Hp ltac:(names_tac) Lc Rc
                hha_expr_ok ltac:(intros x; cbn [app In]; tauto) Hb) as (st' & Hc & Hv & Hoc).
    exists st'. split; [exact Hc|]. split; [rewrite Hv; Z.div_mod_to_equations; lia|exact Hoc].
  Qed.

  (** [a = h(a) + 1;]: [a = a + 2] *)
  Theorem stmt_h_plus1_correct : forall st, bytes_ok st ->
    exists st', calls_to cfg prog
                  (assign_expr "a" (eadd_const (call_tpl "h" [mkArg "x" (evar "a")]) 1)) st st' /\
      mget (mem st') (ad_a A) = (mget (mem st) (ad_a A) + 2) mod 256 /\
      only_changes_off [ad_a A; ad_hx A] st st' /\ keeps_xys st st'.
  Proof.
    intros st Hb. pose proof He as He'. env_tac He'.
    destruct (stmt_assign_expr cfg prog "a" (ad_a A) _ _ [ad_a A; ad_hx A] _ st Hp ltac:(names_tac) La Ra
                (eadd_const_ok cfg prog _ _ _ 1 ltac:(lia) ha_expr_ok)
                ltac:(intros x; cbn [app In]; tauto) Hb) as (st' & Hc & Hv & Hoc).
    exists st'. split; [exact Hc|]. split; [rewrite Hv; Z.div_mod_to_equations; lia|exact Hoc].
  Qed.
End ListingCalls.
Print Assumptions stmt_h_correct.
Print Assumptions stmt_hh_correct.
Print Assumptions stmt_h_plus1_correct.

(** [c = g();]: [c = a] *)
Theorem stmt_g_correct : forall cfg prog A st, call_env cfg prog A -> bytes_ok st ->
  exists st', calls_to cfg prog (assign_call "c" "g" []) st st' /\
    mget (mem st') (ad_c A) = mget (mem st) (ad_a A) /\
    only_changes_off [ad_c A] st st' /\ keeps_xys st st'.
Proof.
  intros cfg prog A st He Hb. pose proof He as He'. env_tac He'.
  apply (stmt_assign_expr cfg prog "c" (ad_c A) _ _ _ _ st Hp ltac:(names_tac) Lc Rc
           (g_expr_ok cfg prog A He) (fun _ H => H) Hb).
Qed.
Print Assumptions stmt_g_correct.

Section ListingCalls2.
  Variable cfg : config.
  Variable prog : sprogram.
  Variable A : call_addrs.
  Hypothesis He : call_env cfg prog A.

  (** [k(e1, e2)] for two argument expressions that write nothing outside the stack page and do
      not read the parameter cells of [k] *)
  Lemma k_expr_ok : forall E1 val1 E2 val2,
    expr_ok cfg prog E1 [] val1 -> expr_ok cfg prog E2 [] val2 ->
    val_indep [ad_kx A; ad_ky A] val1 -> val_indep [ad_kx A; ad_ky A] val2 ->
    expr_ok cfg prog (call_tpl "k" [mkArg "x" E1; mkArg "y" E2]) ([ad_kx A; ad_ky A] ++ [])
      (fun s => (val1 s + val2 s) mod 256).
  Proof.
    intros E1 val1 E2 val2 H1 H2 I1 I2. env_tac He.
    assert (N : ad_kx A <> ad_ky A) by neq Hnd 5%nat 6%nat.
    assert (Vkx : var_name (param_name "k" "x")) by names_tac.
    assert (Vky : var_name (param_name "k" "y")) by names_tac.
    apply (call_expr_ok cfg prog Hp "k"
             [mkAS (mkArg "x" E1) (ad_kx A) val1 []; mkAS (mkArg "y" E2) (ad_ky A) val2 []]
             [ad_kx A; ad_ky A] []
             (fun s => (mget (mem s) (ad_kx A) + mget (mem s) (ad_ky A)) mod 256) []);
      [discriminate
      |apply (fun_k_ok cfg prog (ad_kx A) (ad_ky A) Hp (conj Lkx (conj Rkx Okx))
                (conj Lky (conj Rky Oky)) Pk)
      |intros a []
      |intros s s' H; cbv beta;
       rewrite (H (ad_kx A) ltac:(lia) Okx), (H (ad_ky A) ltac:(lia) Oky); reflexivity
      |intros p v []| |].
    - split; [|split; [|exact I]].
      + apply (arg_ok_intro cfg prog "k" [ad_kx A; ad_ky A] [] "x" (ad_kx A) E1 [] val1 Vkx (conj Lkx (conj Rkx Okx))
                 (or_introl eq_refl) (fun H => H) H1 (fun _ H => match H with end)
                 (fun _ _ H => H) I1).
      + apply (arg_ok_intro cfg prog "k" [ad_kx A; ad_ky A] [ad_kx A] "y" (ad_ky A) E2 [] val2 Vky
                 (conj Lky (conj Rky Oky)) (or_intror (or_introl eq_refl))
                 ltac:(cbn [In]; lia) H2 (fun _ H => match H with end) (fun _ _ H => H) I2).
    - intros s s1 _ (_ & _ & _ & Hargs & _).
      pose proof (Hargs _ (or_introl eq_refl)) as Hx.
      pose proof (Hargs _ (or_intror (or_introl eq_refl))) as Hy.
      cbn [as_addr as_val] in Hx, Hy. rewrite Hx, Hy. reflexivity.
  Qed.

  (** [c = k(a, b);]: [c = a + b] *)
  Theorem stmt_k_correct : forall st, bytes_ok st ->
    exists st', calls_to cfg prog
                  (assign_call "c" "k" [mkArg "x" (evar "a"); mkArg "y" (evar "b")]) st st' /\
      mget (mem st') (ad_c A) = (mget (mem st) (ad_a A) + mget (mem st) (ad_b A)) mod 256 /\
      only_changes_off [ad_c A; ad_kx A; ad_ky A] st st' /\ keeps_xys st st'.
  Proof.
    intros st Hb. pose proof He as He'. env_tac He'.
    assert (N1 : ad_a A <> ad_kx A) by neq Hnd 0%nat 5%nat.
    assert (N2 : ad_a A <> ad_ky A) by neq Hnd 0%nat 6%nat.
    assert (N3 : ad_b A <> ad_kx A) by neq Hnd 1%nat 5%nat.
    assert (N4 : ad_b A <> ad_ky A) by neq Hnd 1%nat 6%nat.
    apply (stmt_assign_expr cfg prog "c" (ad_c A) _ _ _ _ st Hp ltac:(names_tac) Lc Rc
             (k_expr_ok _ _ _ _
                (evar_ok cfg prog Hp "a" (ad_a A) ltac:(names_tac) La Ra)
                (evar_ok cfg prog Hp "b" (ad_b A) ltac:(names_tac) Lb Rb)
                (val_indep_cell [ad_kx A; ad_ky A] (ad_a A) ltac:(lia) Oa ltac:(cbn [In]; lia))
                (val_indep_cell [ad_kx A; ad_ky A] (ad_b A) ltac:(lia) Ob ltac:(cbn [In]; lia))));
      [intros x; cbn [app In]; tauto|exact Hb].
  Qed.

  (** [c = k(g(), 3);]: [c = a + 3] *)
  Theorem stmt_kg3_correct : forall st, bytes_ok st ->
    exists st', calls_to cfg prog
                  (assign_call "c" "k" [mkArg "x" (call_tpl "g" []); mkArg "y" (econst 3)]) st st' /\
      mget (mem st') (ad_c A) = (mget (mem st) (ad_a A) + 3) mod 256 /\
      only_changes_off [ad_c A; ad_kx A; ad_ky A] st st' /\ keeps_xys st st'.
  Proof.
    intros st Hb. pose proof He as He'. env_tac He'.
    assert (N1 : ad_a A <> ad_kx A) by neq Hnd 0%nat 5%nat.
    assert (N2 : ad_a A <> ad_ky A) by neq Hnd 0%nat 6%nat.
    apply (stmt_assign_expr cfg prog "c" (ad_c A) _ _ _ _ st Hp ltac:(names_tac) Lc Rc
             (k_expr_ok _ _ _ _ (g_expr_ok cfg prog A He)
                (econst_ok cfg prog 3 ltac:(lia))
                (val_indep_cell [ad_kx A; ad_ky A] (ad_a A) ltac:(lia) Oa ltac:(cbn [In]; lia))
                (val_indep_const _ 3)));
      [intros x; cbn [app In]; tauto|exact Hb].
  Qed.

  (** [c = m(a);]: [c = max a b]; the callee returns from one of its two RTS *)
  Theorem stmt_m_correct : forall st, bytes_ok st ->
    exists st', calls_to cfg prog (assign_call "c" "m" [mkArg "x" (evar "a")]) st st' /\
      mget (mem st') (ad_c A) = Z.max (mget (mem st) (ad_a A)) (mget (mem st) (ad_b A)) /\
      only_changes_off [ad_c A; ad_mx A] st st' /\ keeps_xys st st'.
  Proof.
    intros st Hb. pose proof He as He'. env_tac He'.
    assert (N1 : ad_a A <> ad_mx A) by neq Hnd 0%nat 8%nat.
    assert (N2 : ad_b A <> ad_mx A) by neq Hnd 1%nat 8%nat.
    assert (Vmx : var_name (param_name "m" "x")) by names_tac.
    assert (Hm : expr_ok cfg prog (call_tpl "m" [mkArg "x" (evar "a")]) ([ad_mx A] ++ [])
                   (fun s => Z.max (mget (mem s) (ad_a A)) (mget (mem s) (ad_b A)))).
    { apply (call_expr_ok cfg prog Hp "m"
               [mkAS (mkArg "x" (evar "a")) (ad_mx A) (fun s => mget (mem s) (ad_a A)) []]
               [ad_mx A] []
               (fun s => Z.max (mget (mem s) (ad_mx A)) (mget (mem s) (ad_b A))) []);
        [discriminate
        |apply (fun_m_ok cfg prog (ad_mx A) (ad_b A) Hp (conj Lmx (conj Rmx Omx))
                  (conj Lb (conj Rb Ob)) Pm)
        |intros a []
        |intros s s' H; cbv beta;
         rewrite (H (ad_mx A) ltac:(lia) Omx), (H (ad_b A) ltac:(lia) Ob); reflexivity
        |intros p v []
        |split; [|exact I];
         apply (arg_ok_intro cfg prog "m" [ad_mx A] [] "x" (ad_mx A) _ _ _
                  Vmx (conj Lmx (conj Rmx Omx)) (or_introl eq_refl) (fun H => H)
                  (evar_ok cfg prog Hp "a" (ad_a A) ltac:(names_tac) La Ra)
                  (fun _ H => match H with end) (fun _ _ H => H)
                  (val_indep_cell [ad_mx A] (ad_a A) ltac:(lia) Oa ltac:(cbn [In]; lia)))|].
      intros s s1 _ (_ & Hoc & _ & Hargs & _).
      pose proof (Hargs _ (or_introl eq_refl)) as Hx. cbn [as_addr as_val] in Hx.
      rewrite Hx, (Hoc (ad_b A) ltac:(lia) Ob ltac:(cbn [In]; lia)). reflexivity. }
    apply (stmt_assign_expr cfg prog "c" (ad_c A) _ _ _ _ st Hp ltac:(names_tac) Lc Rc Hm);
      [intros x; cbn [app In]; tauto|exact Hb].
  Qed.

  (** [set(5);]: [c = 5] *)
  Theorem stmt_set_correct : forall st, bytes_ok st ->
    exists st', calls_to cfg prog (call_tpl "set" [mkArg "x" (econst 5)]) st st' /\
      mget (mem st') (ad_c A) = 5 /\
      only_changes_off [ad_c A; ad_sx A] st st' /\ keeps_xys st st'.
  Proof.
    intros st Hb. pose proof He as He'. env_tac He'.
    assert (Vsx : var_name (param_name "set" "x")) by names_tac.
    destruct (code_ok_calls_to cfg prog _ _ st
                (call_tpl_correct cfg prog Hp "set"
                   [mkAS (mkArg "x" (econst 5)) (ad_sx A) (fun _ => 5) []] [ad_sx A] [ad_c A]
                   (fun s => mget (mem s) (ad_sx A)) [(ad_c A, fun s => mget (mem s) (ad_sx A))]
                   ltac:(discriminate)
                   (fun_set_ok cfg prog (ad_sx A) (ad_c A) Hp (conj Lsx (conj Rsx Osx))
                      (conj Lc (conj Rc Oc)) Pset)
                   ltac:(intros a [<-|[]]; exact Oc) (res_off_cell (ad_sx A) ltac:(lia) Osx)
                   ltac:(intros p v [E|[]]; inversion E; apply (res_off_cell (ad_sx A)); [lia|exact Osx])
                   (conj (arg_ok_intro cfg prog "set" [ad_sx A] [] "x" (ad_sx A) _ _ _
                            Vsx (conj Lsx (conj Rsx Osx)) (or_introl eq_refl) (fun H => H)
                            (econst_ok cfg prog 5 ltac:(lia)) (fun _ H => match H with end)
                            (fun _ _ H => H) (val_indep_const _ 5)) I)) Hb)
      as (st' & Hc & s1 & (_ & _ & _ & Hargs & _) & (_ & Heff) & Hoc & Hk).
    exists st'. split; [exact Hc|].
    split; [rewrite (Heff _ _ (or_introl eq_refl)); apply (Hargs _ (or_introl eq_refl))|].
    split; [|exact Hk].
    eapply only_changes_off_incl; [|exact Hoc]. intros x; cbn [app In]; tauto.
  Qed.
End ListingCalls2.
Print Assumptions stmt_k_correct.
Print Assumptions stmt_kg3_correct.
Print Assumptions stmt_m_correct.
Print Assumptions stmt_set_correct.

(** [if (g()) c = 1;]: the result of the call is compared with 0 ([CMP #0; BEQ .ifend1]);
    [c = 1] iff [a <> 0] *)
Theorem stmt_if_g_correct : forall cfg prog A st, call_env cfg prog A -> bytes_ok st ->
  exists st', calls_to cfg prog (if_expr_tpl (call_tpl "g" []) (assign8 "c" 1) 1) st st' /\
    mget (mem st') (ad_c A) = (if mget (mem st) (ad_a A) =? 0 then mget (mem st) (ad_c A) else 1) /\
    only_changes_off [ad_c A] st st' /\ keeps_xys st st'.
Proof.
  intros cfg prog A st He Hb. env_tac He.
  assert (Vc : var_name "c") by names_tac.
  eassert (Esl : slines_of (if_expr_tpl (call_tpl "g" []) (assign8 "c" 1) 1) = Some _)
    by (vm_compute; reflexivity).
  match type of Esl with _ = Some ?sl0 => set (sl := sl0) in * end.
  destruct (call_at cfg prog "main" sl [] 0 "g" [] (fun s => mget (mem s) (ad_a A)) [] false "g" st
              eq_refl (fun_g_ok cfg prog (ad_a A) Hp (conj La (conj Ra Oa)) Pg)
              ltac:(intros a []) (res_off_cell (ad_a A) ltac:(lia) Oa) ltac:(intros p v []) Hb)
    as (s1 & G1 & ((HA & Hb1 & Hoc1 & Hk1) & _)).
  pose proof Hb as (_ & _ & _ & _ & HM). pose proof (HM (ad_a A)) as Ma.
  assert (Hr : reach cfg sl 1 s1 (fun (_ pc' : nat) (s' : mstate) =>
            pc' = 6%nat /\
            mget (mem s') (ad_c A) = (if rA s1 =? 0 then mget (mem s1) (ad_c A) else 1) /\
            only_changes [ad_c A] s1 s' /\ keeps_xys s1 s')).
  { unfold sl. repeat rstep; apply reach_stop; (split; [reflexivity|]); post_tac;
      change (byte 0) with 0 in *; change (byte 1) with 1; rewrite ?Z.sub_0_r in *.
    - (* the branch is taken: A = 0 *)
      replace (rA s1 =? 0) with true by (rewrite HA in *; arith_tac).
      split; [reflexivity|frame_tac].
    - replace (rA s1 =? 0) with false by (rewrite HA in *; arith_tac).
      split; [mem_simp; reflexivity|frame_tac]. }
  destruct (goes_reach cfg prog "main" _ [] _ _ _ Hr) as (n & pc' & st' & G2 & -> & Hv & Hfr & Hk2).
  exists st'. split; [apply (goes_calls_to cfg prog _ _ _ _ Esl (goes_trans cfg prog _ _ _ _ _ _ _ _ _ G1 G2))|].
  split; [rewrite Hv, HA, (Hoc1 (ad_c A) ltac:(lia) Oc ltac:(intros [])); reflexivity|].
  split; [|apply (keeps_xys_trans _ _ _ Hk1 Hk2)].
  intros x Hx Ho Hn. rewrite (Hfr x Hx Hn). apply (Hoc1 x Hx Ho). intros [].
Qed.
Print Assumptions stmt_if_g_correct.

(** [for (i = 0; i != 3; i++) f();]: three calls; [i = 3], [c = 1].  (The for rule of
    Proofs/GenCtlFacts.v is about bodies that halt ([halts_to]) under EVERY program table, also one
    without the callee, where a [JSR] faults; the loop is run here on [goes], pass by pass.) *)
Theorem stmt_for_f_correct : forall cfg prog A st, call_env cfg prog A -> bytes_ok st ->
  exists st',
    calls_to cfg prog (for_tpl (assign8 "i" 0) (CConst RNeq "i" 3) (template (SInc8 "i"))
                         (call_tpl "f" []) 1) st st' /\
    mget (mem st') (ad_i A) = 3 /\ mget (mem st') (ad_c A) = 1 /\
    only_changes_off [ad_i A; ad_c A] st st' /\ keeps_xys st st'.
Proof.
  intros cfg prog A st He Hb.
  (* only the cells [c] and [i] and the function [f] matter here *)
  destruct He as (Hp & _ & _ & (Lc & Rc & Oc) & (Li & Ri & Oi) & _ & _ & _ & _ & _ & Hnd & Pf & _).
  assert (Nic : ad_i A <> ad_c A) by neq Hnd 3%nat 2%nat. clear Hnd.
  assert (Vi : var_name "i") by names_tac.
  eassert (Esl : slines_of (for_tpl (assign8 "i" 0) (CConst RNeq "i" 3) (template (SInc8 "i"))
                              (call_tpl "f" []) 1) = Some _) by (vm_compute; reflexivity).
  match type of Esl with _ = Some ?sl0 => set (sl := sl0) in * end.
  (* one pass from the [.for1] label *)
  assert (Hpass : forall s v, bytes_ok s -> mget (mem s) (ad_i A) = v -> 0 <= v < 3 ->
            exists s', goes cfg prog "main" sl [] 5 s (if v + 1 =? 3 then 13%nat else 5%nat) s' /\
              bytes_ok s' /\ mget (mem s') (ad_i A) = v + 1 /\ mget (mem s') (ad_c A) = 1 /\
              only_changes_off [ad_i A; ad_c A] s s' /\ keeps_xys s s').
  { intros s v Hbs Hv Hv3.
    assert (G0 : goes cfg prog "main" sl [] 5 s 6 s)
      by (apply (goes_stepn cfg prog "main" sl [] 1%nat); reflexivity).
    destruct (call_at cfg prog "main" sl [] 6 "f" [ad_c A] (fun _ => 1) [(ad_c A, fun _ => 1)]
                false "f" s eq_refl (fun_f_ok cfg prog (ad_c A) Hp (conj Lc (conj Rc Oc)) Pf)
                ltac:(intros a [<-|[]]; exact Oc) (res_off_const 1)
                ltac:(intros p v0 [E|[]]; inversion E; apply res_off_const) Hbs)
      as (s2 & Gc & ((_ & Hb2 & Hoc2 & Hk2) & Heff)).
    pose proof (Heff _ _ (or_introl eq_refl)) as Hc2. cbv beta in Hc2.
    assert (Hi2 : mget (mem s2) (ad_i A) = v)
      by (rewrite (Hoc2 (ad_i A) ltac:(lia) Oi ltac:(cbn [In]; lia)); exact Hv).
    assert (Hr : reach cfg sl 7 s2 (fun (_ pc' : nat) (s' : mstate) =>
              pc' = (if v + 1 =? 3 then 13%nat else 5%nat) /\
              mget (mem s') (ad_i A) = v + 1 /\
              only_changes [ad_i A] s2 s' /\ keeps_xys s2 s')).
    { unfold sl. repeat (not_at 5%nat; rstep); apply reach_stop; post_tac;
        change (byte 3) with 3 in *; rewrite Hi2 in *;
        (split; [destruct (Z.eqb_spec (v + 1) 3); try reflexivity; exfalso; arith_tac|]);
        (split; [mem_simp; arith_tac|frame_tac]). }
    destruct Hr as (n & pc' & s' & Hs & -> & Hi' & Hfr & Hk').
    exists s'. split; [apply (goes_trans cfg prog _ _ _ _ _ _ _ _ _ G0);
                       apply (goes_trans cfg prog _ _ _ _ _ _ _ _ _ Gc);
                       apply (goes_stepn cfg prog "main" sl [] n _ _ _ _ Hs)|].
    split; [apply (stepn_bytes_ok cfg sl n _ _ _ _ Hs Hb2)|]. split; [exact Hi'|].
    split; [rewrite (Hfr (ad_c A) ltac:(lia) ltac:(cbn [In]; lia)); exact Hc2|].
    split; [|apply (keeps_xys_trans _ _ _ Hk2 Hk')].
    intros x Hx Ho Hn. cbn [In] in Hn. rewrite (Hfr x Hx), (Hoc2 x Hx Ho); [reflexivity|..]; cbn [In]; lia. }
  (* the initialisation and the first test *)
  assert (H0 : reach cfg sl 0 st (fun (_ pc' : nat) (s' : mstate) =>
            pc' = 5%nat /\ mget (mem s') (ad_i A) = 0 /\
            only_changes [ad_i A] st s' /\ keeps_xys st s')).
  { unfold sl. repeat (not_at 5%nat; rstep); try apply reach_stop; post_tac;
      change (byte 0) with 0 in *; change (byte 3) with 3 in *.
    - exfalso. arith_tac.
    - split; [reflexivity|]. split; [mem_simp; reflexivity|frame_tac]. }
  destruct H0 as (n0 & pc0 & s0 & Hs0 & -> & Hi0 & Hfr0 & Hk0).
  pose proof (stepn_bytes_ok cfg sl n0 _ _ _ _ Hs0 Hb) as Hb0.
  destruct (Hpass s0 0 Hb0 Hi0 ltac:(lia)) as (s1 & G1 & Hb1 & Hi1 & Hc1 & Hoc1 & Hk1).
  destruct (Hpass s1 1 Hb1 Hi1 ltac:(lia)) as (s2 & G2 & Hb2 & Hi2 & Hc2 & Hoc2 & Hk2).
  destruct (Hpass s2 2 Hb2 Hi2 ltac:(lia)) as (s3 & G3 & Hb3 & Hi3 & Hc3 & Hoc3 & Hk3).
  cbn in G1, G2, G3.
  exists s3. split.
  - apply (goes_calls_to cfg prog _ sl _ _ Esl).
    apply (goes_trans cfg prog _ _ _ _ _ _ _ _ _ (goes_stepn cfg prog "main" sl [] n0 _ _ _ _ Hs0)).
    apply (goes_trans cfg prog _ _ _ _ _ _ _ _ _ G1).
    apply (goes_trans cfg prog _ _ _ _ _ _ _ _ _ G2). exact G3.
  - split; [exact Hi3|]. split; [exact Hc3|].
    split; [|apply (keeps_xys_trans _ _ _ Hk0); apply (keeps_xys_trans _ _ _ Hk1);
             apply (keeps_xys_trans _ _ _ Hk2 Hk3)].
    apply (only_changes_off_trans _ _ s0);
      [apply (only_changes_off_incl [ad_i A]), only_changes_to_off, Hfr0; intros x [<-|[]]; left; reflexivity|].
    apply (only_changes_off_trans _ _ _ _ Hoc1). apply (only_changes_off_trans _ _ _ _ Hoc2 Hoc3).
Qed.
Print Assumptions stmt_for_f_correct.

Lemma calls_to_det : forall cfg prog C st s1 s2,
  calls_to cfg prog C st s1 -> calls_to cfg prog C st s2 -> s1 = s2.
Proof.
  intros cfg prog C st s1 s2 (sl1 & E1 & N1 & H1) (sl2 & E2 & N2 & H2).
  rewrite E1 in E2. inversion E2; subst sl2.
  destruct (H1 (fun _ _ => None) (fun _ _ => None) (S (N1 + N2)) ltac:(lia)) as (tr1 & cy1 & R1).
  destruct (H2 (fun _ _ => None) (fun _ _ => None) (S (N1 + N2)) ltac:(lia)) as (tr2 & cy2 & R2).
  rewrite R1 in R2. inversion R2. reflexivity.
Qed.
Print Assumptions calls_to_det.

Definition listing_stmts : list code :=
  [call_tpl "f" [];
   assign_call "c" "g" [];
   assign_call "c" "h" [mkArg "x" (evar "a")];
   assign_call "c" "k" [mkArg "x" (evar "a"); mkArg "y" (evar "b")];
   call_tpl "set" [mkArg "x" (econst 5)];
   assign_call "c" "h" [mkArg "x" (call_tpl "h" [mkArg "x" (evar "a")])];
   assign_call "c" "k" [mkArg "x" (call_tpl "g" []); mkArg "y" (econst 3)];
   if_expr_tpl (call_tpl "g" []) (assign8 "c" 1) 1;
   for_tpl (assign8 "i" 0) (CConst RNeq "i" 3) (template (SInc8 "i")) (call_tpl "f" []) 1;
   assign_call "c" "m" [mkArg "x" (evar "a")];
   assign_expr "a" (eadd_const (call_tpl "h" [mkArg "x" (evar "a")]) 1)].

(** every statement of the listing halts from EVERY byte-valued state, whatever S (no lower bound
    on S is needed: pushes and pulls wrap inside page 1 consistently; the variables are outside
    page 1), and leaves S, X and Y as they were: the calls are balanced *)
Theorem listing_balanced : forall cfg prog A C st,
  call_env cfg prog A -> In C listing_stmts -> bytes_ok st ->
  exists st', calls_to cfg prog C st st' /\ rS st' = rS st /\ rX st' = rX st /\ rY st' = rY st.
Proof.
  intros cfg prog A C st He Hin Hb.
  assert (Hk : exists st', calls_to cfg prog C st st' /\ keeps_xys st st').
  { unfold listing_stmts in Hin. cbn [In] in Hin.
    repeat match goal with H : _ \/ _ |- _ => destruct H as [H|H] end; try contradiction; subst C.
    - destruct (stmt_f_correct cfg prog A st He Hb) as (st' & Hc & _ & _ & Hk). eauto.
    - destruct (stmt_g_correct cfg prog A st He Hb) as (st' & Hc & _ & _ & Hk). eauto.
    - destruct (stmt_h_correct cfg prog A He st Hb) as (st' & Hc & _ & _ & _ & _ & _ & _ & Hk). eauto.
    - destruct (stmt_k_correct cfg prog A He st Hb) as (st' & Hc & _ & _ & Hk). eauto.
    - destruct (stmt_set_correct cfg prog A He st Hb) as (st' & Hc & _ & _ & Hk). eauto.
    - destruct (stmt_hh_correct cfg prog A He st Hb) as (st' & Hc & _ & _ & Hk). eauto.
    - destruct (stmt_kg3_correct cfg prog A He st Hb) as (st' & Hc & _ & _ & Hk). eauto.
    - destruct (stmt_if_g_correct cfg prog A st He Hb) as (st' & Hc & _ & _ & Hk). eauto.
    - destruct (stmt_for_f_correct cfg prog A st He Hb) as (st' & Hc & _ & _ & _ & Hk). eauto.
    - destruct (stmt_m_correct cfg prog A He st Hb) as (st' & Hc & _ & _ & Hk). eauto.
    - destruct (stmt_h_plus1_correct cfg prog A He st Hb) as (st' & Hc & _ & _ & Hk). eauto. }
  destruct Hk as (st' & Hc & Kx & Ky & Ks). exists st'. repeat split; assumption.
Qed.
Print Assumptions listing_balanced.

(** * The environment is satisfiable: a concrete layout, the program table of the harness *)

Definition cfg_calls : config :=
  mkCfg (fun y =>
    if String.eqb y "a" then Some 128 else if String.eqb y "b" then Some 129
    else if String.eqb y "c" then Some 130 else if String.eqb y "i" then Some 131
    else if String.eqb y "h_x" then Some 132 else if String.eqb y "k_x" then Some 133
    else if String.eqb y "k_y" then Some 134 else if String.eqb y "set_x" then Some 135
    else if String.eqb y "m_x" then Some 136 else None) [].

Definition prog_calls : sprogram :=
  match prog_of listing_funs with Some p => p | None => [] end.

Definition addrs_calls : call_addrs := mkCA 128 129 130 131 132 133 134 135 136.

Lemma call_env_listing : call_env cfg_calls prog_calls addrs_calls.
Proof.
  assert (Hv : forall x p, layout cfg_calls x = Some p -> 0 <= p < 256 -> var_cell cfg_calls x p)
    by (intros x p L R; split; [exact L|split; [lia|left; lia]]).
  unfold call_env, addrs_calls. cbn [ad_a ad_b ad_c ad_i ad_hx ad_kx ad_ky ad_sx ad_mx].
  split; [reflexivity|].
  repeat (split; [apply Hv; [reflexivity|lia]|]).
  split; [repeat (constructor; [cbn [In]; lia|]); constructor|].
  repeat split; (eexists; split; [vm_compute; reflexivity|vm_compute; reflexivity]).
Qed.
Print Assumptions call_env_listing.

(** and plain computations with [Sem.run] on main with that table: a = 250, b = 7, S = 255:
    [c = h(h(a));] gives c = 252, [c = m(a);] gives c = 250, the loop gives i = 3, c = 1; S is 255
    again; the result is [(c, i, S)] *)
Definition st_calls (va vb : Z) : mstate :=
  mkS 0 7 2 255 false false false false (mset (mset mem_empty 128 va) 129 vb).

Definition run_main (c : code) (fuel : nat) (st : mstate) : option (Z * Z * Z) :=
  match slines_of c with
  | Some sl =>
      match Sem.run cfg_calls prog_calls (fun _ _ => None) (fun _ _ => None) fuel "main" sl 0 [] st [] 0%N with
      | Halt s' _ _ => Some (mget (mem s') 130, mget (mem s') 131, rS s')
      | _ => None
      end
  | None => None
  end.

Example run_hh : run_main (assign_call "c" "h" [mkArg "x" (call_tpl "h" [mkArg "x" (evar "a")])])
                   100 (st_calls 250 7) = Some (252, 0, 255).
Proof. vm_compute. reflexivity. Qed.
Example run_m : run_main (assign_call "c" "m" [mkArg "x" (evar "a")]) 100 (st_calls 250 7)
                = Some (250, 0, 255).
Proof. vm_compute. reflexivity. Qed.
Example run_m2 : run_main (assign_call "c" "m" [mkArg "x" (evar "a")]) 100 (st_calls 3 7)
                 = Some (7, 0, 255).
Proof. vm_compute. reflexivity. Qed.
Example run_for_f :
  run_main (for_tpl (assign8 "i" 0) (CConst RNeq "i" 3) (template (SInc8 "i")) (call_tpl "f" []) 1)
    200 (st_calls 250 7) = Some (1, 3, 255).
Proof. vm_compute. reflexivity. Qed.
