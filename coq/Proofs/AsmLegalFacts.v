(** Legality of what [asm()] selects (C13): whenever [asm()] accepts a load/store/ALU/compare
    mnemonic with a data operand, the 6502 has an addressing mode for the emitted operand; the
    read-modify-write mnemonics are not guarded and reach unencodable cells through Y-indexed
    operands.  Case analyses on what is emitted ([emits]), and tables of [resolve]. *)
From Coq Require Import String Ascii List Bool NArith ZArith Lia.
From CC Require Import Base.Str Asm.Lines M6502.Isa Asm.Operand Model.AsmSel.
From CC Require Import Proofs.AsmSelFacts.
Import ListNotations.

Definition data_mnemonic (m : mnem) : bool :=
  match m with
  | LDA | LDX | LDY | STA | STX | STY | ADC | SBC | AND | ORA | EOR | CMP | CPX | CPY => true
  | _ => false
  end.

Definition data_operand (e : exprtype) : bool :=
  match e with
  | EImmediate _ | ETmp _ | EAbsolute _ _ _ | EAbsoluteX _ | EAbsoluteY _ => true
  | _ => false
  end.

Definition rmw_mnemonic (m : mnem) : bool :=
  match m with INC | DEC | ASL | LSR | ROL | ROR => true | _ => false end.

Definition shift_mnemonic (m : mnem) : bool :=
  match m with ASL | LSR | ROL | ROR => true | _ => false end.

(** operand kinds for which a read-modify-write mnemonic always gets an encodable operand
    (immediate degenerations excepted) *)
Definition rmw_operand (e : exprtype) : bool :=
  match e with ETmp _ | EAbsolute _ _ _ | EAbsoluteX _ => true | _ => false end.

(** the ISA side: past the guards of [asm()], a load/store/ALU/compare mnemonic has a mode for
    its operand (a store has none for an immediate) *)
Lemma resolve_data : forall m sh zp,
  data_mnemonic m = true ->
  (AsmSel.is_st m = true -> sh <> ShImm) ->
  match sh with
  | ShImm | ShMem => True
  | ShMemX => x_refused m zp = false
  | ShMemY => y_refused m zp = false
  | ShIndY => zp = true /\ ind_refused m = false
  | _ => False
  end ->
  resolve m sh zp <> None.
Proof.
  intros m sh zp D St G.
  destruct sh; try contradiction G; destruct m; try discriminate D; destruct zp; cbn in G |- *.
  all: first [ discriminate | discriminate G | destruct G; discriminate | destruct (St eq_refl eq_refl) ].
Qed.

Theorem asm_sel0_legal : forall sch m e high m' sg em,
  data_mnemonic m = true -> data_operand e = true ->
  expr_wf e ->
  asm_sel0 sch m e high = AEmit m' sg em ->
  (AsmSel.is_st m = true -> shape_of (operand_of (e_op em)) <> ShImm) ->
  resolve m' (shape_of (operand_of (e_op em))) (popnd_zp e (e_op em)) <> None.
Proof.
  intros sch m e high m' sg [p n cy alt] D O W H St. cbn [e_op] in *.
  apply asm_sel0_emits in H as (z & E & _).
  (* a plain operand has a mode wherever it is; an indexed one is where [asm()] takes it to be *)
  pose proof (fun N => emits_zp E W N) as ZP.
  destruct E; try discriminate O; try rewrite (ZP I); apply resolve_data; try assumption; cbn; auto.
  rewrite (proj1 (is_imm_popnd_shape p)) by assumption. exact I.
Qed.
Print Assumptions asm_sel0_legal.

(** stores and read-modify-write instructions never get an immediate operand: [asm()] answers
    "Bad left value in assignement" instead *)
Theorem asm_sel_no_write_imm : forall sch m e high m' sg em,
  asm_sel sch m e high = AEmit m' sg em ->
  writes_mem m' = true ->
  shape_of (operand_of (e_op em)) <> ShImm.
Proof.
  intros sch m e high m' sg em H Wr Sh.
  apply asm_sel_emit_inv in H as [_ G].
  apply is_imm_popnd_shape in Sh. rewrite Wr, Sh in G. discriminate G.
Qed.
Print Assumptions asm_sel_no_write_imm.

Theorem asm_sel_no_write_imm_requested : forall sch m e high m' sg em,
  asm_sel sch m e high = AEmit m' sg em ->
  writes_mem m = true ->
  shape_of (operand_of (e_op em)) <> ShImm.
Proof.
  intros sch m e high m' sg em H Wr Sh.
  apply asm_sel_emit_inv in H as [H G].
  rewrite (asm_sel_guard_requested _ _ _ _ _ _ _ H) in G.
  apply is_imm_popnd_shape in Sh. rewrite Wr, Sh in G. discriminate G.
Qed.
Print Assumptions asm_sel_no_write_imm_requested.

(** with the guard the store hypothesis of [asm_sel0_legal] is a consequence *)
Theorem asm_sel_legal_strong : forall sch m e high m' sg em,
  data_mnemonic m = true -> data_operand e = true ->
  expr_wf e ->
  asm_sel sch m e high = AEmit m' sg em ->
  resolve m' (shape_of (operand_of (e_op em))) (popnd_zp e (e_op em)) <> None.
Proof.
  intros sch m e high m' sg em D O W H.
  pose proof (asm_sel_no_write_imm_requested _ _ _ _ _ _ _ H) as NW.
  apply asm_sel_emit_inv in H as [H _].
  apply (asm_sel0_legal _ _ _ _ _ _ _ D O W H).
  intros St. apply NW. destruct m; try discriminate St; reflexivity.
Qed.
Print Assumptions asm_sel_legal_strong.

Theorem asm_sel_legal : forall sch m e high m' sg em,
  data_mnemonic m = true -> data_operand e = true ->
  expr_wf e ->
  asm_sel sch m e high = AEmit m' sg em ->
  (AsmSel.is_st m = true -> shape_of (operand_of (e_op em)) <> ShImm) ->
  resolve m' (shape_of (operand_of (e_op em))) (popnd_zp e (e_op em)) <> None.
Proof.
  intros sch m e high m' sg em D O W H _. eapply asm_sel_legal_strong; eassumption.
Qed.
Print Assumptions asm_sel_legal.

(** regression witness of the code before the guard: the store hypothesis of [asm_sel0_legal] is
    needed, [asm()] emitted [STA #0] for the high byte of an 8-bit variable, and the 6502 has no
    immediate store *)
Example asm_sel0_store_imm_unencodable :
  let v := mkVar "v" VChar false false MZeropage 1 None in
  exists em,
    asm_sel0 SOther STA (EAbsolute v true 0) true = AEmit STA false em /\
    e_op em = PNum 0 /\
    resolve STA (shape_of (operand_of (e_op em))) (popnd_zp (EAbsolute v true 0) (e_op em)) = None.
Proof. eexists. repeat split. Qed.
Print Assumptions asm_sel0_store_imm_unencodable.

(** ... the same request is now refused *)
Example asm_sel_store_imm_refused :
  let v := mkVar "v" VChar false false MZeropage 1 None in
  asm_sel SOther STA (EAbsolute v true 0) true = AErr "Bad left value in assignement".
Proof. reflexivity. Qed.
Print Assumptions asm_sel_store_imm_refused.

Theorem resolve_rmw_iff : forall m sh zp,
  rmw_mnemonic m = true ->
  (resolve m sh zp <> None <->
   sh = ShMem \/ sh = ShMemX \/ sh = ShLabel \/ (sh = ShNone /\ shift_mnemonic m = true)).
Proof.
  intros m sh zp M.
  destruct m; try discriminate M.
  all: destruct sh, zp; cbn.
  all: split; [intros R|intros [E|[E|[E|[E S]]]]].
  all: try discriminate.
  all: try (exfalso; apply R; reflexivity).
  all: tauto.
Qed.
Print Assumptions resolve_rmw_iff.

Theorem asm_sel0_rmw_same_mnemonic : forall sch m e high m' sg em,
  rmw_mnemonic m = true ->
  asm_sel0 sch m e high = AEmit m' sg em -> m' = m.
Proof.
  intros sch m e high m' sg [p n cy alt] M H.
  apply asm_sel0_emits in H as (z & E & _).
  destruct E; try reflexivity; subst m; discriminate M.
Qed.
Print Assumptions asm_sel0_rmw_same_mnemonic.

Theorem asm_sel_rmw_same_mnemonic : forall sch m e high m' sg em,
  rmw_mnemonic m = true ->
  asm_sel sch m e high = AEmit m' sg em -> m' = m.
Proof.
  intros sch m e high m' sg em M H. apply asm_sel_emit_inv in H as [H _].
  eapply asm_sel0_rmw_same_mnemonic; eassumption.
Qed.
Print Assumptions asm_sel_rmw_same_mnemonic.

(** the whole picture: for a read-modify-write mnemonic, what [asm()] emits is encodable exactly
    when the emitted operand is a plain or X-indexed memory operand, a label, or nothing for a
    shift.  Everything else that is emitted (immediates before the "Bad left value" guard, [,Y],
    [(p),Y], INC/DEC with no operand) is accepted by [asm()] and has no 6502 encoding: there is no
    other guard for these mnemonics. *)
Theorem asm_sel0_rmw_exact : forall sch m e high m' sg em,
  rmw_mnemonic m = true ->
  asm_sel0 sch m e high = AEmit m' sg em ->
  (resolve m' (shape_of (operand_of (e_op em))) (popnd_zp e (e_op em)) <> None <->
   let sh := shape_of (operand_of (e_op em)) in
   sh = ShMem \/ sh = ShMemX \/ sh = ShLabel \/ (sh = ShNone /\ shift_mnemonic m = true)).
Proof.
  intros sch m e high m' sg em M H.
  rewrite (asm_sel0_rmw_same_mnemonic _ _ _ _ _ _ _ M H).
  apply resolve_rmw_iff. exact M.
Qed.
Print Assumptions asm_sel0_rmw_exact.

Theorem asm_sel_rmw_exact : forall sch m e high m' sg em,
  rmw_mnemonic m = true ->
  asm_sel sch m e high = AEmit m' sg em ->
  (resolve m' (shape_of (operand_of (e_op em))) (popnd_zp e (e_op em)) <> None <->
   let sh := shape_of (operand_of (e_op em)) in
   sh = ShMem \/ sh = ShMemX \/ sh = ShLabel \/ (sh = ShNone /\ shift_mnemonic m = true)).
Proof.
  intros sch m e high m' sg em M H.
  rewrite (asm_sel_rmw_same_mnemonic _ _ _ _ _ _ _ M H).
  apply resolve_rmw_iff. exact M.
Qed.
Print Assumptions asm_sel_rmw_exact.

(** with a temporary, a plain variable or an X-indexed variable, the emitted operand of a
    read-modify-write mnemonic has an encoding unless it degenerated to an immediate *)
Theorem asm_sel0_legal_rmw : forall sch m e high m' sg em,
  rmw_mnemonic m = true -> rmw_operand e = true ->
  asm_sel0 sch m e high = AEmit m' sg em ->
  shape_of (operand_of (e_op em)) <> ShImm ->
  resolve m' (shape_of (operand_of (e_op em))) (popnd_zp e (e_op em)) <> None.
Proof.
  intros sch m e high m' sg [p n cy alt] M O H Sh.
  apply (asm_sel0_rmw_exact _ _ _ _ _ _ _ M H).
  apply asm_sel0_emits in H as (z & E & _).
  destruct E; try discriminate O; cbn; auto.
  - destruct Sh. apply is_imm_popnd_shape. assumption.
  - destruct Sh. reflexivity.
Qed.
Print Assumptions asm_sel0_legal_rmw.

(** with the guard, nothing degenerates to an immediate any more *)
Theorem asm_sel_legal_rmw_strong : forall sch m e high m' sg em,
  rmw_mnemonic m = true -> rmw_operand e = true ->
  asm_sel sch m e high = AEmit m' sg em ->
  resolve m' (shape_of (operand_of (e_op em))) (popnd_zp e (e_op em)) <> None.
Proof.
  intros sch m e high m' sg em M O H.
  pose proof (asm_sel_no_write_imm_requested _ _ _ _ _ _ _ H) as NW.
  apply asm_sel_emit_inv in H as [H _].
  apply (asm_sel0_legal_rmw _ _ _ _ _ _ _ M O H).
  apply NW. destruct m; try discriminate M; reflexivity.
Qed.
Print Assumptions asm_sel_legal_rmw_strong.

Theorem asm_sel_legal_rmw : forall sch m e high m' sg em,
  rmw_mnemonic m = true -> rmw_operand e = true ->
  asm_sel sch m e high = AEmit m' sg em ->
  shape_of (operand_of (e_op em)) <> ShImm ->
  resolve m' (shape_of (operand_of (e_op em))) (popnd_zp e (e_op em)) <> None.
Proof.
  intros sch m e high m' sg em M O H _. eapply asm_sel_legal_rmw_strong; eassumption.
Qed.
Print Assumptions asm_sel_legal_rmw.

(** the accumulator form: shifts and rotates with no operand are encodable, INC/DEC are not *)
Theorem asm_sel_legal_shift_acc : forall sch m high,
  shift_mnemonic m = true ->
  exists em, asm_sel sch m ENothing high = AEmit m false em /\
             resolve m (shape_of (operand_of (e_op em))) (popnd_zp ENothing (e_op em)) = Some Acc.
Proof.
  intros sch m high M. destruct m; try discriminate M.
  all: eexists; split; reflexivity.
Qed.
Print Assumptions asm_sel_legal_shift_acc.

(** every Y-indexed cell is emitted and unencodable for a read-modify-write mnemonic *)
Theorem asm_sel0_rmw_y_never_legal : forall sch m v high m' sg em,
  rmw_mnemonic m = true ->
  asm_sel0 sch m (EAbsoluteY v) high = AEmit m' sg em ->
  shape_of (operand_of (e_op em)) <> ShImm ->
  resolve m' (shape_of (operand_of (e_op em))) (popnd_zp (EAbsoluteY v) (e_op em)) = None.
Proof.
  intros sch m v high m' sg [p n cy alt] M H Sh.
  apply asm_sel0_emits in H as (z & E & _).
  assert (Y : forall sh zp, sh = ShMemY \/ sh = ShIndY -> resolve m sh zp = None).
  { intros sh zp [-> | ->]; destruct m; try discriminate M; destruct zp; reflexivity. }
  inversion E; subst; [destruct Sh; reflexivity | apply Y; auto ..].
Qed.
Print Assumptions asm_sel0_rmw_y_never_legal.

Theorem asm_sel_rmw_y_never_legal_strong : forall sch m v high m' sg em,
  rmw_mnemonic m = true ->
  asm_sel sch m (EAbsoluteY v) high = AEmit m' sg em ->
  resolve m' (shape_of (operand_of (e_op em))) (popnd_zp (EAbsoluteY v) (e_op em)) = None.
Proof.
  intros sch m v high m' sg em M H.
  pose proof (asm_sel_no_write_imm_requested _ _ _ _ _ _ _ H) as NW.
  apply asm_sel_emit_inv in H as [H _].
  apply (asm_sel0_rmw_y_never_legal _ _ _ _ _ _ _ M H).
  apply NW. destruct m; try discriminate M; reflexivity.
Qed.
Print Assumptions asm_sel_rmw_y_never_legal_strong.

Theorem asm_sel_rmw_y_never_legal : forall sch m v high m' sg em,
  rmw_mnemonic m = true ->
  asm_sel sch m (EAbsoluteY v) high = AEmit m' sg em ->
  shape_of (operand_of (e_op em)) <> ShImm ->
  resolve m' (shape_of (operand_of (e_op em))) (popnd_zp (EAbsoluteY v) (e_op em)) = None.
Proof.
  intros sch m v high m' sg em M H _. eapply asm_sel_rmw_y_never_legal_strong; eassumption.
Qed.
Print Assumptions asm_sel_rmw_y_never_legal.

(** concrete cells: [INC arr,Y] on a zero-page char array, [ASL (p),Y] through a zero-page
    pointer.  [asm()] emits them with 3 resp. 2 bytes; the 6502 has neither. *)
Example asm_sel_rmw_y_unencodable :
  let arr := mkVar "arr" VChar false false MZeropage 8 None in
  let p := mkVar "p" VCharPtr false false MZeropage 1 None in
  (exists em,
     asm_sel SOther INC (EAbsoluteY arr) false = AEmit INC false em /\
     e_op em = PMem "arr" 0 IxY false /\
     print_popnd (e_op em) = "arr,Y"%string /\
     e_bytes em = 3%N /\
     resolve INC (shape_of (operand_of (e_op em))) (popnd_zp (EAbsoluteY arr) (e_op em)) = None) /\
  (exists em,
     asm_sel SOther ASL (EAbsoluteY p) false = AEmit ASL false em /\
     e_op em = PInd "p" 0 /\
     print_popnd (e_op em) = "(p),Y"%string /\
     e_bytes em = 2%N /\
     resolve ASL (shape_of (operand_of (e_op em))) (popnd_zp (EAbsoluteY p) (e_op em)) = None).
Proof. split; eexists; repeat split. Qed.
Print Assumptions asm_sel_rmw_y_unencodable.

(** INC/DEC with no operand are emitted as one-byte instructions and have no encoding *)
Example asm_sel_inc_implied_unencodable :
  exists em,
    asm_sel SOther INC ENothing false = AEmit INC false em /\
    e_bytes em = 1%N /\
    resolve INC (shape_of (operand_of (e_op em))) (popnd_zp ENothing (e_op em)) = None.
Proof. eexists. repeat split. Qed.
Print Assumptions asm_sel_inc_implied_unencodable.
