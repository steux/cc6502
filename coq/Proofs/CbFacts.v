(** Facts about the model of the long-branch repair pass [check_branches]. *)
From Coq Require Import String Ascii List Bool NArith ZArith Lia Permutation.
From CC Require Import Base.Str Asm.Lines M6502.Isa Asm.Operand M6502.Sem Model.CheckBranches Model.CbSpec
  Proofs.StrFacts.
Import ListNotations.
Open Scope string_scope.
Open Scope list_scope.
Open Scope nat_scope.

Definition fixl (n : N) : string := (".fix" ++ string_of_N n)%string.
Definition fixup (n : N) : string := (".fixup" ++ string_of_N n)%string.

Lemma fix_pref : forall x, is_fix_label (".fix" ++ x)%string = true.
Proof. reflexivity. Qed.

Lemma fixup_pref : forall x, is_fix_label (".fixup" ++ x)%string = true.
Proof. reflexivity. Qed.

Lemma eqb_fix_nonfix : forall a t,
  is_fix_label a = true -> is_fix_label t = false -> String.eqb a t = false.
Proof.
  intros a t Ha Ht. destruct (String.eqb a t) eqn:E; [|reflexivity].
  apply String.eqb_eq in E. subst a. congruence.
Qed.

Lemma fixup_ne_fix_same : forall x, (".fixup" ++ x)%string <> (".fix" ++ x)%string.
Proof.
  intros x H. apply (f_equal String.length) in H. cbn in H. lia.
Qed.

Definition inv_mn (m : mnem) : mnem :=
  match m with
  | BNE => BEQ | BEQ => BNE | BMI => BPL | BCC => BCS | BPL => BMI | BCS => BCC
  | _ => m
  end.

Lemma inv_mn_cond : forall m, is_cond_branch m = true -> is_cond_branch (inv_mn m) = true.
Proof. intros m H. destruct m; try discriminate H; reflexivity. Qed.

Definition lte_pair_of (b : instr) (tail : list line) : bool :=
  match tail with
  | Ins i2 :: _ => mnem_eqb (i_mn i2) BEQ && String.eqb (i_op i2) (i_op b)
  | _ => false
  end.

Definition mid3 (n : N) (b : instr) : list line :=
  [mk_branch (inv_mn (i_mn b)) (fixl n); mk_jmp (i_op b); Lbl (fixl n)].
Definition mid5 (n : N) (b : instr) : list line :=
  [mk_branch_prot BEQ (fixup n); mk_branch (inv_mn (i_mn b)) (fixl n); Lbl (fixup n);
   mk_jmp (i_op b); Lbl (fixl n)].

Lemma repair_eq : forall nfix b tail,
  is_cond_branch (i_mn b) = true ->
  repair nfix b tail =
    if (mnem_eqb (i_mn b) BMI || mnem_eqb (i_mn b) BCC) && lte_pair_of b tail
    then (mid5 nfix b, tl tail)
    else (mid3 nfix b, tail).
Proof.
  intros nfix b tail Hc. unfold repair, lte_pair_of, mid3, mid5, fixl, fixup.
  destruct (i_mn b); try discriminate Hc; cbn [mnem_eqb orb andb inv_mn];
    try reflexivity;
    (destruct tail as [|x tail0]; [reflexivity|]);
    (destruct x as [l|i2|tx sz|cm|]; try reflexivity);
    destruct (mnem_eqb (i_mn i2) BEQ && String.eqb (i_op i2) (i_op b)); reflexivity.
Qed.

Lemma lte_pair_of_true : forall b tail,
  lte_pair_of b tail = true ->
  exists i2 tail0, tail = Ins i2 :: tail0 /\ i_mn i2 = BEQ /\ i_op i2 = i_op b.
Proof.
  intros b tail H. unfold lte_pair_of in H.
  destruct tail as [|x tail0]; [discriminate H|].
  destruct x as [l|i2|tx sz|cm|]; try discriminate H.
  apply andb_true_iff in H. destruct H as [Hm Ho].
  apply mnem_eqb_eq in Hm. apply String.eqb_eq in Ho.
  exists i2, tail0. auto.
Qed.

Lemma branch_taken_inv : forall m s,
  is_cond_branch m = true -> branch_taken (inv_mn m) s = negb (branch_taken m s).
Proof.
  intros m s H. destruct m; try discriminate H; cbn [inv_mn branch_taken];
    rewrite ?negb_involutive; reflexivity.
Qed.

Lemma ff_branch : forall f s i r,
  is_cond_branch (i_mn i) = true ->
  frag_flow (S f) s (Ins i :: r) =
    if branch_taken (i_mn i) s then
      match drop_to_label (i_op i) r with
      | Some r' => frag_flow f s r'
      | None => ExitLabel (i_op i)
      end
    else frag_flow f s r.
Proof. intros f s i r H. cbn [frag_flow]. rewrite H. reflexivity. Qed.

Lemma ff_lbl : forall f s l r, frag_flow (S f) s (Lbl l :: r) = frag_flow f s r.
Proof. reflexivity. Qed.

Lemma ff_jmp_out : forall f s t fl,
  String.eqb fl t = false -> frag_flow (S f) s [mk_jmp t; Lbl fl] = ExitLabel t.
Proof.
  intros f s t fl H.
  cbn [frag_flow mk_jmp i_mn i_op is_cond_branch mnem_eqb drop_to_label defines].
  rewrite H. reflexivity.
Qed.

(** The fragment tests two flags at most; of the instructions only mnemonic and target matter.
    Fuel 8: each unit of fuel drops at least one line and the longest fragment ([mid5]) has five,
    so any fuel from 6 on gives the same exit. *)
Lemma flow3 : forall s b fl,
  is_cond_branch (i_mn b) = true ->
  String.eqb fl (i_op b) = false ->
  frag_flow 8 s [Ins b]
  = frag_flow 8 s [mk_branch (inv_mn (i_mn b)) fl; mk_jmp (i_op b); Lbl fl]
  /\ frag_flow 8 s [mk_branch (inv_mn (i_mn b)) fl; mk_jmp (i_op b); Lbl fl] <> ExitStuck.
Proof.
  intros s b fl Hc Hfl. unfold mk_branch.
  rewrite !ff_branch by (cbn [i_mn]; auto using inv_mn_cond).
  cbn [i_mn i_op]. rewrite (branch_taken_inv _ s Hc).
  destruct (branch_taken (i_mn b) s); cbn [negb drop_to_label defines];
    rewrite ?ff_jmp_out, ?String.eqb_refl by exact Hfl;
    split; (reflexivity || discriminate).
Qed.

Lemma flow5 : forall s b i2 fl fu,
  is_cond_branch (i_mn b) = true ->
  i_mn i2 = BEQ -> i_op i2 = i_op b ->
  String.eqb fl (i_op b) = false ->
  String.eqb fu (i_op b) = false ->
  String.eqb fu fl = false ->
  frag_flow 8 s [Ins b; Ins i2]
  = frag_flow 8 s [mk_branch_prot BEQ fu; mk_branch (inv_mn (i_mn b)) fl; Lbl fu;
                   mk_jmp (i_op b); Lbl fl]
  /\ frag_flow 8 s [mk_branch_prot BEQ fu; mk_branch (inv_mn (i_mn b)) fl; Lbl fu;
                    mk_jmp (i_op b); Lbl fl] <> ExitStuck.
Proof.
  intros s b i2 fl fu Hc Hm2 Ho2 Hfl Hfu Hfufl. unfold mk_branch, mk_branch_prot.
  rewrite !ff_branch by (cbn [i_mn]; rewrite ?Hm2; auto using inv_mn_cond).
  cbn [i_mn i_op]. rewrite Hm2, Ho2, (branch_taken_inv _ s Hc).
  destruct (branch_taken (i_mn b) s), (branch_taken BEQ s); cbn [negb drop_to_label defines];
    rewrite ?Hfu, ?Hfufl, ?String.eqb_refl, ?ff_lbl, ?ff_jmp_out by exact Hfl;
    split; (reflexivity || discriminate).
Qed.

Theorem repair_flow_preserved : forall (s : mstate) (nfix : N) (b : instr) (tail mid tail' : list line),
  is_cond_branch (i_mn b) = true ->
  is_fix_label (i_op b) = false ->
  repair nfix b tail = (mid, tail') ->
  frag_flow 8 s (Ins b :: firstn (length tail - length tail') tail) = frag_flow 8 s mid
  /\ frag_flow 8 s mid <> ExitStuck.
Proof.
  intros s nfix b tail mid tail' Hc Hf Hr.
  rewrite (repair_eq nfix b tail Hc) in Hr.
  assert (Hfl : String.eqb (fixl nfix) (i_op b) = false)
    by (apply eqb_fix_nonfix; [reflexivity|assumption]).
  destruct ((mnem_eqb (i_mn b) BMI || mnem_eqb (i_mn b) BCC) && lte_pair_of b tail) eqn:E.
  - apply andb_true_iff in E. destruct E as [_ El].
    apply lte_pair_of_true in El. destruct El as [i2 [tail0 [Et [Hm2 Ho2]]]].
    subst tail. inversion Hr; subst mid tail'.
    replace (length (Ins i2 :: tail0) - length tail0) with 1 by (cbn [length]; lia).
    apply flow5; try assumption.
    + apply eqb_fix_nonfix; [reflexivity|assumption].
    + apply String.eqb_neq. apply fixup_ne_fix_same.
  - inversion Hr; subst mid tail'.
    rewrite Nat.sub_diag. apply flow3; assumption.
Qed.
Print Assumptions repair_flow_preserved.

Fixpoint nbytes (l : list line) : N :=
  match l with
  | [] => 0%N
  | x :: r => (line_bytes x + nbytes r)%N
  end.

Lemma nbytes_app : forall a b, nbytes (a ++ b) = (nbytes a + nbytes b)%N.
Proof.
  induction a as [|x a IH]; intros b; cbn [nbytes app]; [reflexivity|].
  rewrite IH. lia.
Qed.

Lemma nbytes_rev : forall a, nbytes (rev a) = nbytes a.
Proof.
  induction a as [|x a IH]; [reflexivity|].
  cbn [rev nbytes]. rewrite nbytes_app, IH. cbn [nbytes]. lia.
Qed.

Lemma sum_bytes_nbytes : forall l, sum_bytes l = Z.of_N (nbytes l).
Proof.
  induction l as [|x l IH]; [reflexivity|].
  cbn [sum_bytes nbytes]. rewrite IH. lia.
Qed.

Lemma sum_bytes_app : forall a b, sum_bytes (a ++ b) = (sum_bytes a + sum_bytes b)%Z.
Proof.
  intros a b. rewrite !sum_bytes_nbytes, nbytes_app. lia.
Qed.

Definition nodef (t : string) (x : line) : Prop := defines t x = false.

Definition hd_def (t : string) (l : list line) : bool :=
  match l with x :: _ => defines t x | [] => false end.
Definition hd_bytes (l : list line) : N :=
  match l with x :: _ => line_bytes x | [] => 0%N end.
Definition is_nil (l : list line) : bool :=
  match l with [] => true | _ => false end.

Lemma dist_S : forall f t up down ba bb,
  dist (S f) t up down ba bb =
    if hd_def t up then DFound true ba
    else if hd_def t down then DFound false bb
    else if is_nil (tl up) && is_nil down then DPanic
    else dist f t (tl up) (tl down) (ba + hd_bytes up)%N (bb + hd_bytes down)%N.
Proof.
  intros f t up down ba bb.
  destruct up as [|x us]; destruct down as [|y ds];
    try destruct x; try destruct y;
    cbn [dist hd_def hd_bytes is_nil tl defines line_bytes andb];
    rewrite ?N.add_0_r; reflexivity.
Qed.

Lemma hd_def_nodef : forall t l, Forall (nodef t) l -> hd_def t l = false.
Proof.
  intros t l H. destruct l as [|x r]; [reflexivity|].
  inversion H; subst. assumption.
Qed.

Lemma Forall_tl : forall (P : line -> Prop) l, Forall P l -> Forall P (tl l).
Proof.
  intros P l H. destruct l; [exact H|]. inversion H; assumption.
Qed.

Lemma dist_up : forall t u1 fuel u2 down ba bb,
  Forall (nodef t) u1 ->
  Forall (nodef t) down ->
  length u1 < fuel ->
  dist fuel t (u1 ++ Lbl t :: u2) down ba bb = DFound true (ba + nbytes u1)%N.
Proof.
  intros t u1. induction u1 as [|x u1 IH]; intros fuel u2 down ba bb Hu Hd Hf.
  - destruct fuel as [|f]; [cbn in Hf; lia|].
    rewrite dist_S. cbn [app hd_def defines nbytes].
    rewrite String.eqb_refl. rewrite N.add_0_r. reflexivity.
  - destruct fuel as [|f]; [cbn in Hf; lia|].
    rewrite dist_S. inversion Hu as [|x' u1' Hx Hu1]; subst.
    cbn [app hd_def tl hd_bytes]. unfold nodef in Hx. rewrite Hx.
    rewrite (hd_def_nodef t down Hd).
    assert (Hnn : is_nil (u1 ++ Lbl t :: u2) = false) by (destruct u1; reflexivity).
    rewrite Hnn. cbn [andb].
    rewrite IH; [|assumption|apply Forall_tl; assumption|cbn in Hf; lia].
    cbn [nbytes]. f_equal. lia.
Qed.

Lemma dist_down : forall t d1 fuel up d2 ba bb,
  Forall (nodef t) up ->
  Forall (nodef t) d1 ->
  length d1 < fuel ->
  dist fuel t up (d1 ++ Lbl t :: d2) ba bb = DFound false (bb + nbytes d1)%N.
Proof.
  intros t d1. induction d1 as [|y d1 IH]; intros fuel up d2 ba bb Hu Hd Hf.
  - destruct fuel as [|f]; [cbn in Hf; lia|].
    rewrite dist_S. rewrite (hd_def_nodef t up Hu).
    cbn [app hd_def defines nbytes].
    rewrite String.eqb_refl. rewrite N.add_0_r. reflexivity.
  - destruct fuel as [|f]; [cbn in Hf; lia|].
    rewrite dist_S. rewrite (hd_def_nodef t up Hu).
    inversion Hd as [|y' d1' Hy Hd1]; subst.
    cbn [app hd_def tl hd_bytes is_nil]. unfold nodef in Hy. rewrite Hy.
    rewrite andb_false_r.
    rewrite IH; [|apply Forall_tl; assumption|assumption|cbn in Hf; lia].
    cbn [nbytes]. f_equal. lia.
Qed.

Lemma dist_no_panic : forall t fuel up down ba bb,
  length up <= fuel -> length down <= fuel ->
  (exists x, (In x up \/ In x down) /\ defines t x = true) ->
  dist fuel t up down ba bb <> DPanic.
Proof.
  intros t fuel. induction fuel as [|f IH]; intros up down ba bb Hu Hd [x [Hin Hx]].
  - destruct up; [|cbn in Hu; lia]. destruct down; [|cbn in Hd; lia].
    destruct Hin as [[]|[]].
  - rewrite dist_S.
    destruct (hd_def t up) eqn:E1; [discriminate|].
    destruct (hd_def t down) eqn:E2; [discriminate|].
    assert (Hin' : In x (tl up) \/ In x (tl down)).
    { destruct Hin as [Hin|Hin].
      - left. destruct up as [|x0 us]; [destruct Hin|].
        destruct Hin as [->|Hin]; [cbn in E1; congruence|exact Hin].
      - right. destruct down as [|y0 ds]; [destruct Hin|].
        destruct Hin as [->|Hin]; [cbn in E2; congruence|exact Hin]. }
    assert (Hn : is_nil (tl up) && is_nil down = false).
    { destruct Hin' as [Hin'|Hin'].
      - destruct (tl up); [destruct Hin'|reflexivity].
      - destruct down as [|y0 ds]; [destruct Hin'|]. apply andb_false_r. }
    rewrite Hn. apply IH.
    + destruct up; cbn in *; lia.
    + destruct down; cbn in *; lia.
    + exists x. split; assumption.
Qed.

(** what [scan] returns: every conditional branch is in range; or the first one, after [l1], that
    is not; or one whose target [dist] does not find *)
Definition scan_res (n : nat) (pre l : list line) (res : scan_result) : Prop :=
  match res with
  | SNone => forall l1 i l2, l = l1 ++ Ins i :: l2 -> is_cond_branch (i_mn i) = true ->
      exists a d, dist n (i_op i) (Ins i :: rev l1 ++ pre) l2 0%N 0%N = DFound a d /\ (d <= 127)%N
  | SFar p b t => exists l1 a d, l = l1 ++ Ins b :: t /\ p = rev l1 ++ pre /\
      is_cond_branch (i_mn b) = true /\
      dist n (i_op b) (Ins b :: p) t 0%N 0%N = DFound a d /\ (127 < d)%N
  | SPanic => exists l1 i l2, l = l1 ++ Ins i :: l2 /\ is_cond_branch (i_mn i) = true /\
      dist n (i_op i) (Ins i :: rev l1 ++ pre) l2 0%N 0%N = DPanic
  end.

Lemma scan_spec (n : nat) : forall l pre, scan_res n pre l (scan n pre l).
Proof.
  induction l as [|x r IH]; intros pre.
  - intros l1 i l2 H. destruct l1; discriminate H.
  - assert (Hrec : (forall i, x = Ins i -> is_cond_branch (i_mn i) = true ->
                      exists a d, dist n (i_op i) (Ins i :: pre) r 0%N 0%N = DFound a d /\ (d <= 127)%N) ->
                   scan_res n pre (x :: r) (scan n (x :: pre) r)).
    { intros Hx. specialize (IH (x :: pre)).
      destruct (scan n (x :: pre) r) as [|p b t|]; cbn [scan_res rev] in *.
      - intros [|y l1] i l2 H Hc; injection H as -> ->; [exact (Hx i eq_refl Hc)|].
        cbn [rev]. rewrite <- app_assoc. exact (IH l1 i l2 eq_refl Hc).
      - destruct IH as (l1 & a & d & -> & -> & H). exists (x :: l1), a, d.
        cbn [rev]. rewrite <- app_assoc. auto.
      - destruct IH as (l1 & i & l2 & -> & H). exists (x :: l1), i, l2.
        cbn [rev]. rewrite <- app_assoc. auto. }
    destruct x as [l0|i|tx sz|cm|]; cbn [scan]; try (apply Hrec; intros i0 E; discriminate E).
    destruct (is_cond_branch (i_mn i)) eqn:Ec; [|apply Hrec; intros i0 [= <-] Hc; congruence].
    destruct (dist n (i_op i) (Ins i :: pre) r 0%N 0%N) as [a d|] eqn:Ed.
    + destruct (N.ltb 127 d) eqn:El.
      * exists [], a, d. apply N.ltb_lt in El. auto.
      * apply Hrec. intros i0 [= <-] _. exists a, d. apply N.ltb_ge in El. auto.
    + exists [], i, r. auto.
Qed.

(** what holds of a code and is kept by each repair holds of the code on which the loop stops:
    there the scan finds every branch in range, or panics *)
Lemma cb_loop_inv (Q : code -> N -> Prop) :
  (forall c n pre b tail mid tail', scan (length c + 2) [] c = SFar pre b tail ->
     repair (n + 1) b tail = (mid, tail') -> Q c n -> Q (rev pre ++ mid ++ tail') (n + 1)%N) ->
  forall fuel c n, Q c n ->
  match cb_loop fuel c n with
  | CbOk c' n' => Q c' n' /\ scan (length c' + 2) [] c' = SNone
  | CbPanic => exists c' n', Q c' n' /\ scan (length c' + 2) [] c' = SPanic
  | CbOutOfFuel => True
  end.
Proof.
  intros ST. induction fuel as [|f IH]; intros c n HQ; [exact I|].
  cbn [cb_loop]. destruct (scan (length c + 2) [] c) as [|pre b tail|] eqn:Es.
  - split; assumption.
  - destruct (repair (n + 1) b tail) as [mid tail'] eqn:Er.
    apply IH. exact (ST _ _ _ _ _ _ _ Es Er HQ).
  - exists c, n. split; assumption.
Qed.

Lemma label_positions_from_nil : forall c l k,
  label_positions_from c l k = [] -> Forall (nodef l) c.
Proof.
  induction c as [|x r IH]; intros l k H; [constructor|].
  cbn [label_positions_from] in H. destruct (defines l x) eqn:E; [discriminate H|].
  constructor; [exact E|]. eapply IH. exact H.
Qed.

Lemma label_positions_from_single : forall c l base k,
  label_positions_from c l base = [k] ->
  exists a b, c = a ++ Lbl l :: b /\ k = base + length a
              /\ Forall (nodef l) a /\ Forall (nodef l) b.
Proof.
  induction c as [|x r IH]; intros l base k H; [discriminate H|].
  cbn [label_positions_from] in H. destruct (defines l x) eqn:E.
  - inversion H as [[Hk Hr]]. apply label_positions_from_nil in Hr.
    destruct x as [s| | | |]; try discriminate E.
    apply String.eqb_eq in E. subst s.
    exists [], r. cbn [app length]. repeat split; [lia|constructor|exact Hr].
  - apply IH in H. destruct H as [a [b [Hc [Hk [Ha Hb]]]]].
    exists (x :: a), b. subst r. cbn [app length]. repeat split;
      [lia|constructor; [exact E|exact Ha]|exact Hb].
Qed.

Lemma addr_of_app_length : forall x y, addr_of (x ++ y) (length x) = sum_bytes x.
Proof.
  intros x y. unfold addr_of. rewrite firstn_app, firstn_all, Nat.sub_diag, app_nil_r. reflexivity.
Qed.

Theorem cb_in_range : forall (c c' : code) (n : N) (p : nat) (i : instr) (k : nat),
  check_branches c = CbOk c' n ->
  nth_error c' p = Some (Ins i) ->
  is_cond_branch (i_mn i) = true ->
  label_positions c' (i_op i) = [k] ->
  (-128 <= displacement c' p (i_bytes i) k <= 127)%Z.
Proof.
  intros c c' n p i k Hcb Hnth Hc Hlp.
  pose proof (cb_loop_inv (fun _ _ => True) (fun _ _ _ _ _ _ _ _ _ _ => I) (length c + 1) c 0%N I) as Hs.
  unfold check_branches in Hcb. rewrite Hcb in Hs. destruct Hs as [_ Hs].
  apply nth_error_split in Hnth. destruct Hnth as [l1 [l2 [Hc1 Hp]]].
  pose proof (scan_spec (length c' + 2) c' []) as Hsc. rewrite Hs in Hsc.
  destruct (Hsc l1 i l2 Hc1 Hc) as [ab [d [Hd Hle]]].
  unfold label_positions in Hlp. apply label_positions_from_single in Hlp.
  destruct Hlp as [a [b [Hc2 [Hk [Ha Hb]]]]].
  assert (Hp' : addr_of c' p = sum_bytes l1)
    by (rewrite Hc1, <- Hp; apply addr_of_app_length).
  assert (Hk' : addr_of c' k = sum_bytes a)
    by (rewrite Hc2, Hk; apply addr_of_app_length).
  unfold displacement. rewrite Hp', Hk'.
  assert (Hlen : length c' = length l1 + S (length l2))
    by (rewrite Hc1, app_length; reflexivity).
  assert (Hlen2 : length c' = length a + S (length b))
    by (rewrite Hc2, app_length; reflexivity).
  rewrite Hc1 in Hc2.
  (* [c'] is split at the branch ([l1 ++ Ins i :: l2]) and at its one label ([a ++ Lbl _ :: b]);
     [app_eq_app] says which comes first.  Label above the branch: [dist] walks up to it
     ([dist_up]); below: down ([dist_down]).  Either way it returns the bytes between the end
     of the branch and the label, which is [displacement] up to the sign and which the scan
     found to be at most 127. *)
  apply app_eq_app in Hc2. destruct Hc2 as [l [[H1 H2]|[H1 H2]]].
  - destruct l as [|y l]; [discriminate H2|].
    inversion H2 as [[Hy Hb']]. subst y.
    rewrite Hb' in Hb. apply Forall_app in Hb as [Hb1 Hb2].
    assert (Hup : Ins i :: rev l1 ++ [] = (Ins i :: rev l) ++ Lbl (i_op i) :: rev a).
    { rewrite app_nil_r, H1, rev_app_distr. cbn [rev]. rewrite <- app_assoc. reflexivity. }
    rewrite Hup in Hd.
    rewrite dist_up in Hd.
    + inversion Hd; subst ab d. rewrite nbytes_rev in Hle.
      rewrite H1. rewrite !sum_bytes_app. cbn [sum_bytes line_bytes].
      rewrite (sum_bytes_nbytes l). lia.
    + constructor; [reflexivity|]. apply Forall_rev. exact Hb1.
    + inversion Hb2; assumption.
    + cbn [length]. rewrite rev_length. rewrite Hlen2, Hb', app_length. lia.
  - destruct l as [|y l]; [discriminate H2|].
    inversion H2 as [[Hy Hl2]]. subst y.
    rewrite H1 in Ha. apply Forall_app in Ha as [Ha1 Ha2].
    rewrite Hl2 in Hd.
    rewrite dist_down in Hd.
    + inversion Hd; subst ab d.
      rewrite H1. rewrite !sum_bytes_app. cbn [sum_bytes line_bytes].
      rewrite (sum_bytes_nbytes l). lia.
    + constructor; [reflexivity|]. rewrite app_nil_r. apply Forall_rev. exact Ha1.
    + inversion Ha2 as [|? ? ? Hl]. exact Hl.
    + rewrite Hlen, Hl2, app_length. lia.
Qed.
Print Assumptions cb_in_range.

Lemma all_labels_app : forall a b, all_labels (a ++ b) = all_labels a ++ all_labels b.
Proof. intros a b. unfold all_labels. apply flat_map_app. Qed.

Lemma branch_targets_app : forall a b,
  branch_targets (a ++ b) = branch_targets a ++ branch_targets b.
Proof. intros a b. unfold branch_targets. apply flat_map_app. Qed.

Lemma all_labels_cons_ins : forall i r, all_labels (Ins i :: r) = all_labels r.
Proof. reflexivity. Qed.

Lemma in_all_labels_defines : forall t l,
  In t (all_labels l) <-> exists x, In x l /\ defines t x = true.
Proof.
  intros t l. unfold all_labels. rewrite in_flat_map.
  assert (E : forall x, In t (match x with Lbl s => [s] | _ => [] end) <-> defines t x = true).
  { intros [s| | | |]; cbn [In defines]; [rewrite String.eqb_eq; tauto|split; [tauto|discriminate]..]. }
  split; intros [x [Hx H]]; exists x; (split; [exact Hx|apply E; exact H]).
Qed.

Lemma branch_targets_mid3 : forall n b,
  is_cond_branch (i_mn b) = true -> branch_targets (mid3 n b) = [fixl n].
Proof.
  intros n b H. unfold mid3, branch_targets, mk_branch, mk_jmp.
  cbn [flat_map i_mn i_op is_cond_branch app]. rewrite (inv_mn_cond _ H). reflexivity.
Qed.
Lemma branch_targets_mid5 : forall n b,
  is_cond_branch (i_mn b) = true -> branch_targets (mid5 n b) = [fixup n; fixl n].
Proof.
  intros n b H. unfold mid5, branch_targets, mk_branch, mk_jmp.
  cbn [flat_map i_mn i_op is_cond_branch app]. rewrite (inv_mn_cond _ H). reflexivity.
Qed.

Lemma cb_step : forall c pre b tail n mid tail',
  scan (length c + 2) [] c = SFar pre b tail ->
  repair n b tail = (mid, tail') ->
  c = rev pre ++ Ins b :: tail /\ is_cond_branch (i_mn b) = true /\
  ((mid = mid3 n b /\ tail' = tail) \/
   (exists i2, tail = Ins i2 :: tail' /\ i_mn i2 = BEQ /\ i_op i2 = i_op b /\ mid = mid5 n b)).
Proof.
  intros c pre b tail n mid tail' Hs Hr.
  pose proof (scan_spec (length c + 2) c []) as S. rewrite Hs in S.
  destruct S as (l1 & a & d & Hc & -> & Hb & _). rewrite app_nil_r, rev_involutive.
  split; [exact Hc|]. split; [exact Hb|].
  rewrite (repair_eq n b tail Hb) in Hr.
  destruct ((mnem_eqb (i_mn b) BMI || mnem_eqb (i_mn b) BCC) && lte_pair_of b tail) eqn:E.
  - right. apply andb_true_iff in E. destruct E as [_ El].
    apply lte_pair_of_true in El. destruct El as [i2 [tail0 [Et [Hm Ho]]]].
    subst tail. inversion Hr; subst mid tail'.
    exists i2. auto.
  - left. inversion Hr; subst mid tail'. auto.
Qed.

Definition new_labels (n : N) (X : list string) : Prop :=
  X = [fixl n] \/ X = [fixup n; fixl n].

Lemma cb_step_gen : forall c pre b tail n mid tail',
  scan (length c + 2) [] c = SFar pre b tail ->
  repair n b tail = (mid, tail') ->
  exists D X,
    c = rev pre ++ D ++ tail' /\
    all_labels D = [] /\
    (forall t, In t (branch_targets D) -> t = i_op b) /\
    (exists D', D = Ins b :: D') /\
    all_labels mid = X /\ branch_targets mid = X /\ new_labels n X /\
    (mid = mid3 n b \/ mid = mid5 n b).
Proof.
  intros c pre b tail n mid tail' Hs Hr.
  destruct (cb_step _ _ _ _ _ _ _ Hs Hr) as [Hc [Hb [[Hm Ht]|[i2 [Ht [Hm2 [Ho2 Hm]]]]]]].
  - subst mid tail'. exists [Ins b], [fixl n].
    repeat split; try assumption; try reflexivity.
    + intros t Ht. unfold branch_targets in Ht. cbn [flat_map] in Ht. rewrite Hb in Ht.
      destruct Ht as [Ht|[]]. symmetry. exact Ht.
    + exists []. reflexivity.
    + apply branch_targets_mid3. exact Hb.
    + left. reflexivity.
    + left. reflexivity.
  - subst mid tail. exists [Ins b; Ins i2], [fixup n; fixl n].
    repeat split; try assumption; try reflexivity.
    + intros t Ht. unfold branch_targets in Ht. cbn [flat_map] in Ht.
      rewrite Hb, Hm2 in Ht.
      destruct Ht as [Ht|[Ht|[]]]; congruence.
    + exists [Ins i2]. reflexivity.
    + apply branch_targets_mid5. exact Hb.
    + right. reflexivity.
    + right. reflexivity.
Qed.

(** the hypothesis of [cb_no_panic] and [cb_total], whose statements spell it out *)
Definition closed (c : code) : Prop :=
  forall t, In t (branch_targets c) -> In t (all_labels c).

Lemma scan_no_panic : forall n l pre,
  length pre + length l <= n ->
  (forall t, In t (branch_targets l) -> In t (all_labels (rev pre ++ l))) ->
  scan n pre l <> SPanic.
Proof.
  intros n l pre Hlen Hcl Hs. pose proof (scan_spec n l pre) as S. rewrite Hs in S.
  destruct S as (l1 & i & l2 & -> & Hc & Hd). revert Hd.
  rewrite app_length in Hlen. cbn [length] in Hlen. apply dist_no_panic.
  - cbn [length]. rewrite app_length, rev_length. lia.
  - lia.
  - assert (Hin : In (i_op i) (all_labels (rev pre ++ l1 ++ Ins i :: l2))).
    { apply Hcl. rewrite branch_targets_app. apply in_or_app. right.
      unfold branch_targets. cbn [flat_map]. rewrite Hc. left. reflexivity. }
    apply in_all_labels_defines in Hin. destruct Hin as [x [Hx Hd]].
    exists x. split; [|exact Hd].
    rewrite !in_app_iff, <- in_rev in Hx. cbn [In]. rewrite in_app_iff, <- in_rev.
    destruct Hx as [Hx|[Hx|[Hx|Hx]]]; [tauto|tauto|subst x; discriminate Hd|tauto].
Qed.

(** replacing a piece [D] that defines no label by a piece [M] whose targets are its own labels
    keeps every branch target defined (or in [P]) *)
Lemma targets_replace : forall (P : string -> Prop) A D M T,
  all_labels D = [] ->
  (forall t, In t (branch_targets M) -> In t (all_labels M)) ->
  (forall t, In t (branch_targets (A ++ D ++ T)) -> P t \/ In t (all_labels (A ++ D ++ T))) ->
  forall t, In t (branch_targets (A ++ M ++ T)) -> P t \/ In t (all_labels (A ++ M ++ T)).
Proof.
  intros P A D M T HD HM Hold t. specialize (Hold t). specialize (HM t).
  rewrite !branch_targets_app, !all_labels_app, !in_app_iff in *.
  rewrite HD in Hold. cbn [In] in Hold. tauto.
Qed.

Lemma closed_step : forall c pre b tail n mid tail',
  scan (length c + 2) [] c = SFar pre b tail ->
  repair n b tail = (mid, tail') ->
  closed c -> closed (rev pre ++ mid ++ tail').
Proof.
  intros c pre b tail n mid tail' Hs Hr Hcl t Ht.
  destruct (cb_step_gen _ _ _ _ _ _ _ Hs Hr) as [D [X [Hc [HD [_ [_ [HM [HBM _]]]]]]]].
  subst c.
  destruct (targets_replace (fun _ => False) (rev pre) D mid tail' HD) with (t := t) as [[]|H];
    [rewrite HM, HBM; auto|intros u Hu; right; apply Hcl; exact Hu|exact Ht|exact H].
Qed.

Theorem cb_no_panic : forall c : code,
  (forall t, In t (branch_targets c) -> In t (all_labels c)) ->
  check_branches c <> CbPanic.
Proof.
  intros c H E.
  pose proof (cb_loop_inv (fun c _ => closed c)
                (fun c n pre b tail mid tail' => closed_step c pre b tail (n + 1)%N mid tail')
                (length c + 1) c 0%N H) as K.
  unfold check_branches in E. rewrite E in K. destruct K as (c' & n' & Hcl & Es).
  revert Es. apply scan_no_panic; [cbn [length]; lia|exact Hcl].
Qed.
Print Assumptions cb_no_panic.

Lemma parse_dec_digit : forall d acc a, (d < 10)%N ->
  parse_dec_aux (String (ascii_of_N (48 + d)) acc) a = parse_dec_aux acc (a * 10 + d)%N.
Proof.
  intros d acc a Hd. destruct (digit_char d Hd) as [H1 H2].
  cbn [parse_dec_aux]. rewrite H1, H2. f_equal. lia.
Qed.

Lemma parse_string_of_N : forall n, parse_dec_aux (string_of_N n) 0%N = Some n.
Proof. intros n. exact (dec_digits_fold _ _ parse_dec_digit _ n "" (N_lt_pow10 n)). Qed.

Lemma string_of_N_inj : forall a b, string_of_N a = string_of_N b -> a = b.
Proof.
  intros a b H. pose proof (parse_string_of_N a) as Ha. rewrite H, parse_string_of_N in Ha.
  congruence.
Qed.

Definition starts_digit (s : string) : bool :=
  match s with String ch _ => is_digit ch | EmptyString => false end.

Lemma string_of_N_starts : forall n, starts_digit (string_of_N n) = true.
Proof.
  intros [|p]; [reflexivity|].
  destruct (dec_digits_lead _ (Npos p) "" eq_refl (N_lt_pow10 _)) as (d & r & E & _ & Hd).
  unfold string_of_N. rewrite E. apply digit_char, Hd.
Qed.

Lemma fixl_inj : forall a b, fixl a = fixl b -> a = b.
Proof.
  intros a b H. inversion H as [H'].
  apply string_of_N_inj. exact H'.
Qed.

Lemma fixup_inj : forall a b, fixup a = fixup b -> a = b.
Proof.
  intros a b H. inversion H as [H'].
  apply string_of_N_inj. exact H'.
Qed.

Lemma fixl_ne_fixup : forall a b, fixl a <> fixup b.
Proof.
  intros a b H. unfold fixl, fixup in H. inversion H as [H'].
  pose proof (string_of_N_starts a) as Hs. rewrite H' in Hs. discriminate Hs.
Qed.

Lemma is_fix_fixl : forall n, is_fix_label (fixl n) = true.
Proof. reflexivity. Qed.
Lemma is_fix_fixup : forall n, is_fix_label (fixup n) = true.
Proof. reflexivity. Qed.

(** a line that [scan] never reports as [SFar] in the course of the loop: no conditional branch,
    or one that a repair made (target ".fix.."), which stays within range of its label ([pat_ok],
    [scan_far_inert]) *)
Definition inert (x : line) : bool :=
  match x with
  | Ins k => negb (is_cond_branch (i_mn k)) || is_fix_label (i_op k)
  | _ => true
  end.

Definition lab_bound (c : code) (nfix : N) : Prop :=
  forall l, In l (all_labels c) ->
    is_fix_label l = false \/ exists m, (m <= nfix)%N /\ (l = fixl m \/ l = fixup m).

Lemma new_labels_in : forall n X l,
  new_labels n X -> In l X -> l = fixl n \/ l = fixup n.
Proof.
  intros n X l [-> | ->] H; cbn [In] in H.
  - destruct H as [<-|[]]. left. reflexivity.
  - destruct H as [<-|[<-|[]]]; [right|left]; reflexivity.
Qed.

Lemma lab_bound_fresh : forall c nfix X l,
  lab_bound c nfix -> new_labels (nfix + 1) X -> In l X -> ~ In l (all_labels c).
Proof.
  intros c nfix X l Hb HX Hl Hin.
  assert (Hl' : l = fixl (nfix + 1) \/ l = fixup (nfix + 1)).
  { eapply new_labels_in; eassumption. }
  destruct (Hb l Hin) as [Hnf|[m [Hm Hlm]]].
  - destruct Hl' as [-> | ->]; discriminate Hnf.
  - destruct Hl' as [-> | ->]; destruct Hlm as [Hlm|Hlm].
    + apply fixl_inj in Hlm. lia.
    + apply fixl_ne_fixup in Hlm. exact Hlm.
    + symmetry in Hlm. apply fixl_ne_fixup in Hlm. exact Hlm.
    + apply fixup_inj in Hlm. lia.
Qed.

Lemma new_labels_nodup : forall n X, new_labels n X -> NoDup X.
Proof.
  intros n X [-> | ->].
  - constructor; [intros []|constructor].
  - constructor.
    + intros [H|[]]. apply fixl_ne_fixup in H. exact H.
    + constructor; [intros []|constructor].
Qed.

Lemma nodup_insert : forall (X L1 L2 : list string),
  NoDup (L1 ++ L2) -> NoDup X -> (forall x, In x X -> ~ In x (L1 ++ L2)) ->
  NoDup (L1 ++ X ++ L2).
Proof.
  induction X as [|x X IH]; intros L1 L2 HL HX Hf.
  - exact HL.
  - inversion HX as [|x' X' Hx HX']; subst.
    cbn [app]. apply (Permutation_NoDup (Permutation_middle L1 (X ++ L2) x)).
    constructor.
    + intros Hin. apply in_app_or in Hin. destruct Hin as [Hin|Hin].
      * apply (Hf x (or_introl eq_refl)). apply in_or_app. left. exact Hin.
      * apply in_app_or in Hin. destruct Hin as [Hin|Hin]; [exact (Hx Hin)|].
        apply (Hf x (or_introl eq_refl)). apply in_or_app. right. exact Hin.
    + apply IH; [exact HL|exact HX'|]. intros y Hy. apply Hf. right. exact Hy.
Qed.

Lemma labels_incl_step : forall A D M T l,
  In l (all_labels (A ++ D ++ T)) -> all_labels D = [] -> In l (all_labels (A ++ M ++ T)).
Proof.
  intros A D M T l H HD. rewrite !all_labels_app, !in_app_iff in *.
  rewrite HD in H. cbn [In] in H. tauto.
Qed.

Lemma lab_bound_step : forall A D M T X n,
  all_labels D = [] -> all_labels M = X -> new_labels (n + 1) X ->
  lab_bound (A ++ D ++ T) n -> lab_bound (A ++ M ++ T) (n + 1).
Proof.
  intros A D M T X n HD HM HX Hb l Hl.
  rewrite !all_labels_app, HM, !in_app_iff in Hl.
  destruct Hl as [Hl|[Hl|Hl]].
  2: { right. exists (n + 1)%N. split; [lia|]. eapply new_labels_in; eassumption. }
  all: destruct (Hb l) as [H1|[m [Hm H1]]];
    [rewrite !all_labels_app, !in_app_iff; tauto|left; exact H1|right; exists m; split; [lia|exact H1]].
Qed.

Lemma nodup_step : forall A D M T X n,
  all_labels D = [] -> all_labels M = X -> new_labels (n + 1) X ->
  lab_bound (A ++ D ++ T) n ->
  NoDup (all_labels (A ++ D ++ T)) -> NoDup (all_labels (A ++ M ++ T)).
Proof.
  intros A D M T X n HD HM HX Hb Hnd.
  assert (Hfresh : forall x, In x X -> ~ In x (all_labels A ++ all_labels T)).
  { intros x Hx Hin. apply (lab_bound_fresh _ _ _ _ Hb HX Hx).
    rewrite !all_labels_app, HD. exact Hin. }
  rewrite !all_labels_app, HD in Hnd.
  rewrite !all_labels_app, HM.
  apply nodup_insert; [exact Hnd|eapply new_labels_nodup; exact HX|exact Hfresh].
Qed.

(** the loop invariant behind [cb_labels] ([c0]: the code given): its three claims, and
    [lab_bound], by which the labels of the next repair are new *)
Definition cb_labels_inv (c0 c : code) (n : N) : Prop :=
  NoDup (all_labels c) /\ lab_bound c n /\
  (forall l, In l (all_labels c0) -> In l (all_labels c)) /\
  (forall t, In t (branch_targets c) -> In t (branch_targets c0) \/ In t (all_labels c)).

Lemma cb_labels_inv_step : forall c0 c n pre b tail mid tail',
  scan (length c + 2) [] c = SFar pre b tail ->
  repair (n + 1) b tail = (mid, tail') ->
  cb_labels_inv c0 c n -> cb_labels_inv c0 (rev pre ++ mid ++ tail') (n + 1).
Proof.
  intros c0 c n pre b tail mid tail' Hs Hr [Hnd [Hb [Hin Hbt]]].
  destruct (cb_step_gen _ _ _ _ _ _ _ Hs Hr) as [D [X [Hc [HD [_ [_ [HM [HBM [HX _]]]]]]]]].
  subst c. repeat split.
  - eapply nodup_step; eassumption.
  - eapply lab_bound_step; eassumption.
  - intros l Hl. eapply labels_incl_step; [apply Hin; exact Hl|exact HD].
  - apply (targets_replace (fun t => In t (branch_targets c0)) (rev pre) D mid tail' HD);
      [rewrite HM, HBM; auto|exact Hbt].
Qed.

Theorem cb_labels : forall (c c' : code) (n : N),
  check_branches c = CbOk c' n ->
  (forall l, In l (all_labels c) -> is_fix_label l = false) ->
  NoDup (all_labels c) ->
  NoDup (all_labels c')
  /\ (forall l, In l (all_labels c) -> In l (all_labels c'))
  /\ (forall t, In t (branch_targets c') -> In t (branch_targets c) \/ In t (all_labels c')).
Proof.
  intros c c' n Hcb Hnf Hnd. unfold check_branches in Hcb.
  assert (Hinv : cb_labels_inv c c 0%N).
  { repeat split.
    - exact Hnd.
    - intros l Hl. left. apply Hnf. exact Hl.
    - intros l Hl. exact Hl.
    - intros t Ht. left. exact Ht. }
  pose proof (cb_loop_inv (cb_labels_inv c) (cb_labels_inv_step c) (length c + 1) _ _ Hinv) as K. rewrite Hcb in K.
  destruct K as [[H1 [_ [H3 H4]]] _].
  repeat split; assumption.
Qed.
Print Assumptions cb_labels.

(** the branches the repair inserts stay next to their label: it lies below, at most 127 bytes
    away, and the lines in between do not define it and are [inert], so that a later repair,
    which replaces a line that is not inert, happens beyond the label ([near_cut]) *)
Definition near (i : instr) (r : list line) : Prop :=
  exists d1 l3, r = d1 ++ Lbl (i_op i) :: l3 /\
    Forall (fun x => defines (i_op i) x = false /\ inert x = true) d1 /\
    (nbytes d1 <= 127)%N.

Fixpoint pat_ok (l : list line) : Prop :=
  match l with
  | [] => True
  | x :: r =>
      (forall i, x = Ins i -> is_cond_branch (i_mn i) = true ->
                 is_fix_label (i_op i) = true -> near i r)
      /\ pat_ok r
  end.

Lemma pat_ok_suffix : forall a b, pat_ok (a ++ b) -> pat_ok b.
Proof.
  induction a as [|x a IH]; intros b H; [exact H|].
  cbn [app pat_ok] in H. apply IH. tauto.
Qed.

Lemma split_inert : forall (t : string) d1 A b T0 l3,
  A ++ Ins b :: T0 = d1 ++ Lbl t :: l3 ->
  Forall (fun x => defines t x = false /\ inert x = true) d1 ->
  inert (Ins b) = false ->
  exists A', A = d1 ++ Lbl t :: A'.
Proof.
  intros t d1 A b T0 l3 Heq Hall Hb.
  apply app_eq_app in Heq. destruct Heq as [l [[H1 H2]|[H1 H2]]]; (destruct l as [|y l]; [discriminate H2|]);
    injection H2 as <- H2.
  - exists l. exact H1.
  - (* the branch would be among the inert lines before the label *)
    rewrite H1 in Hall. apply Forall_app in Hall. destruct Hall as [_ Hall].
    inversion Hall as [|? ? [_ Hy] _]. congruence.
Qed.

Lemma near_cut : forall i A b T0 R,
  near i (A ++ Ins b :: T0) -> inert (Ins b) = false -> near i (A ++ R).
Proof.
  intros i A b T0 R [d1 [l3 [Heq [Hall Hle]]]] Hb.
  destruct (split_inert _ _ _ _ _ _ Heq Hall Hb) as [A' HA].
  exists d1, (A' ++ R). split; [|split; assumption].
  subst A. rewrite <- app_assoc. reflexivity.
Qed.

Lemma pat_ok_replace : forall A b T0 R,
  pat_ok (A ++ Ins b :: T0) -> inert (Ins b) = false -> pat_ok R -> pat_ok (A ++ R).
Proof.
  induction A as [|x A IH]; intros b T0 R H Hb HR; [exact HR|].
  cbn [app pat_ok]. destruct H as [H1 H2]. split.
  - intros i Hi Hc Hf. eapply near_cut; [apply H1; assumption|exact Hb].
  - eapply IH; eassumption.
Qed.

Lemma inert_mk_branch_fixl : forall m n, inert (mk_branch m (fixl n)) = true.
Proof. intros m n. unfold mk_branch, inert. cbn [i_mn i_op]. rewrite is_fix_fixl. apply orb_true_r. Qed.
Lemma inert_mk_branch_fixup : forall m n, inert (mk_branch m (fixup n)) = true.
Proof. intros m n. unfold mk_branch, inert. cbn [i_mn i_op]. rewrite is_fix_fixup. apply orb_true_r. Qed.
Lemma inert_mk_branch_prot_fixup : forall m n, inert (mk_branch_prot m (fixup n)) = true.
Proof. intros m n. unfold mk_branch_prot, inert. cbn [i_mn i_op]. rewrite is_fix_fixup. apply orb_true_r. Qed.
Lemma inert_mk_jmp : forall t, inert (mk_jmp t) = true.
Proof. reflexivity. Qed.

Lemma pat_ok_mid3 : forall n b T, pat_ok T -> pat_ok (mid3 n b ++ T).
Proof.
  intros n b T HT. unfold mid3. repeat split.
  - intros i Hi Hc Hf. inversion Hi; subst i.
    exists [mk_jmp (i_op b)], T. repeat split.
    + constructor; [|constructor]. split; reflexivity.
    + cbn. lia.
  - intros i Hi Hc Hf. inversion Hi; subst i. discriminate Hc.
  - intros i Hi. discriminate Hi.
  - exact HT.
Qed.

Lemma pat_ok_mid5 : forall n b T, pat_ok T -> pat_ok (mid5 n b ++ T).
Proof.
  intros n b T HT. unfold mid5. repeat split.
  - intros i Hi Hc Hf. inversion Hi; subst i.
    exists [mk_branch (inv_mn (i_mn b)) (fixl n)], (mk_jmp (i_op b) :: Lbl (fixl n) :: T).
    repeat split.
    + constructor; [|constructor]. split; [reflexivity|apply inert_mk_branch_fixl].
    + cbn. lia.
  - intros i Hi Hc Hf. inversion Hi; subst i.
    exists [Lbl (fixup n); mk_jmp (i_op b)], T. repeat split.
    + constructor; [|constructor; [|constructor]].
      * split; [|reflexivity]. apply String.eqb_neq. apply fixup_ne_fix_same.
      * split; reflexivity.
    + cbn. lia.
  - intros i Hi. discriminate Hi.
  - intros i Hi Hc Hf. inversion Hi; subst i. discriminate Hc.
  - intros i Hi. discriminate Hi.
  - exact HT.
Qed.

Definition fix_unique (c : code) : Prop := NoDup (filter is_fix_label (all_labels c)).

Lemma scan_far_inert : forall n l pre p b t,
  scan n pre l = SFar p b t ->
  length l < n ->
  pat_ok l ->
  fix_unique (rev pre ++ l) ->
  inert (Ins b) = false.
Proof.
  intros n l pre p b t Hs Hlen Hpat Hu. pose proof (scan_spec n l pre) as S. rewrite Hs in S.
  destruct S as (l1 & a & d & -> & -> & Ec & Ed & El).
  cbn [inert]. rewrite Ec.
  destruct (is_fix_label (i_op b)) eqn:Ef; [exfalso|reflexivity].
  (* a repair-made branch is near its label, and nothing before it defines that label *)
  apply pat_ok_suffix in Hpat. destruct Hpat as [Hnear _].
  destruct (Hnear b eq_refl Ec Ef) as [d1 [l3 [Hr [Hall Hle]]]].
  rewrite Hr in Ed. rewrite dist_down in Ed.
  - injection Ed as _ <-. lia.
  - constructor; [reflexivity|]. apply Forall_forall. intros x Hx.
    unfold nodef. destruct (defines (i_op b) x) eqn:Ex; [exfalso|reflexivity].
    unfold fix_unique in Hu. rewrite app_assoc, all_labels_app, filter_app in Hu.
    apply (nodup_app_disj _ _ (i_op b) Hu); apply filter_In; (split; [|exact Ef]).
    + apply in_all_labels_defines. exists x. split; [|exact Ex]. rewrite in_app_iff, <- in_rev in Hx.
      rewrite in_app_iff, <- in_rev. tauto.
    + rewrite all_labels_cons_ins, Hr, all_labels_app. apply in_or_app. right. left. reflexivity.
  - eapply Forall_impl; [|exact Hall]. intros x [Hx _]. exact Hx.
  - rewrite Hr, app_length in Hlen. cbn [length] in Hlen. rewrite app_length in Hlen. lia.
Qed.

Lemma fix_unique_step : forall A D M T X n,
  all_labels D = [] -> all_labels M = X -> new_labels (n + 1) X ->
  lab_bound (A ++ D ++ T) n ->
  fix_unique (A ++ D ++ T) -> fix_unique (A ++ M ++ T).
Proof.
  intros A D M T X n HD HM HX Hb Hu. unfold fix_unique in *.
  assert (HfX : filter is_fix_label X = X) by (destruct HX as [-> | ->]; reflexivity).
  rewrite !all_labels_app, HD in Hu. rewrite filter_app in Hu.
  rewrite !all_labels_app, HM, !filter_app, HfX.
  apply nodup_insert; [exact Hu|eapply new_labels_nodup; exact HX|].
  intros x Hx Hin. apply (lab_bound_fresh _ _ _ _ Hb HX Hx).
  rewrite !all_labels_app, HD.
  apply in_app_or in Hin. apply in_or_app.
  destruct Hin as [Hin|Hin]; apply filter_In in Hin; tauto.
Qed.

(** the measure: branches that are not repair-made *)
Definition norig (l : list line) : nat := length (filter (fun x => negb (inert x)) l).

Lemma norig_app : forall a b, norig (a ++ b) = norig a + norig b.
Proof. intros a b. unfold norig. rewrite filter_app, app_length. reflexivity. Qed.

Lemma norig_le : forall l, norig l <= length l.
Proof.
  induction l as [|x l IH]; [apply le_n|].
  unfold norig in *. cbn [filter length]. destruct (negb (inert x)); cbn [length]; lia.
Qed.

Lemma norig_mid3 : forall n b, norig (mid3 n b) = 0.
Proof.
  intros n b. unfold norig, mid3. cbn [filter].
  rewrite inert_mk_branch_fixl, inert_mk_jmp. reflexivity.
Qed.

Lemma norig_mid5 : forall n b, norig (mid5 n b) = 0.
Proof.
  intros n b. unfold norig, mid5. cbn [filter].
  rewrite inert_mk_branch_fixl, inert_mk_branch_prot_fixup, inert_mk_jmp. reflexivity.
Qed.

(** the loop invariant behind [cb_total]: [closed], so [scan] does not panic; [pat_ok] and
    [fix_unique], so what it reports is not inert ([scan_far_inert]) and the repair lowers
    [norig]; [lab_bound] keeps [fix_unique] *)
Definition cb_total_inv (c : code) (n : N) : Prop :=
  closed c /\ lab_bound c n /\ fix_unique c /\ pat_ok c.

Lemma cb_total_inv_step : forall c n pre b tail mid tail',
  scan (length c + 2) [] c = SFar pre b tail ->
  repair (n + 1) b tail = (mid, tail') ->
  cb_total_inv c n ->
  cb_total_inv (rev pre ++ mid ++ tail') (n + 1) /\ norig (rev pre ++ mid ++ tail') < norig c.
Proof.
  intros c n pre b tail mid tail' Hs Hr [Hcl [Hb [Hu Hpat]]].
  assert (Hinert : inert (Ins b) = false).
  { eapply scan_far_inert; [exact Hs|lia|exact Hpat|exact Hu]. }
  assert (Hcl' : closed (rev pre ++ mid ++ tail')) by (eapply closed_step; eassumption).
  destruct (cb_step_gen _ _ _ _ _ _ _ Hs Hr)
    as [D [X [Hc [HD [_ [[D' HD'] [HM [HBM [HX Hmid]]]]]]]]].
  subst c D. split; [repeat split|].
  - exact Hcl'.
  - eapply lab_bound_step; eassumption.
  - eapply fix_unique_step; eassumption.
  - eapply pat_ok_replace; [exact Hpat|exact Hinert|].
    apply pat_ok_suffix in Hpat. destruct Hpat as [_ Hpat].
    apply pat_ok_suffix in Hpat.
    destruct Hmid as [-> | ->]; [apply pat_ok_mid3|apply pat_ok_mid5]; exact Hpat.
  - rewrite !norig_app.
    assert (Hm0 : norig mid = 0)
      by (destruct Hmid as [-> | ->]; [apply norig_mid3|apply norig_mid5]).
    assert (Hd1 : 1 <= norig (Ins b :: D')).
    { unfold norig. cbn [filter]. rewrite Hinert. cbn [negb length]. lia. }
    lia.
Qed.

Lemma cb_loop_total : forall fuel c n,
  cb_total_inv c n -> norig c < fuel -> exists c' n', cb_loop fuel c n = CbOk c' n'.
Proof.
  induction fuel as [|f IH]; intros c n Hinv Hlt; [lia|].
  cbn [cb_loop].
  destruct (scan (length c + 2) [] c) as [|pre b tail|] eqn:Es.
  - exists c, n. reflexivity.
  - destruct (repair (n + 1) b tail) as [mid tail'] eqn:Er.
    destruct (cb_total_inv_step _ _ _ _ _ _ _ Es Er Hinv) as [Hinv' Hdec].
    apply IH; [exact Hinv'|lia].
  - exfalso. revert Es. apply scan_no_panic.
    + cbn [length]. lia.
    + intros t Ht. destruct Hinv as [Hcl _]. apply Hcl. exact Ht.
Qed.

Lemma pat_ok_init : forall l,
  (forall i, In (Ins i) l -> is_cond_branch (i_mn i) = true ->
             is_fix_label (i_op i) = true -> False) ->
  pat_ok l.
Proof.
  induction l as [|x l IH]; intros H; [exact I|].
  cbn [pat_ok]. split.
  - intros i Hi Hc Hf. exfalso. apply (H i); [left; exact Hi|exact Hc|exact Hf].
  - apply IH. intros i Hi. apply H. right. exact Hi.
Qed.

Lemma filter_none : forall (f : string -> bool) l,
  (forall x, In x l -> f x = false) -> filter f l = [].
Proof.
  intros f l. induction l as [|x l IH]; intros H; [reflexivity|].
  cbn [filter]. rewrite (H x (or_introl eq_refl)). apply IH.
  intros y Hy. apply H. right. exact Hy.
Qed.

Theorem cb_total : forall c : code,
  (forall l, In l (all_labels c) -> is_fix_label l = false) ->
  (forall t, In t (branch_targets c) -> In t (all_labels c)) ->
  exists c' n, check_branches c = CbOk c' n.
Proof.
  intros c Hnf Hcl. unfold check_branches. apply cb_loop_total.
  - repeat split.
    + exact Hcl.
    + intros l Hl. left. apply Hnf. exact Hl.
    + unfold fix_unique. rewrite (filter_none _ _ Hnf). constructor.
    + apply pat_ok_init. intros i Hi Hc Hf.
      assert (Hin : In (i_op i) (branch_targets c)).
      { unfold branch_targets. apply in_flat_map. exists (Ins i). split; [exact Hi|].
        rewrite Hc. left. reflexivity. }
      apply Hcl in Hin. apply Hnf in Hin. congruence.
  - pose proof (norig_le c). lia.
Qed.
Print Assumptions cb_total.
