(** GLOBAL simulation of the peephole optimiser on code WITH labels, conditional branches and JMP
    (one function body; no JSR/RTS/RTI, no stack operation, no inline assembly) (C02): whenever
    the original code halts (falls off its end), the optimised code halts in the same state --
    loops included.

    Method.  [crun] (Model/OptSimCF.v) is the executor [grun] of Model/OptSimCall.v under the
    oracle that answers no call ([no_calls]): a JSR stops both, and an RTS leads [grun] past the
    end of the code, from where it never comes back to it ([crun_grun], [grun_crun],
    [halts_ghalts]).  So the window theorem ([window]) and the theorem on the optimiser
    ([optimize_cf_sound]) are those of Proofs/OptSimCallFacts.v, read on the runs that fall off
    the end.  [optimize_cf_run]: the same on [Sem.run], through [halts_halts_to] / [halts_to_halts].

    Finding: the known-compare rule is unsound as it stands.  "CMP #n; BNE l" is removed when the
    register is known to hold "#n"; the branch is indeed never taken ([rule_cmp_known]) but the
    compare also sets N, Z and the CARRY, and the removal leaves them as they were:
    [cmp_rule_changes_c] ("LDA #2; CMP #2; BNE l; ADC #0": A = 3, optimised A = 2).  Hence the
    hypothesis [rb_free].  [duplicate_label_changes_x]: labels must be pairwise different. *)
From Coq Require Import String Ascii List Bool NArith ZArith Lia Arith.
From CC Require Import Base.Str Asm.Lines M6502.Isa Asm.Operand M6502.Sem
     Model.Optimize Model.OptSpec Model.OptSem Model.OptSim Model.OptSimCF Model.OptSimCall
     Proofs.ExecFacts Proofs.OptSemFacts Proofs.OptSimFacts Proofs.OptSimCallFacts.
From CC Require Proofs.OptFacts Proofs.GenTemplatesFacts Proofs.GenCmp16Facts Proofs.GenLoopsFacts.
Import ListNotations.
Open Scope Z_scope.

#[local] Opaque mget mset byte.
#[local] Arguments mget : simpl never.
#[local] Arguments mset : simpl never.
#[local] Arguments byte : simpl never.

Definition no_calls : oracle := fun _ _ => None.

Lemma no_calls_ok : oracle_ok no_calls.
Proof. split; intros; discriminate. Qed.

Lemma crun_grun (Or : oracle) (cfg : config) (c : code) : forall n pc s r,
  crun cfg c n pc s = Some r -> grun Or cfg c n pc s = Some r.
Proof.
  induction n as [|n IH]; intros pc s r H; [exact H|].
  cbn [crun] in H. cbn [grun].
  destruct (nth_error c pc) as [[l|i|t sz|cm|]|]; try discriminate H; try (apply IH; exact H).
  destruct (parse_operand (i_mn i) (i_op i)) as [op|]; [|discriminate H].
  destruct (exec cfg (i_mn i) op s) as [s1 k f|w]; [|discriminate H].
  destruct f as [|l|g| |]; try discriminate H; [apply IH; exact H|].
  destruct (find_lbl l c); [apply IH; exact H|discriminate H].
Qed.

(** conversely: a JSR stops the run, and after an RTS it is past the end of the code for good *)
Lemma grun_crun (cfg : config) (c : code) (e : nat) : e <> S (length c) -> forall n pc s fin,
  grun no_calls cfg c n pc s = Some (e, fin) -> crun cfg c n pc s = Some (e, fin).
Proof.
  intros NE. induction n as [|n IH]; intros pc s fin H; [exact H|].
  cbn [grun] in H. cbn [crun].
  destruct (nth_error c pc) as [[l|i|t sz|cm|]|]; try discriminate H; try (apply IH; exact H).
  destruct (parse_operand (i_mn i) (i_op i)) as [op|]; [|discriminate H].
  destruct (exec cfg (i_mn i) op s) as [s1 k f|w]; [|discriminate H].
  destruct f as [|l|g| |]; try discriminate H.
  - apply IH. exact H.
  - destruct (find_lbl l c); [apply IH; exact H|discriminate H].
  - apply grun_pos in H. destruct H as [H|H]; [lia|congruence].
Qed.

Lemma halts_ghalts (cfg : config) (c : code) (s s' : mstate) :
  halts cfg c s s' <-> ghalts no_calls cfg c s false s'.
Proof.
  unfold halts, ghalts, endpos. split; intros [n H]; exists n.
  - exact (crun_grun no_calls cfg c n 0%nat s _ H).
  - exact (grun_crun cfg c _ (n_Sn _) n 0%nat s s' H).
Qed.

Lemma cf_ok_cfc (cfg : config) (c : code) : cf_ok cfg c = true -> cfc_ok cfg c = true.
Proof.
  unfold cf_ok, cfc_ok. rewrite !forallb_forall. intros H x I. specialize (H x I).
  destruct x as [l|i|t sz|cm|]; try exact H. cbn [cf_line_ok cfc_line_ok] in *.
  unfold cf_ins_ok in H. unfold cfc_ins_ok, cfc_mnem.
  apply andb_true_iff in H. destruct H as [H W]. apply andb_true_iff in H. destruct H as [C O].
  rewrite C, O, W. reflexivity.
Qed.

Lemma cf_ins_mnem (cfg : config) (i : instr) : cf_ins_ok cfg i = true -> cf_mnem (i_mn i) = true.
Proof.
  unfold cf_ins_ok. intros H. apply andb_true_iff in H. destruct H as [H _].
  apply andb_true_iff in H. exact (proj1 H).
Qed.

Lemma cf_ok_skip (cfg : config) (l : code) : forallb skip_line l = true -> cf_ok cfg l = true.
Proof. apply forallb_weaken. intros [] H; try discriminate H; reflexivity. Qed.

Lemma lbls_skip (l : code) : forallb OptFacts.quiet l = true -> lbls l = [].
Proof. exact (OptSimCallFacts.lbls_skip l). Qed.

Lemma optimize_cf_ok (cfg : config) (c : code) : cf_ok cfg c = true -> cf_ok cfg (fst (optimize c)) = true.
Proof.
  intros OK. apply forallb_Forall.
  apply (proj1 (rws_struct _ _ _ (OptFacts.optimize_rws c))); [reflexivity|]. apply forallb_Forall. exact OK.
Qed.

Definition nobar (w : code) : bool :=
  forallb (fun x => match x with Ins _ | Cmt _ | Dummy => true | _ => false end) w.

Definition bst (r : bres) : mstate := match r with BFall s | BJump _ s => s end.

(** where a block exit leads, the block being [W] in [L ++ W ++ R] *)
Definition dest (c : code) (after : nat) (r : bres) : option nat :=
  match r with BFall _ => Some after | BJump l _ => find_lbl l c end.

Definition bres_of (r : gbres) : option bres :=
  match r with GFall s => Some (BFall s) | GJump l s => Some (BJump l s) | GRet _ => None end.

Lemma bexec_gbexec (cfg : config) (w : code) : forall s,
  bexec cfg w s = match gbexec cfg w s with Some r => bres_of r | None => None end.
Proof.
  induction w as [|x w IH]; intros s; [reflexivity|].
  destruct x as [l|i|t sz|cm|]; cbn [bexec gbexec]; try reflexivity; try apply IH.
  destruct (parse_operand (i_mn i) (i_op i)) as [op|]; [|reflexivity].
  destruct (exec cfg (i_mn i) op s) as [s1 k f|x]; [|reflexivity].
  destruct f; try reflexivity. apply IH.
Qed.

Lemma bres_of_some (r : gbres) (r0 : bres) :
  bres_of r = Some r0 -> (forall c after, dest c after r0 = gdest c after r) /\ bst r0 = gst r.
Proof. destruct r; intros H; inversion H; subst; split; reflexivity. Qed.

Lemma nobar_lbls (w : code) : nobar w = true -> lbls w = [].
Proof. exact (forallb_lbls _ w (fun _ => eq_refl)). Qed.

Lemma cf_nobarc (cfg : config) (w : code) : nobar w = true -> cf_ok cfg w = true -> nobarc w = true.
Proof.
  unfold nobar, cf_ok, nobarc. rewrite !forallb_forall. intros N OK x I.
  specialize (N x I). specialize (OK x I).
  destruct x as [l|i|t sz|cm|]; try exact N. cbn [wline]. apply cf_ins_mnem in OK.
  destruct (i_mn i); try reflexivity; discriminate OK.
Qed.

Section Window.
  Variables (cfg : config) (L W W' R : code).
  Hypothesis NW : nobar W = true.
  Hypothesis NW' : nobar W' = true.
  Hypothesis LEN : length W = length W'.
  Hypothesis OK' : cf_ok cfg (L ++ W' ++ R) = true.

  Let c := L ++ W ++ R.
  Let c' := L ++ W' ++ R.
  Let after := (length L + length W)%nat.

  (** from every byte-valued state: same destination, equal states *)
  Hypothesis LS : forall s r k, bytes_ok s -> bexec cfg W s = Some r -> dest c after r = Some k ->
    exists r', bexec cfg W' s = Some r' /\ dest c after r' = Some k /\ eq_state (bst r') (bst r).

  (** an exit of [W] by an RTS does not count: no run that falls off the end takes it *)
  Theorem window : cf_equiv cfg c c'.
  Proof.
    intros s s' HB H. apply halts_ghalts in H. destruct H as [n H]. cbn [endpos] in H.
    assert (OKW' : cf_ok cfg W' = true).
    { unfold cf_ok in *. rewrite !forallb_app in OK'. apply andb_true_iff in OK'. destruct OK' as [_ X].
      apply andb_true_iff in X. exact (proj1 X). }
    assert (LS' : forall s0 r k, bytes_ok s0 -> gbexec cfg W s0 = Some r -> gdest c after r = Some k ->
              (k < length c \/ k = length c)%nat ->
              exists r', gbexec cfg W' s0 = Some r' /\ gdest c after r' = Some k /\ eq_state (gst r') (gst r)).
    { intros s0 r k HB0 B D K.
      destruct (bres_of r) as [r0|] eqn:E0.
      2:{ destruct r; try discriminate E0. cbn [gdest] in D. inversion D. lia. }
      destruct (bres_of_some r r0 E0) as [ED ES].
      pose proof (bexec_gbexec cfg W s0) as BW. rewrite B, E0 in BW. rewrite <- ED in D.
      destruct (LS s0 r0 k HB0 BW D) as (r0' & B' & D' & E').
      rewrite bexec_gbexec in B'. destruct (gbexec cfg W' s0) as [r'|]; [|discriminate B'].
      destruct (bres_of_some r' r0' B') as [ED' ES'].
      exists r'. split; [reflexivity|]. rewrite <- ED', <- ES', <- ES. split; assumption. }
    destruct (window_run no_calls (proj1 no_calls_ok) (proj2 no_calls_ok) cfg L W W' R (length c)
                (nobar_lbls W NW) (fun _ _ _ _ _ => eq_refl) (cf_nobarc cfg W' NW' OKW') LEN
                (cf_ok_cfc cfg _ OK') (le_n _) LS' n s s' HB H) as (n' & fin' & H' & E).
    exists fin'. split; [|apply eq_state_sym; exact E]. apply halts_ghalts. exists n'.
    replace (endpos c' false) with (length c); [exact H'|].
    unfold endpos, c, c'. rewrite !app_length, LEN. reflexivity.
  Qed.
End Window.

(** C02 on [halts] *)
Theorem optimize_cf_sound : forall cfg c s s',
  ports cfg = [] -> bytes_ok s -> cf_ok cfg c = true -> NoDup (lbls c) -> rb_free c = true ->
  halts cfg c s s' ->
  exists s'', halts cfg (fst (optimize c)) s s'' /\ eq_state s'' s'.
Proof.
  intros cfg c s s' HP HB OK ND RB H. apply halts_ghalts in H.
  destruct (optimize_call_equiv no_calls cfg c no_calls_ok HP (cf_ok_cfc cfg c OK) ND RB s false s' HB H)
    as (s'' & H' & E).
  exists s''. split; [apply halts_ghalts; exact H'|exact E].
Qed.
Print Assumptions optimize_cf_sound.

(** * [halts] is [Sem.run]

    [GenLoopsFacts.halts_to cfg c s s']: the code assembles and [Sem.run] executes it from [s]
    (empty call stack, any program around it, any sufficient fuel) to a normal halt in [s']. *)

Lemma crun_stepn (cfg : config) (c : code) (sl : list sline) :
  slines_of c = Some sl -> forall n pc s, crun cfg c n pc s = GenCmp16Facts.stepn cfg sl n pc s.
Proof.
  intros SL. induction n as [|n IH]; intros pc s; [reflexivity|].
  cbn [crun GenCmp16Facts.stepn]. pose proof (slines_nth c sl pc SL) as N.
  destruct (nth_error c pc) as [x|]; [|rewrite N; reflexivity].
  destruct N as (y & SX & ->).
  destruct x as [lb|i|t sz|cm|]; cbn [sline_of] in SX;
    [|destruct (parse_operand (i_mn i) (i_op i)) as [op|]; [|discriminate SX]| | |];
    injection SX as <-; try apply IH; try reflexivity.
  destruct (exec cfg (i_mn i) op s) as [s1 k f|w]; [|reflexivity].
  destruct f; try reflexivity; [apply IH|].
  rewrite (slines_find l c sl SL). destruct (find_lbl l c); [apply IH|reflexivity].
Qed.

Lemma halts_halts_to (cfg : config) (c : code) (sl : list sline) (s s' : mstate) :
  slines_of c = Some sl -> halts cfg c s s' -> GenLoopsFacts.halts_to cfg c s s'.
Proof.
  intros SL (n & H). rewrite (crun_stepn cfg c sl SL) in H.
  destruct (GenLoopsFacts.halts_to_reach cfg c sl s (fun x => x = s') SL) as (st' & HT & ->).
  - exists n, (length c), s'. split; [exact H|]. split; [symmetry; apply slines_length; exact SL|reflexivity].
  - exact HT.
Qed.

Lemma cf_no_ret (cfg : config) (c : code) (sl : list sline) :
  slines_of c = Some sl -> cf_ok cfg c = true ->
  forall m o p raw, In (SIns m o p raw) sl -> m <> RTS /\ m <> RTI.
Proof.
  intros SL OK m o p raw I. apply In_nth_error in I. destruct I as [pc N].
  pose proof (slines_nth c sl pc SL) as X.
  destruct (nth_error c pc) as [x|] eqn:NC; [|congruence].
  destruct X as (y & SX & NS). rewrite N in NS. injection NS as <-.
  pose proof (proj1 (forallb_forall _ _) OK _ (nth_error_In _ _ NC)) as OKx.
  destruct x as [lb|i|t sz|cm|]; cbn [sline_of] in SX; try discriminate SX.
  destruct (parse_operand (i_mn i) (i_op i)); [|discriminate SX]. injection SX as <- _ _ _.
  apply cf_ins_mnem in OKx. split; intros E; rewrite E in OKx; discriminate OKx.
Qed.

Lemma halts_to_halts (cfg : config) (c : code) (s s' : mstate) :
  cf_ok cfg c = true -> GenLoopsFacts.halts_to cfg c s s' -> halts cfg c s s'.
Proof.
  intros OK HT. pose proof HT as (sl & SL & _).
  destruct (GenLoopsFacts.halts_to_stepn cfg c sl s s' SL (cf_no_ret cfg c sl SL OK) HT) as [n H].
  exists n. rewrite (crun_stepn cfg c sl SL), H, (slines_length c sl SL). reflexivity.
Qed.

Theorem optimize_cf_run : forall cfg c s s',
  ports cfg = [] -> bytes_ok s -> cf_ok cfg c = true -> NoDup (lbls c) -> rb_free c = true ->
  GenLoopsFacts.halts_to cfg c s s' ->
  exists s'', GenLoopsFacts.halts_to cfg (fst (optimize c)) s s'' /\ eq_state s'' s'.
Proof.
  intros cfg c s s' HP HB OK ND RB HT.
  pose proof HT as (sl & SL & _).
  destruct (optimize_cf_sound cfg c s s' HP HB OK ND RB (halts_to_halts cfg c s s' OK HT)) as (s'' & H & E).
  exists s''. split; [|exact E].
  destruct (optimize_asm c sl SL) as [sl' SL'].
  exact (halts_halts_to cfg _ sl' s s'' SL' H).
Qed.
Print Assumptions optimize_cf_run.

#[local] Open Scope string_scope.

(** w := 0; three times: w := w + 2; then Y := 1.  The swap and "STA w; LDA w" fire inside the
    loop, the repeated "LDY #1" and the JMP to the next line go: three instructions removed *)
Definition cf_code : code :=
  [sim_ins LDA "#0"; sim_ins STA "w"; sim_ins LDX "#3"; Lbl "loop"; sim_ins LDA "w"; sim_ins CLC "";
   sim_ins ADC "#2"; sim_ins STA "w"; sim_ins LDA "w"; Cmt "next"; sim_ins DEX ""; sim_ins BNE "loop";
   sim_ins LDY "#1"; sim_ins LDY "#1"; sim_ins JMP "end"; Lbl "end"].

Example cf_code_optimized :
  optimize cf_code =
  ([sim_ins LDA "#0"; sim_ins STA "w"; sim_ins LDX "#3"; Lbl "loop"; sim_ins CLC ""; sim_ins LDA "w";
    sim_ins ADC "#2"; sim_ins STA "w"; Dummy; Cmt "next"; sim_ins DEX ""; sim_ins BNE "loop";
    sim_ins LDY "#1"; Dummy; Dummy; Lbl "end"], 3%N).
Proof. vm_compute. reflexivity. Qed.

Example optimize_cf_sound_example :
  ports sim_cfg = [] /\ bytes_ok sim_state /\ cf_ok sim_cfg cf_code = true /\
  NoDup (lbls cf_code) /\ rb_free cf_code = true /\
  exists s' s'', halts sim_cfg cf_code sim_state s' /\
                 halts sim_cfg (fst (optimize cf_code)) sim_state s'' /\
                 eq_state s'' s' /\ rA s' = 6 /\ rX s' = 0 /\ rY s' = 1 /\ mget (mem s') 128 = 6.
Proof.
  assert (OK : cf_ok sim_cfg cf_code = true) by (vm_compute; reflexivity).
  assert (ND : NoDup (lbls cf_code)) by (apply StrFacts.nodupb_sound; vm_compute; reflexivity).
  assert (RB : rb_free cf_code = true) by (vm_compute; reflexivity).
  split; [reflexivity|]. split; [exact sim_state_bytes|]. split; [exact OK|]. split; [exact ND|].
  split; [exact RB|].
  destruct (crun sim_cfg cf_code 34 0 sim_state) as [[pc s']|] eqn:E; [|vm_compute in E; discriminate E].
  assert (PC : pc = length cf_code) by (vm_compute in E; inversion E; reflexivity). subst pc.
  assert (H : halts sim_cfg cf_code sim_state s') by (exists 34%nat; exact E).
  destruct (optimize_cf_sound sim_cfg cf_code sim_state s' eq_refl sim_state_bytes OK ND RB H)
    as (s'' & H2 & Q).
  exists s', s''. split; [exact H|]. split; [exact H2|]. split; [exact Q|].
  vm_compute in E. inversion E. vm_compute. repeat split; reflexivity.
Qed.
Print Assumptions optimize_cf_sound_example.

(** the known-compare rule: "CMP #2; BNE l" is removed because A is known to hold "#2"; the
    branch is indeed not taken, but CMP sets the carry and the ADC that follows reads it
    (A = 3 in the original, 2 after optimisation) *)
Example cmp_rule_changes_c :
  exists c s' s'',
    cf_ok sim_cfg c = true /\ NoDup (lbls c) /\ rb_free c = false /\
    halts sim_cfg c sim_state s' /\ halts sim_cfg (fst (optimize c)) sim_state s'' /\
    rA s' = 3 /\ rA s'' = 2.
Proof.
  exists [sim_ins LDA "#2"; sim_ins CMP "#2"; sim_ins BNE "l"; sim_ins ADC "#0"; Lbl "l"].
  eexists. eexists.
  split; [vm_compute; reflexivity|]. split; [apply StrFacts.nodupb_sound; vm_compute; reflexivity|].
  split; [vm_compute; reflexivity|].
  split; [exists 5%nat; vm_compute; reflexivity|]. split; [exists 5%nat; vm_compute; reflexivity|].
  split; vm_compute; reflexivity.
Qed.
Print Assumptions cmp_rule_changes_c.

(** labels must be pairwise different: "JMP l" followed by "l:" is removed, but a branch goes to
    the FIRST definition of its label (X = 0 in the original, 1 after optimisation) *)
Example duplicate_label_changes_x :
  exists c s' s'',
    cf_ok sim_cfg c = true /\ rb_free c = true /\
    halts sim_cfg c sim_state s' /\ halts sim_cfg (fst (optimize c)) sim_state s'' /\
    rX s' = 0 /\ rX s'' = 1.
Proof.
  exists [sim_ins LDX "#2"; Lbl "l"; sim_ins DEX ""; sim_ins BEQ "out"; sim_ins JMP "l"; Lbl "l"; Lbl "out"].
  eexists. eexists.
  split; [vm_compute; reflexivity|]. split; [vm_compute; reflexivity|].
  split; [exists 9%nat; vm_compute; reflexivity|]. split; [exists 7%nat; vm_compute; reflexivity|].
  split; vm_compute; reflexivity.
Qed.
Print Assumptions duplicate_label_changes_x.
