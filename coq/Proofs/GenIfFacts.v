(** COMPOSITION theorems for the control-flow templates of Model/GenIf.v on the executable 6502
    semantics (M6502/Sem.v): [if], [if]/[else] and [while] over an 8-bit unsigned comparison, for
    ALL byte-valued machine states and for ANY body code satisfying the interface below.

    The interface of a body [B] (what a statement must provide to be put under an [if] / [while]):
      - a specification [forall s, bytes_ok s -> exists s', runs_to cfg B s s' /\ R s s']
        ([halts_to] instead of [runs_to] in the [_h] variants and in the while rule: the body may
        itself contain loops).  Every theorem [X_correct] of Proofs/GenTemplatesFacts.v,
        Proofs/GenCmp16Facts.v, Proofs/GenLoopsFacts.v and of this file has that shape, so the
        templates nest;
      - [no_ret B]: no RTS / RTI in [B] (alone, [Sem.run] "halts" on an RTS with an empty call
        stack; inside a statement that would leave the function);
      - [fresh_in l B] for the labels [l] of the template: [B] does not define them (so a jump of
        [B] to one of its own labels still finds it in [B], and the template's jumps find the
        template's labels).  Nothing else: [B] may branch backward.
    [embed_halt] is the lemma behind it: a run of [B] alone that halts, is, inside any code
    [pre ++ B ++ post] where [pre] defines no label of [B], a run from the first line of [B] to the
    line after its last, with the same final state, in fewer steps than the fuel.

    How the templates are proved: the code of a template is a list of segments [cat segs]
    (condition, body, one label, one jump ...), a position is the beginning [pos segs i] of a
    segment, and there is one rule per kind of segment ([seg_lbl], [seg_ins], [seg_jmp],
    [seg_branch], [seg_body], [seg_cond]); a loop is [loop_rule] of Proofs/GenLoopsFacts.v on one
    pass.  Proofs/GenCtlFacts.v, Proofs/GenTruthFacts.v go on with the same rules.

    [cond_code_correct]   the load / CMP / branch skeleton: from the first line of the condition,
                          in at most its length steps, control is just past it when the C relation
                          holds on the byte values of the operands and at the label otherwise;
                          memory, X, Y, S unchanged (A = left operand, flags = those of the CMP).
                          All six operators, variable or constant right operand.
    [if_tpl_correct], [ifelse_tpl_correct]   ([_h]: bodies with [halts_to])
    [while_tpl_correct]   the total-correctness while rule: invariant, measure
    [if_assign_correct], [ifelse_assign_correct]   the bodies [c = 1;] / [c = 2;] of the 18
                          if / if-else listings, for any condition and any labels
    [while_ne_inc_code_correct], [while_lt_inc_code_correct]   [while (a != b) a++;],
                          [while (a < b) a++;], any labels *)
From Coq Require Import String Ascii List Bool Arith NArith ZArith Lia ZifyBool.
From CC Require Import Base.Str Asm.Lines M6502.Isa Asm.Operand M6502.Sem
  Model.OptSem Proofs.ExecFacts Proofs.OptSemFacts Model.CheckBranches Model.CbSpec
  Model.GenTemplates Proofs.GenTemplatesFacts Proofs.GenCmp16Facts Model.GenLoops
  Proofs.GenLoopsFacts Model.GenTables Proofs.GenTablesFacts Model.GenIf.
Import ListNotations.
Open Scope string_scope.
Open Scope list_scope.
Open Scope Z_scope.

Fixpoint defs (c : code) : list string :=
  match c with
  | [] => []
  | Lbl l :: r => l :: defs r
  | _ :: r => defs r
  end.

Fixpoint sdefs (c : list sline) : list string :=
  match c with
  | [] => []
  | SLbl l :: r => l :: sdefs r
  | _ :: r => sdefs r
  end.

Definition fresh_in (l : string) (B : code) : Prop := ~ In l (defs B).

Definition is_ret_line (l : line) : bool :=
  match l with
  | Ins i => match i_mn i with RTS | RTI => true | _ => false end
  | _ => false
  end.

Definition no_ret (B : code) : Prop := forallb (fun l => negb (is_ret_line l)) B = true.

Definition no_ret_s (sl : list sline) : Prop :=
  forall m o p raw, In (SIns m o p raw) sl -> m <> RTS /\ m <> RTI.

Lemma slines_cons_inv : forall x c sl, slines_of (x :: c) = Some sl ->
  exists sx sc, sline_of x = Some sx /\ slines_of c = Some sc /\ sl = sx :: sc.
Proof.
  intros x c sl H. cbn [slines_of] in H.
  destruct (sline_of x) as [sx|]; [|discriminate H].
  destruct (slines_of c) as [sc|]; [|discriminate H].
  inversion H. exists sx, sc. repeat split; reflexivity.
Qed.

Lemma slines_defs : forall c sl, slines_of c = Some sl -> sdefs sl = defs c.
Proof.
  apply slines_of_ind; [reflexivity|].
  intros x sx c sc Hx _ IH. cbn [sdefs defs]. rewrite <- IH.
  destruct x as [l|i|t n0|t|]; cbn [sline_of] in Hx;
    [|destruct (parse_operand (i_mn i) (i_op i)); [|discriminate Hx]| | |]; injection Hx as <-; reflexivity.
Qed.

Lemma slines_no_ret : forall c sl, slines_of c = Some sl -> no_ret c -> no_ret_s sl.
Proof.
  induction c as [|x c IH]; intros sl H Hn.
  - inversion H. intros m o p raw [].
  - destruct (slines_cons_inv x c sl H) as (sx & sc & Hx & Hc & ->).
    unfold no_ret in Hn. cbn [forallb] in Hn. apply andb_true_iff in Hn. destruct Hn as [Hn1 Hn2].
    intros m o p raw [E|Hin]; [|exact (IH sc Hc Hn2 m o p raw Hin)].
    subst sx. destruct x as [l|i|t n0|t|]; cbn [sline_of] in Hx; try discriminate Hx.
    destruct (parse_operand (i_mn i) (i_op i)); [|discriminate Hx].
    inversion Hx; subst. cbn [is_ret_line] in Hn1.
    split; intros E; rewrite E in Hn1; discriminate Hn1.
Qed.

Lemma slines_app_inv : forall a b sl, slines_of (a ++ b) = Some sl ->
  exists sa sb, slines_of a = Some sa /\ slines_of b = Some sb /\ sl = sa ++ sb.
Proof.
  induction a as [|x a IH]; intros b sl H.
  - exists [], sl. repeat split; [exact H].
  - cbn [app] in H. destruct (slines_cons_inv x (a ++ b) sl H) as (sx & sc & Hx & Hc & ->).
    destruct (IH b sc Hc) as (sa & sb & Ha & Hb & ->).
    exists (sx :: sa), sb. cbn [slines_of]. rewrite Hx, Ha. repeat split; [exact Hb].
Qed.

Lemma sdefs_app : forall a b, sdefs (a ++ b) = sdefs a ++ sdefs b.
Proof.
  induction a as [|x a IH]; intros b; [reflexivity|].
  cbn [app sdefs]. destruct x; cbn [app]; rewrite IH; reflexivity.
Qed.

Lemma find_label_some_in : forall l c k j, find_label l c k = Some j -> In l (sdefs c).
Proof.
  intros l c. induction c as [|x c IH]; intros k j H; [discriminate H|].
  cbn [find_label] in H. destruct x as [y|m o p raw|t|]; cbn [sdefs]; try (apply (IH _ _ H)).
  destruct (String.eqb_spec y l) as [E|E]; [left; exact E|right; apply (IH _ _ H)].
Qed.

Lemma find_label_fresh : forall l c k, ~ In l (sdefs c) -> find_label l c k = None.
Proof.
  intros l c k H. destruct (find_label l c k) as [j|] eqn:E; [|reflexivity].
  elim H. apply (find_label_some_in _ _ _ _ E).
Qed.

(** the first definition of [l] in [a ++ SLbl l :: b], when [a] does not define it *)
Lemma find_label_mid : forall l a b, ~ In l (sdefs a) ->
  find_label l (a ++ SLbl l :: b) 0 = Some (length a).
Proof.
  intros l a b H. rewrite find_label_app, (find_label_fresh l a 0 H). cbn [find_label].
  rewrite String.eqb_refl. cbn [option_map]. rewrite Nat.add_0_r. reflexivity.
Qed.

Lemma embed_halt : forall cfg slB pre post,
  no_ret_s slB ->
  (forall l, In l (sdefs slB) -> find_label l pre 0 = None) ->
  forall fuel pc s tr cy st' tr' cy', (pc <= length slB)%nat ->
    Sem.run cfg [] (fun _ _ => None) (fun _ _ => None) fuel ""%string slB pc [] s tr cy
    = Halt st' tr' cy' ->
    exists n, (n < fuel)%nat /\
      stepn cfg (pre ++ slB ++ post) n (length pre + pc) s
      = Some ((length pre + length slB)%nat, st').
Proof.
  intros cfg slB pre post Hnr Hfresh fuel pc s tr cy st' tr' cy' Hpc H.
  destruct (run_halt_stepn cfg slB Hnr fuel _ pc s tr cy st' tr' cy' Hpc H) as (n & Hn & Hs).
  exists n. split; [exact Hn|].
  exact (stepn_embed cfg slB pre post (fun l j E => Hfresh l (find_label_some_in _ _ _ _ E)) _ _ _ _ _ Hs).
Qed.
Print Assumptions embed_halt.

(** [Sem.run] on [sl] alone, from [st], with any fuel above [N], halts normally in [st'] *)
Definition sl_halts (cfg : config) (sl : list sline) (N : nat) (st st' : mstate) : Prop :=
  forall prog inl_sem ext_call fname fuel, (N < fuel)%nat ->
    exists tr cy, Sem.run cfg prog inl_sem ext_call fuel fname sl 0 [] st [] 0%N = Halt st' tr cy.

Lemma runs_to_sl_halts : forall cfg c sl st st', slines_of c = Some sl ->
  runs_to cfg c st st' -> sl_halts cfg sl (length sl) st st'.
Proof.
  intros cfg c sl st st' Hsl (sl' & Hsl' & H). rewrite Hsl in Hsl'. inversion Hsl'; subst sl'. exact H.
Qed.

Lemma halts_to_sl_halts : forall cfg c sl st st', slines_of c = Some sl ->
  halts_to cfg c st st' -> exists N, sl_halts cfg sl N st st'.
Proof.
  intros cfg c sl st st' Hsl (sl' & Hsl' & N & H). rewrite Hsl in Hsl'. inversion Hsl'; subst sl'.
  exists N. exact H.
Qed.

(** the body inside [c = pre ++ slB ++ post]: from its first line to the line after its last *)
Lemma reach_body : forall cfg c slB pre post pc N st st' (Q : nat -> nat -> mstate -> Prop),
  c = pre ++ slB ++ post -> pc = length pre ->
  sl_halts cfg slB N st st' -> no_ret_s slB ->
  (forall l, In l (sdefs slB) -> ~ In l (sdefs pre)) ->
  (forall n, (n <= N)%nat -> Q n (length pre + length slB)%nat st') ->
  reach cfg c pc st Q.
Proof.
  intros cfg c slB pre post pc N st st' Q -> -> Hh Hnr Hfresh HQ.
  destruct (Hh [] (fun _ _ => None) (fun _ _ => None) ""%string (S N) (Nat.lt_succ_diag_r _))
    as (tr & cy & Hr).
  destruct (embed_halt cfg slB pre post Hnr
              (fun l Hl => find_label_fresh l pre 0 (Hfresh l Hl))
              (S N) 0%nat st [] 0%N st' tr cy (Nat.le_0_l _) Hr) as (n & Hn & Hs).
  rewrite Nat.add_0_r in Hs.
  exists n, (length pre + length slB)%nat, st'. split; [exact Hs|]. apply HQ. lia.
Qed.
Print Assumptions reach_body.

Lemma reach_lbl_mid : forall cfg c a l b pc s (Q : nat -> nat -> mstate -> Prop),
  c = a ++ SLbl l :: b -> pc = length a ->
  reach cfg c (S pc) s (fun n => Q (S n)) -> reach cfg c pc s Q.
Proof.
  intros cfg c a l b pc s Q -> -> H. eapply reach_lbl; [apply nth_error_mid|exact H].
Qed.

(** * Segments

    The code of a template is the concatenation [cat segs] of its segments (a condition, a body, a
    label, a jump ...); segment [i] begins at line [pos segs i].  The rules below go from one
    segment to the next, or to a label; with a concrete [segs] their premises
    [nth_error segs i = Some _] hold by [reflexivity]. *)
Fixpoint cat (segs : list (list sline)) : list sline :=
  match segs with
  | [] => []
  | x :: r => match r with [] => x | _ => x ++ cat r end
  end.

Definition pos (segs : list (list sline)) (i : nat) : nat := length (cat (firstn i segs)).

Lemma cat_cons : forall x r, cat (x :: r) = x ++ cat r.
Proof. intros x [|y r]; [symmetry; apply app_nil_r|reflexivity]. Qed.

Lemma cat_nth : forall segs i x, nth_error segs i = Some x ->
  cat segs = cat (firstn i segs) ++ x ++ cat (skipn (S i) segs).
Proof.
  induction segs as [|y r IH]; intros [|i] x H; try discriminate H.
  - inversion H. apply cat_cons.
  - rewrite firstn_cons, !cat_cons, (IH i x H), <- app_assoc. reflexivity.
Qed.

Lemma pos_S : forall segs i x, nth_error segs i = Some x ->
  pos segs (S i) = (pos segs i + length x)%nat.
Proof.
  unfold pos. induction segs as [|y r IH]; intros [|i] x H; try discriminate H.
  - inversion H. reflexivity.
  - rewrite !firstn_cons, !cat_cons, !app_length, (IH i x H). apply Nat.add_assoc.
Qed.

Lemma seg_line : forall segs i (x : sline), nth_error segs i = Some [x] ->
  nth_error (cat segs) (pos segs i) = Some x /\ pos segs (S i) = S (pos segs i).
Proof.
  intros segs i x Hi. split; [|rewrite (pos_S _ _ _ Hi); apply Nat.add_1_r].
  rewrite (cat_nth _ _ _ Hi). apply nth_error_mid.
Qed.

Lemma seg_lbl : forall cfg segs i l s (Q : nat -> nat -> mstate -> Prop),
  nth_error segs i = Some [SLbl l] ->
  reach cfg (cat segs) (pos segs (S i)) s (fun n => Q (S n)) -> reach cfg (cat segs) (pos segs i) s Q.
Proof.
  intros cfg segs i l s Q Hi H. destruct (seg_line _ _ _ Hi) as (Hn & Hp). rewrite Hp in H.
  apply (reach_lbl cfg _ _ s l Q Hn H).
Qed.

Lemma seg_ins : forall cfg segs i m o p raw s s' k (Q : nat -> nat -> mstate -> Prop),
  nth_error segs i = Some [SIns m o p raw] -> exec cfg m o s = XOk s' k FNext ->
  reach cfg (cat segs) (pos segs (S i)) s' (fun n => Q (S n)) -> reach cfg (cat segs) (pos segs i) s Q.
Proof.
  intros cfg segs i m o p raw s s' k Q Hi He H. destruct (seg_line _ _ _ Hi) as (Hn & Hp).
  rewrite Hp in H. apply (reach_next cfg _ _ s m o p raw s' k Q Hn He H).
Qed.

Definition sjmp (l : string) : sline := SIns JMP (OLbl l) false l.
Definition sbr (m : mnem) (l : string) (p : bool) : sline := SIns m (OLbl l) p l.

Lemma seg_jmp : forall cfg segs i l k' s (Q : nat -> nat -> mstate -> Prop),
  nth_error segs i = Some [sjmp l] -> find_label l (cat segs) 0 = Some k' ->
  reach cfg (cat segs) k' s (fun n => Q (S n)) -> reach cfg (cat segs) (pos segs i) s Q.
Proof.
  intros cfg segs i l k' s Q Hi Hf H.
  apply (reach_jmp cfg _ _ s l false l k' Q (proj1 (seg_line _ _ _ Hi)) Hf H).
Qed.

Lemma seg_branch : forall cfg segs i m l p k' s (Q : nat -> nat -> mstate -> Prop),
  nth_error segs i = Some [sbr m l p] -> is_cond_branch m = true ->
  find_label l (cat segs) 0 = Some k' ->
  reach cfg (cat segs) (if branch_taken m s then k' else pos segs (S i)) s (fun n => Q (S n)) ->
  reach cfg (cat segs) (pos segs i) s Q.
Proof.
  intros cfg segs i m l p k' s Q Hi Hm Hf H. destruct (seg_line _ _ _ Hi) as (Hn & Hp).
  rewrite Hp in H. apply (reach_branch cfg _ _ s m l p l k' Q Hn Hm Hf).
  destruct (branch_taken m s); exact H.
Qed.

Lemma seg_skip : forall cfg segs i s (Q : nat -> nat -> mstate -> Prop),
  nth_error segs i = Some [] ->
  reach cfg (cat segs) (pos segs (S i)) s Q -> reach cfg (cat segs) (pos segs i) s Q.
Proof. intros cfg segs i s Q Hi H. rewrite (pos_S _ _ _ Hi), Nat.add_0_r in H. exact H. Qed.

Lemma seg_body : forall cfg segs i slB N s s' (Q : nat -> nat -> mstate -> Prop),
  nth_error segs i = Some slB -> sl_halts cfg slB N s s' -> no_ret_s slB ->
  (forall l, In l (sdefs slB) -> ~ In l (sdefs (cat (firstn i segs)))) ->
  (forall n, (n <= N)%nat ->
     reach cfg (cat segs) (pos segs (S i)) s' (fun n2 => Q (n + n2)%nat)) ->
  reach cfg (cat segs) (pos segs i) s Q.
Proof.
  intros cfg segs i slB N s s' Q Hi Hh Hnr Hfr HQ. apply reach_seq.
  apply (reach_body cfg _ slB _ _ _ N s s' _ (cat_nth _ _ _ Hi) eq_refl Hh Hnr Hfr).
  intros n Hn. rewrite <- (pos_S _ _ _ Hi : _ = (length _ + _)%nat). apply (HQ n Hn).
Qed.

(** where a label is, when no segment before defines it *)
Lemma find_label_seg : forall segs j l r, nth_error segs j = Some (SLbl l :: r) ->
  ~ In l (sdefs (cat (firstn j segs))) -> find_label l (cat segs) 0 = Some (pos segs j).
Proof. intros segs j l r Hj Hfr. rewrite (cat_nth _ _ _ Hj). apply find_label_mid. exact Hfr. Qed.

Lemma nodup_app_l : forall (A : Type) (x y : list A), NoDup (x ++ y) -> NoDup x.
Proof.
  intros A x. induction x as [|b x IH]; intros y H; [constructor|].
  cbn [app] in H. inversion H as [|? ? Hn Hd]; subst. constructor; [|apply (IH y Hd)].
  intros Hin. apply Hn. apply in_or_app. left. exact Hin.
Qed.

(** in a code without duplicate labels, the segments before [x] define no label of [x] *)
Lemma nodup_fresh : forall segs i x, NoDup (sdefs (cat segs)) -> nth_error segs i = Some x ->
  forall l, In l (sdefs x) -> ~ In l (sdefs (cat (firstn i segs))).
Proof.
  intros segs i x Hnd Hi l Hl Hp. rewrite (cat_nth _ _ _ Hi), !sdefs_app in Hnd.
  apply (StrFacts.nodup_app_disj _ _ l Hnd Hp). apply in_or_app. left. exact Hl.
Qed.

Lemma find_label_seg_nd : forall segs j l r, NoDup (sdefs (cat segs)) ->
  nth_error segs j = Some (SLbl l :: r) -> find_label l (cat segs) 0 = Some (pos segs j).
Proof.
  intros segs j l r Hnd Hj. apply (find_label_seg segs j l r Hj).
  apply (nodup_fresh segs j _ Hnd Hj). left. reflexivity.
Qed.

Definition sbranch_seq (o : relop) (lbl here : string) : list sline :=
  match o with
  | RNeq => [sbr BNE lbl false]
  | REq => [sbr BEQ lbl false]
  | RLt => [sbr BCC lbl false]
  | RGt => [sbr BEQ here true; sbr BCS lbl false; SLbl here]
  | RLte => [sbr BCC lbl false; sbr BEQ lbl false]
  | RGte => [sbr BCS lbl false]
  end.

Definition cond_rhs_opnd (c : cond8) : operand :=
  match c with CVar _ _ y => OMem y 0 IxNone | CConst _ _ k => OImm (INum k) end.

Definition scond_code (c : cond8) (lbl here : string) : list sline :=
  [SIns LDA (OMem (cond_lhs c) 0 IxNone) false (cond_lhs c);
   SIns CMP (cond_rhs_opnd c) false (cond_rhs c)]
  ++ sbranch_seq (negate_op (cond_op c)) lbl here.

(** the operands are plain variables with an address, the constant is a byte *)
Definition var_at (cfg : config) (x : string) : Prop :=
  var_name x /\ exists px, layout cfg x = Some px /\ 0 <= px < 65536.

Definition cond_wf (cfg : config) (c : cond8) : Prop :=
  match c with
  | CVar _ x y => var_at cfg x /\ var_at cfg y
  | CConst _ x k => var_at cfg x /\ 0 <= k < 256
  end.

(** the values compared, and the C condition (unsigned 8-bit) *)
Definition var_val (cfg : config) (x : string) (st : mstate) : Z :=
  match layout cfg x with Some p => mget (mem st) p | None => 0 end.

Lemma var_val_at : forall cfg x px st, layout cfg x = Some px -> var_val cfg x st = mget (mem st) px.
Proof. intros cfg x px st L. unfold var_val. rewrite L. reflexivity. Qed.

Definition cond_lhs_val (cfg : config) (c : cond8) (st : mstate) : Z := var_val cfg (cond_lhs c) st.
Definition cond_rhs_val (cfg : config) (c : cond8) (st : mstate) : Z :=
  match c with CVar _ _ y => var_val cfg y st | CConst _ _ k => k end.

Definition cond_holds (cfg : config) (c : cond8) (st : mstate) : bool :=
  rel_holds (cond_op c) (cond_lhs_val cfg c st) (cond_rhs_val cfg c st).

(** the state after the comparison: A holds the left operand, the flags are those of the CMP *)
Definition cond_state (cfg : config) (c : cond8) (st : mstate) : mstate :=
  let a := cond_lhs_val cfg c st in
  cmp (set_nz (set_a st a) a) a (cond_rhs_val cfg c st).

(** memory, X, Y, S are the same (A and the flags may differ) *)
Definition same_mxys (st st' : mstate) : Prop :=
  mem st' = mem st /\ rX st' = rX st /\ rY st' = rY st /\ rS st' = rS st.

Lemma same_mxys_refl : forall s, same_mxys s s.
Proof. intros s. repeat split; reflexivity. Qed.

Lemma same_mxys_trans : forall s1 s2 s3, same_mxys s1 s2 -> same_mxys s2 s3 -> same_mxys s1 s3.
Proof.
  intros s1 s2 s3 (H1 & H2 & H3 & H4) (K1 & K2 & K3 & K4). repeat split; congruence.
Qed.

Lemma cond_state_same : forall cfg c st, same_mxys st (cond_state cfg c st).
Proof. intros cfg c st. repeat split; reflexivity. Qed.

Lemma var_val_range : forall cfg x st, bytes_ok st -> 0 <= var_val cfg x st < 256.
Proof.
  intros cfg x st (_ & _ & _ & _ & HM). unfold var_val. destruct (layout cfg x); [apply HM|lia].
Qed.

Lemma cond_state_bytes_ok : forall cfg c st, bytes_ok st -> bytes_ok (cond_state cfg c st).
Proof.
  intros cfg c st Hb. pose proof (var_val_range cfg (cond_lhs c) st Hb) as Ha.
  destruct Hb as (HA & HX & HY & HS & HM).
  unfold cond_state, cond_lhs_val, cmp, set_nz, set_c, set_a. cbn [rA rX rY rS fN fV fZ fC mem].
  apply bytes_ok_mk; assumption.
Qed.

Lemma cond_holds_same : forall cfg c s s', mem s' = mem s -> cond_holds cfg c s' = cond_holds cfg c s.
Proof.
  intros cfg c s s' E. unfold cond_holds, cond_lhs_val, cond_rhs_val, var_val. rewrite E. reflexivity.
Qed.

Lemma cond_holds_state : forall cfg c st, cond_holds cfg c (cond_state cfg c st) = cond_holds cfg c st.
Proof. intros cfg c st. apply cond_holds_same. reflexivity. Qed.

Lemma slines_br : forall m l p r sr, takes_label m = true -> l <> ""%string ->
  slines_of r = Some sr -> slines_of (br m l p :: r) = Some (sbr m l p :: sr).
Proof.
  intros m l p r sr Hm Hl Hr. exact (slines_ins m l _ _ _ p _ r sr (parse_lbl m l Hm Hl) Hr).
Qed.

Lemma slines_branch_seq : forall o lbl here, lbl <> ""%string -> here <> ""%string ->
  slines_of (branch_seq o false lbl here) = Some (sbranch_seq o lbl here).
Proof.
  intros o lbl here Hl Hh.
  destruct o; cbn [branch_seq sbranch_seq];
    repeat first [ apply slines_nil
                 | apply slines_br; [reflexivity|assumption|]
                 | apply slines_lbl ].
Qed.

Lemma slines_cond_code : forall cfg c lbl here, cond_wf cfg c ->
  lbl <> ""%string -> here <> ""%string ->
  slines_of (cond_code_at c lbl here) = Some (scond_code c lbl here).
Proof.
  intros cfg c lbl here Hw Hl Hh. unfold cond_code_at, scond_code.
  apply slines_app; [|apply slines_branch_seq; assumption].
  destruct c as [o x y|o x k]; cbn [cond_wf cond_lhs cond_rhs cond_rhs_opnd] in *.
  - destruct Hw as [[Vx _] [Vy _]]. slines_tac.
  - destruct Hw as [[Vx _] Hk]. slines_tac.
Qed.

Lemma sdefs_branch_seq : forall o lbl here l, In l (sdefs (sbranch_seq o lbl here)) -> l = here.
Proof.
  intros o lbl here l H. destruct o; cbn [sbranch_seq sdefs sbr In] in H;
    try contradiction. destruct H as [E|[]]. symmetry. exact E.
Qed.

Lemma sdefs_scond_code : forall c lbl here l, In l (sdefs (scond_code c lbl here)) -> l = here.
Proof.
  intros c lbl here l H. unfold scond_code in H. rewrite sdefs_app in H.
  cbn [sdefs app] in H. apply (sdefs_branch_seq _ _ _ _ H).
Qed.

Lemma scond_code_length : forall c lbl here,
  length (scond_code c lbl here) = length (cond_code_at c lbl here).
Proof.
  intros c lbl here. unfold scond_code, cond_code_at. rewrite !app_length.
  destruct (cond_op c); reflexivity.
Qed.

Lemma reach_next_at : forall cfg pre l i s m o p raw s' k (Q : nat -> nat -> mstate -> Prop),
  nth_error l i = Some (SIns m o p raw) -> exec cfg m o s = XOk s' k FNext ->
  reach cfg (pre ++ l) (length pre + S i) s' (fun n => Q (S n)) ->
  reach cfg (pre ++ l) (length pre + i) s Q.
Proof.
  intros cfg pre l i s m o p raw s' k Q Hn He H.
  eapply reach_next; [rewrite nth_at; exact Hn|exact He|].
  rewrite <- Nat.add_succ_r. exact H.
Qed.

Lemma reach_lbl_at : forall cfg pre l i s lb (Q : nat -> nat -> mstate -> Prop),
  nth_error l i = Some (SLbl lb) ->
  reach cfg (pre ++ l) (length pre + S i) s (fun n => Q (S n)) ->
  reach cfg (pre ++ l) (length pre + i) s Q.
Proof.
  intros cfg pre l i s lb Q Hn H.
  eapply reach_lbl; [rewrite nth_at; exact Hn|].
  rewrite <- Nat.add_succ_r. exact H.
Qed.

Lemma reach_branch_at : forall cfg pre l i s m lb p raw k' (Q : nat -> nat -> mstate -> Prop),
  nth_error l i = Some (SIns m (OLbl lb) p raw) -> is_cond_branch m = true ->
  find_label lb (pre ++ l) 0 = Some k' ->
  (if branch_taken m s then reach cfg (pre ++ l) k' s (fun n => Q (S n))
   else reach cfg (pre ++ l) (length pre + S i) s (fun n => Q (S n))) ->
  reach cfg (pre ++ l) (length pre + i) s Q.
Proof.
  intros cfg pre l i s m lb p raw k' Q Hn Hm Hf H.
  eapply reach_branch; [rewrite nth_at; exact Hn|exact Hm|exact Hf|].
  rewrite <- Nat.add_succ_r. exact H.
Qed.

Lemma reach_at0 : forall cfg pre l s (Q : nat -> nat -> mstate -> Prop),
  reach cfg (pre ++ l) (length pre + 0) s Q -> reach cfg (pre ++ l) (length pre) s Q.
Proof. intros cfg pre l s Q H. rewrite Nat.add_0_r in H. exact H. Qed.

(** ** the branch skeleton, for ANY state: it jumps to [lbl] exactly when [seq_cond] says so *)
Lemma branch_seq_reach : forall cfg o lbl here pre post kl s,
  (forall l, In l (sdefs (sbranch_seq o lbl here)) -> ~ In l (sdefs pre)) ->
  find_label lbl (pre ++ sbranch_seq o lbl here ++ post) 0 = Some kl ->
  reach cfg (pre ++ sbranch_seq o lbl here ++ post) (length pre) s
    (fun (n pc' : nat) (s' : mstate) =>
       (n <= length (sbranch_seq o lbl here))%nat /\ s' = s /\
       pc' = if seq_cond o false s then kl else (length pre + length (sbranch_seq o lbl here))%nat).
Proof.
  intros cfg o lbl here pre post kl s Hfr Hkl.
  apply reach_at0.
  destruct o; cbn [sbranch_seq app length seq_cond sbr] in *.
  - (* == : BEQ lbl *)
    eapply reach_branch_at; [reflexivity|reflexivity|exact Hkl|].
    cbn [branch_taken]. destruct (fZ s); apply reach_stop; repeat split; lia.
  - (* != : BNE lbl *)
    eapply reach_branch_at; [reflexivity|reflexivity|exact Hkl|].
    cbn [branch_taken]. destruct (fZ s); cbn [negb]; apply reach_stop; repeat split; lia.
  - (* < : BCC lbl *)
    eapply reach_branch_at; [reflexivity|reflexivity|exact Hkl|].
    cbn [branch_taken]. destruct (fC s); cbn [negb]; apply reach_stop; repeat split; lia.
  - (* > : BEQ here; BCS lbl; here: *)
    assert (Hh : find_label here (pre ++ SIns BEQ (OLbl here) true here
                    :: SIns BCS (OLbl lbl) false lbl :: SLbl here :: post) 0
                 = Some (length pre + 2)%nat).
    { rewrite find_label_app, (find_label_fresh here pre 0 (Hfr here (or_introl eq_refl))).
      cbn [find_label]. rewrite String.eqb_refl. reflexivity. }
    eapply reach_branch_at; [reflexivity|reflexivity|exact Hh|].
    cbn [branch_taken]. destruct (fZ s); cbn [negb andb].
    + eapply reach_lbl_at; [reflexivity|]. apply reach_stop; repeat split; lia.
    + eapply reach_branch_at; [reflexivity|reflexivity|exact Hkl|].
      cbn [branch_taken]. destruct (fC s).
      * apply reach_stop; repeat split; lia.
      * eapply reach_lbl_at; [reflexivity|]. apply reach_stop; repeat split; lia.
  - (* <= : BCC lbl; BEQ lbl *)
    eapply reach_branch_at; [reflexivity|reflexivity|exact Hkl|].
    cbn [branch_taken]. destruct (fC s); cbn [negb orb].
    + eapply reach_branch_at; [reflexivity|reflexivity|exact Hkl|].
      cbn [branch_taken]. destruct (fZ s); apply reach_stop; repeat split; lia.
    + apply reach_stop; repeat split; lia.
  - (* >= : BCS lbl *)
    eapply reach_branch_at; [reflexivity|reflexivity|exact Hkl|].
    cbn [branch_taken]. destruct (fC s); apply reach_stop; repeat split; lia.
Qed.
Print Assumptions branch_seq_reach.


(** ** [LDA]: the state after it *)
Definition lda_st (s : mstate) (v : Z) : mstate := set_nz (set_a s v) v.

Lemma lda_st_same : forall s v, same_mxys s (lda_st s v).
Proof. intros s v. repeat split; reflexivity. Qed.

Lemma lda_st_bytes_ok : forall s v, bytes_ok s -> 0 <= v < 256 -> bytes_ok (lda_st s v).
Proof.
  intros s v (HA & HX & HY & HS & HM) Hv. unfold lda_st, set_nz, set_a.
  cbn [rA rX rY rS fN fV fZ fC mem]. apply bytes_ok_mk; assumption.
Qed.

Lemma exec_lda_var : forall cfg x px s, ports cfg = [] -> layout cfg x = Some px ->
  0 <= px < 65536 ->
  exists k, exec cfg LDA (OMem x 0 IxNone) s = XOk (lda_st s (mget (mem s) px)) k FNext.
Proof.
  intros cfg x px s Hp Lx Rx. eexists.
  rewrite (exec_rd_mem cfg LDA s x 0 px Hp eq_refl Lx ltac:(lia)).
  cbn [rd_sem]. rewrite Z.add_0_r. reflexivity.
Qed.

Lemma exec_lda_imm : forall cfg k s, 0 <= k < 256 ->
  exists c, exec cfg LDA (OImm (INum k)) s = XOk (lda_st s k) c FNext.
Proof.
  intros cfg k s Hk. eexists. rewrite (exec_rd_imm cfg LDA s k eq_refl), (byte_id k Hk). reflexivity.
Qed.

(** ** the condition inside [pre ++ scond_code c lbl here ++ post], [pre] defining no label of it *)
Lemma cond_reach : forall cfg c lbl here pre post kl st,
  ports cfg = [] -> cond_wf cfg c ->
  (forall l, In l (sdefs (scond_code c lbl here)) -> ~ In l (sdefs pre)) ->
  find_label lbl (pre ++ scond_code c lbl here ++ post) 0 = Some kl -> bytes_ok st ->
  reach cfg (pre ++ scond_code c lbl here ++ post) (length pre) st
    (fun (n pc' : nat) (s' : mstate) =>
       (n <= length (scond_code c lbl here))%nat /\ s' = cond_state cfg c st /\
       pc' = if cond_holds cfg c st then (length pre + length (scond_code c lbl here))%nat else kl).
Proof.
  intros cfg c lbl here pre post kl st Hp Hw Hfr Hkl Hb.
  pose proof (var_val_range cfg (cond_lhs c) st Hb) as Ra.
  assert (Rb : 0 <= cond_rhs_val cfg c st < 256).
  { destruct c as [o x y|o x k]; cbn [cond_rhs_val cond_wf] in *;
      [apply var_val_range; exact Hb|exact (proj2 Hw)]. }
  (* the two reads *)
  assert (E1 : exists k1, exec cfg LDA (OMem (cond_lhs c) 0 IxNone) st
                 = XOk (lda_st st (cond_lhs_val cfg c st)) k1 FNext).
  { assert (Hx : var_at cfg (cond_lhs c)) by (destruct c; cbn [cond_wf cond_lhs] in *; exact (proj1 Hw)).
    destruct Hx as (Vx & px & Lx & Rx). unfold cond_lhs_val, var_val. rewrite Lx.
    apply (exec_lda_var cfg _ px st Hp Lx Rx). }
  assert (E2 : forall s1, mem s1 = mem st -> exists k2, exec cfg CMP (cond_rhs_opnd c) s1
                 = XOk (cmp s1 (rA s1) (cond_rhs_val cfg c st)) k2 FNext).
  { intros s1 Em. destruct c as [o x y|o x k]; cbn [cond_wf cond_rhs_opnd cond_rhs_val] in *.
    - destruct Hw as [_ (Vy & py & Ly & Ry)]. eexists.
      rewrite (exec_rd_mem cfg CMP s1 y 0 py Hp eq_refl Ly ltac:(lia)).
      unfold var_val. rewrite Ly, Z.add_0_r, Em. reflexivity.
    - destruct Hw as [_ Hk]. eexists. rewrite (exec_rd_imm cfg CMP s1 k eq_refl).
      rewrite (byte_id k Hk). reflexivity. }
  destruct E1 as (k1 & E1).
  destruct (E2 (lda_st st (cond_lhs_val cfg c st)) eq_refl) as (k2 & E2').
  cbn [rA lda_st set_nz set_a] in E2'. clear E2.
  unfold scond_code in *. rewrite sdefs_app in Hfr. cbn [sdefs app] in Hfr. rewrite <- app_assoc in *.
  apply reach_at0.
  eapply reach_next_at; [reflexivity|exact E1|].
  eapply reach_next_at; [reflexivity|exact E2'|].
  fold (cond_state cfg c st).
  set (a := SIns LDA (OMem (cond_lhs c) 0 IxNone) false (cond_lhs c)) in *.
  set (b := SIns CMP (cond_rhs_opnd c) false (cond_rhs c)) in *.
  set (sbs := sbranch_seq (negate_op (cond_op c)) lbl here) in *.
  assert (EL : pre ++ [a; b] ++ sbs ++ post = (pre ++ [a; b]) ++ sbs ++ post)
    by (rewrite <- app_assoc; reflexivity).
  assert (EN : (length pre + 2)%nat = length (pre ++ [a; b]))
    by (rewrite app_length; reflexivity).
  rewrite EL in *. rewrite EN.
  eapply reach_weaken; [|apply (branch_seq_reach cfg (negate_op (cond_op c)) lbl here
                                  (pre ++ [a; b]) post kl (cond_state cfg c st))].
  - intros n pc' s' (Hn & Hs & Hpc). cbv beta. fold sbs in Hn, Hpc.
    split; [rewrite app_length; cbn [length]; lia|]. split; [exact Hs|].
    rewrite Hpc. unfold cond_state at 1.
    rewrite (seq_cond_cmp _ _ _ _ Ra Rb), negate_op_correct.
    change (rel_holds (cond_op c) (var_val cfg (cond_lhs c) st) (cond_rhs_val cfg c st))
      with (cond_holds cfg c st).
    destruct (cond_holds cfg c st); cbn [negb]; [|reflexivity].
    rewrite <- EN. rewrite app_length. cbn [length]. lia.
  - intros l Hl. rewrite sdefs_app, app_nil_r. exact (Hfr l Hl).
  - exact Hkl.
Qed.
Print Assumptions cond_reach.

(** ** [cond_code_correct]: the condition inside any code

    [cpre ++ cond_code_at c lbl here ++ cpost] assembles to [sl]; [lbl] is defined somewhere in it,
    at line [kl]; [cpre] does not define [here].  Then from the first line of the condition, in a
    byte-valued state [st], after at most as many steps as the condition has lines, [Sem.run] is
       - just past the condition when the C relation holds on the byte values of the operands,
       - at the line of [lbl] otherwise,
    in the state [cond_state cfg c st]: memory, X, Y, S unchanged ([same_mxys]), byte-valued. *)
Theorem cond_code_correct : forall cfg c lbl here cpre cpost sl kl st,
  ports cfg = [] -> cond_wf cfg c ->
  lbl <> ""%string -> here <> ""%string -> lbl <> here ->
  slines_of (cpre ++ cond_code_at c lbl here ++ cpost) = Some sl ->
  ~ In here (defs cpre) -> find_label lbl sl 0 = Some kl -> bytes_ok st ->
  reach cfg sl (length cpre) st
    (fun (n pc' : nat) (s' : mstate) =>
       (n <= length (cond_code_at c lbl here))%nat /\
       s' = cond_state cfg c st /\ same_mxys st s' /\ bytes_ok s' /\
       pc' = if cond_holds cfg c st
             then (length cpre + length (cond_code_at c lbl here))%nat else kl).
Proof.
  intros cfg c lbl here cpre cpost sl kl st Hp Hw Hl Hh Hne Hsl Hfresh Hkl Hb.
  destruct (slines_app_inv _ _ _ Hsl) as (spre & srest & Hspre & Hsrest & ->).
  destruct (slines_app_inv _ _ _ Hsrest) as (sc & spost & Hsc & Hspost & ->).
  rewrite (slines_cond_code cfg c lbl here Hw Hl Hh) in Hsc. inversion Hsc; subst sc.
  rewrite <- (slines_length _ _ Hspre). rewrite <- scond_code_length.
  eapply reach_weaken; [|apply (cond_reach cfg c lbl here spre spost kl st Hp Hw)].
  - intros n pc' s' (Hn & Hs & Hpc). cbv beta.
    split; [exact Hn|]. split; [exact Hs|]. subst s'.
    split; [apply cond_state_same|]. split; [apply cond_state_bytes_ok; exact Hb|exact Hpc].
  - intros l Hl' Hin. rewrite (sdefs_scond_code _ _ _ _ Hl'), (slines_defs _ _ Hspre) in Hin.
    exact (Hfresh Hin).
  - exact Hkl.
  - exact Hb.
Qed.
Print Assumptions cond_code_correct.

(** the condition as a segment; [kl] is the line of [lbl] *)
Lemma seg_cond : forall cfg c lbl here segs i kl s (Q : nat -> nat -> mstate -> Prop),
  ports cfg = [] -> cond_wf cfg c ->
  nth_error segs i = Some (scond_code c lbl here) ->
  (forall l, In l (sdefs (scond_code c lbl here)) -> ~ In l (sdefs (cat (firstn i segs)))) ->
  find_label lbl (cat segs) 0 = Some kl -> bytes_ok s ->
  (forall n, (n <= length (scond_code c lbl here))%nat ->
     reach cfg (cat segs) (if cond_holds cfg c s then pos segs (S i) else kl) (cond_state cfg c s)
       (fun n2 => Q (n + n2)%nat)) ->
  reach cfg (cat segs) (pos segs i) s Q.
Proof.
  intros cfg c lbl here segs i kl s Q Hp Hw Hi Hfr Hkl Hb HQ.
  pose proof (cond_reach cfg c lbl here _ (cat (skipn (S i) segs)) kl s Hp Hw Hfr) as H.
  rewrite <- (cat_nth _ _ _ Hi), <- (pos_S _ _ _ Hi : _ = (length _ + _)%nat) in H.
  apply reach_seq. eapply reach_weaken; [|apply (H Hkl Hb)].
  intros n pc' s' (Hn & -> & ->). apply (HQ n Hn).
Qed.

Lemma slines_jmp : forall l r sr, l <> ""%string -> slines_of r = Some sr ->
  slines_of (ins JMP l :: r) = Some (sjmp l :: sr).
Proof.
  intros l r sr Hl Hr. apply slines_ins; [apply parse_lbl; [reflexivity|exact Hl]|exact Hr].
Qed.

Lemma if_reach : forall cfg c slB lend here N (R : mstate -> mstate -> Prop) st,
  ports cfg = [] -> cond_wf cfg c -> lend <> here ->
  no_ret_s slB -> ~ In lend (sdefs slB) -> ~ In here (sdefs slB) -> bytes_ok st ->
  (cond_holds cfg c st = true ->
     exists st', sl_halts cfg slB N (cond_state cfg c st) st' /\ R (cond_state cfg c st) st') ->
  reach cfg (cat [scond_code c lend here; slB; [SLbl lend]]) 0 st
    (fun (n pc' : nat) (s' : mstate) =>
      (n <= length (scond_code c lend here) + (if cond_holds cfg c st then N + 1 else 1))%nat /\
      pc' = length (cat [scond_code c lend here; slB; [SLbl lend]]) /\
      if cond_holds cfg c st then exists mid, same_mxys st mid /\ bytes_ok mid /\ R mid s'
      else same_mxys st s').
Proof.
  intros cfg c slB lend here N R st Hp Hw Nlh Hnr Fl Fh Hb Hbody.
  pose proof (sdefs_scond_code c lend here) as Hc.
  pose proof (cond_state_same cfg c st) as Hsame.
  pose proof (cond_state_bytes_ok cfg c st Hb) as Hbm.
  set (segs := [scond_code c lend here; slB; [SLbl lend]]).
  assert (Hkl : find_label lend (cat segs) 0 = Some (pos segs 2)).
  { apply (find_label_seg segs 2 lend [] eq_refl). cbn [firstn cat segs].
    rewrite sdefs_app, in_app_iff. intros [H|H]; [exact (Nlh (Hc _ H))|exact (Fl H)]. }
  apply (seg_cond cfg c lend here segs 0 _ st _ Hp Hw eq_refl (fun _ _ H => H) Hkl Hb).
  intros n Hn. destruct (cond_holds cfg c st) eqn:Ec.
  - destruct (Hbody eq_refl) as (st' & Hh & HR).
    apply (seg_body cfg segs 1 slB N _ st' _ eq_refl Hh Hnr).
    + intros l Hl Hin. rewrite (Hc l Hin) in Hl. exact (Fh Hl).
    + intros n1 Hn1. apply (seg_lbl cfg segs 2 lend _ _ eq_refl). apply reach_stop. cbv beta.
      split; [lia|]. split; [reflexivity|]. exists (cond_state cfg c st). split; [exact Hsame|split; [exact Hbm|exact HR]].
  - apply (seg_lbl cfg segs 2 lend _ _ eq_refl). apply reach_stop. cbv beta.
    split; [lia|]. split; [reflexivity|exact Hsame].
Qed.
Print Assumptions if_reach.

Lemma slines_if_tpl : forall cfg c B slB lend here, cond_wf cfg c ->
  lend <> ""%string -> here <> ""%string -> slines_of B = Some slB ->
  slines_of (if_tpl_at c B lend here) = Some (cat [scond_code c lend here; slB; [SLbl lend]]).
Proof.
  intros cfg c B slB lend here Hw Hl Hh HB. unfold if_tpl_at.
  apply slines_app; [apply (slines_cond_code cfg); assumption|].
  apply slines_app; [exact HB|reflexivity].
Qed.

(** ** [if_tpl_correct]

    The body [B] has the specification [R] on byte-valued states, contains no RTS / RTI and does
    not define the two labels of the template.  Then [if (c) B] runs from any byte-valued [st] to
    a normal halt in [st'] ([runs_to]: assembled, [Sem.run], empty call stack, any program around,
    any fuel above the length of the code) and
      - if the C condition holds on [st]: [R mid st'] for the state [mid] after the comparison,
        which equals [st] on memory, X, Y, S (and is byte-valued);
      - otherwise [st'] equals [st] on memory, X, Y, S. *)
Theorem if_tpl_correct : forall cfg c B lend here (R : mstate -> mstate -> Prop) st,
  ports cfg = [] -> cond_wf cfg c ->
  lend <> ""%string -> here <> ""%string -> lend <> here ->
  no_ret B -> fresh_in lend B -> fresh_in here B ->
  (forall s, bytes_ok s -> exists s', runs_to cfg B s s' /\ R s s') ->
  bytes_ok st ->
  exists st', runs_to cfg (if_tpl_at c B lend here) st st' /\
    (if cond_holds cfg c st
     then exists mid, same_mxys st mid /\ bytes_ok mid /\ R mid st'
     else same_mxys st st').
Proof.
  intros cfg c B lend here R st Hp Hw Hl Hh Nlh Hnr Fl Fh HB Hb.
  destruct (HB st Hb) as (s0 & (slB & HslB & _) & _).
  unfold fresh_in in Fl, Fh. rewrite <- (slines_defs _ _ HslB) in Fl, Fh.
  eapply runs_to_reach; [apply (slines_if_tpl cfg); eassumption|].
  eapply reach_weaken;
    [|apply (if_reach cfg c slB lend here (length slB) R st Hp Hw Nlh
               (slines_no_ret _ _ HslB Hnr) Fl Fh Hb)].
  - intros n pc' s' (Hn & HP). cbv beta. split; [|exact HP].
    cbn [cat]. rewrite !app_length. cbn [length]. destruct (cond_holds cfg c st); lia.
  - intros _. destruct (HB _ (cond_state_bytes_ok cfg c st Hb)) as (s' & Hr & HR).
    exists s'. split; [apply (runs_to_sl_halts cfg B); assumption|exact HR].
Qed.
Print Assumptions if_tpl_correct.

(** the same for a body that only [halts_to] (it may contain loops) *)
Theorem if_tpl_correct_h : forall cfg c B lend here (R : mstate -> mstate -> Prop) st,
  ports cfg = [] -> cond_wf cfg c ->
  lend <> ""%string -> here <> ""%string -> lend <> here ->
  no_ret B -> fresh_in lend B -> fresh_in here B ->
  (forall s, bytes_ok s -> exists s', halts_to cfg B s s' /\ R s s') ->
  bytes_ok st ->
  exists st', halts_to cfg (if_tpl_at c B lend here) st st' /\
    (if cond_holds cfg c st
     then exists mid, same_mxys st mid /\ bytes_ok mid /\ R mid st'
     else same_mxys st st').
Proof.
  intros cfg c B lend here R st Hp Hw Hl Hh Nlh Hnr Fl Fh HB Hb.
  destruct (HB st Hb) as (s0 & (slB & HslB & _) & _).
  unfold fresh_in in Fl, Fh. rewrite <- (slines_defs _ _ HslB) in Fl, Fh.
  destruct (HB _ (cond_state_bytes_ok cfg c st Hb)) as (s1 & Hr & HR).
  destruct (halts_to_sl_halts cfg B slB _ _ HslB Hr) as (N & HN).
  eapply halts_to_reach; [apply (slines_if_tpl cfg); eassumption|].
  eapply reach_weaken;
    [|apply (if_reach cfg c slB lend here N R st Hp Hw Nlh
               (slines_no_ret _ _ HslB Hnr) Fl Fh Hb)].
  - intros n pc' s' (_ & HP). exact HP.
  - intros _. exists s1. split; [exact HN|exact HR].
Qed.
Print Assumptions if_tpl_correct_h.

Lemma ifelse_reach : forall cfg c slB1 slB2 lelse lend here N1 N2
    (R1 R2 : mstate -> mstate -> Prop) st,
  ports cfg = [] -> cond_wf cfg c -> lelse <> here -> lend <> here -> lelse <> lend ->
  no_ret_s slB1 -> no_ret_s slB2 ->
  ~ In lelse (sdefs slB1) -> ~ In lend (sdefs slB1) -> ~ In here (sdefs slB1) ->
  ~ In lelse (sdefs slB2) -> ~ In lend (sdefs slB2) -> ~ In here (sdefs slB2) ->
  (forall l, In l (sdefs slB2) -> ~ In l (sdefs slB1)) ->
  bytes_ok st ->
  (cond_holds cfg c st = true ->
     exists st', sl_halts cfg slB1 N1 (cond_state cfg c st) st' /\ R1 (cond_state cfg c st) st') ->
  (cond_holds cfg c st = false ->
     exists st', sl_halts cfg slB2 N2 (cond_state cfg c st) st' /\ R2 (cond_state cfg c st) st') ->
  reach cfg (cat [scond_code c lelse here; slB1; [sjmp lend]; [SLbl lelse]; slB2; [SLbl lend]]) 0 st
    (fun (n pc' : nat) (s' : mstate) =>
      (n <= length (scond_code c lelse here) + (if cond_holds cfg c st then N1 + 2 else N2 + 2))%nat /\
      pc' = length (cat [scond_code c lelse here; slB1; [sjmp lend]; [SLbl lelse]; slB2; [SLbl lend]]) /\
      exists mid, same_mxys st mid /\ bytes_ok mid /\
        if cond_holds cfg c st then R1 mid s' else R2 mid s').
Proof.
  intros cfg c slB1 slB2 lelse lend here N1 N2 R1 R2 st Hp Hw Neh Ndh Ned Hnr1 Hnr2
    F1e F1d F1h F2e F2d F2h Hdisj Hb Hb1 Hb2.
  pose proof (sdefs_scond_code c lelse here) as Hc.
  pose proof (cond_state_same cfg c st) as Hsame.
  pose proof (cond_state_bytes_ok cfg c st Hb) as Hbm.
  set (segs := [scond_code c lelse here; slB1; [sjmp lend]; [SLbl lelse]; slB2; [SLbl lend]]).
  assert (Hkelse : find_label lelse (cat segs) 0 = Some (pos segs 3)).
  { apply (find_label_seg segs 3 lelse [] eq_refl). cbn [firstn cat segs].
    rewrite !sdefs_app, !in_app_iff. cbn [sdefs In sjmp].
    intros [H|[H|[]]]; [exact (Neh (Hc _ H))|exact (F1e H)]. }
  assert (Hkend : find_label lend (cat segs) 0 = Some (pos segs 5)).
  { apply (find_label_seg segs 5 lend [] eq_refl). cbn [firstn cat segs].
    rewrite !sdefs_app, !in_app_iff. cbn [sdefs In sjmp].
    intros [H|[H|[[]|[[H|[]]|H]]]];
      [exact (Ndh (Hc _ H))|exact (F1d H)|exact (Ned H)|exact (F2d H)]. }
  apply (seg_cond cfg c lelse here segs 0 _ st _ Hp Hw eq_refl (fun _ _ H => H) Hkelse Hb).
  intros n Hn. destruct (cond_holds cfg c st) eqn:Ec.
  - destruct (Hb1 eq_refl) as (st' & Hh & HR).
    apply (seg_body cfg segs 1 slB1 N1 _ st' _ eq_refl Hh Hnr1).
    + intros l Hl Hin. rewrite (Hc l Hin) in Hl. exact (F1h Hl).
    + intros n1 Hn1. apply (seg_jmp cfg segs 2 lend _ _ _ eq_refl Hkend).
      apply (seg_lbl cfg segs 5 lend _ _ eq_refl). apply reach_stop. cbv beta.
      split; [lia|]. split; [reflexivity|]. exists (cond_state cfg c st). split; [exact Hsame|split; [exact Hbm|exact HR]].
  - destruct (Hb2 eq_refl) as (st' & Hh & HR).
    apply (seg_lbl cfg segs 3 lelse _ _ eq_refl).
    apply (seg_body cfg segs 4 slB2 N2 _ st' _ eq_refl Hh Hnr2).
    + intros l Hl. cbn [firstn cat segs]. rewrite !sdefs_app, !in_app_iff. cbn [sdefs In sjmp].
      intros [H|[H|[[]|[E|[]]]]];
        [rewrite (Hc l H) in Hl; exact (F2h Hl)|exact (Hdisj l Hl H)|subst l; exact (F2e Hl)].
    + intros n2 Hn2. apply (seg_lbl cfg segs 5 lend _ _ eq_refl). apply reach_stop. cbv beta.
      split; [lia|]. split; [reflexivity|]. exists (cond_state cfg c st). split; [exact Hsame|split; [exact Hbm|exact HR]].
Qed.
Print Assumptions ifelse_reach.

Lemma slines_ifelse_tpl : forall cfg c B1 B2 slB1 slB2 lelse lend here, cond_wf cfg c ->
  lelse <> ""%string -> lend <> ""%string -> here <> ""%string ->
  slines_of B1 = Some slB1 -> slines_of B2 = Some slB2 ->
  slines_of (ifelse_tpl_at c B1 B2 lelse lend here)
  = Some (cat [scond_code c lelse here; slB1; [sjmp lend]; [SLbl lelse]; slB2; [SLbl lend]]).
Proof.
  intros cfg c B1 B2 slB1 slB2 lelse lend here Hw He Hd Hh H1 H2. unfold ifelse_tpl_at.
  apply slines_app; [apply (slines_cond_code cfg); assumption|].
  apply slines_app; [exact H1|].
  apply slines_jmp; [exact Hd|]. apply slines_lbl.
  apply slines_app; [exact H2|reflexivity].
Qed.

Definition defs_disjoint (B1 B2 : code) : Prop := forall l, In l (defs B1) -> ~ In l (defs B2).

(** ** [ifelse_tpl_correct]: as [if_tpl_correct], with two bodies and the JMP over the else part;
    the three labels of the template are defined by neither body, and the bodies define different
    labels *)
Theorem ifelse_tpl_correct : forall cfg c B1 B2 lelse lend here
    (R1 R2 : mstate -> mstate -> Prop) st,
  ports cfg = [] -> cond_wf cfg c ->
  lelse <> ""%string -> lend <> ""%string -> here <> ""%string ->
  lelse <> here -> lend <> here -> lelse <> lend ->
  no_ret B1 -> no_ret B2 ->
  fresh_in lelse B1 -> fresh_in lend B1 -> fresh_in here B1 ->
  fresh_in lelse B2 -> fresh_in lend B2 -> fresh_in here B2 ->
  defs_disjoint B1 B2 ->
  (forall s, bytes_ok s -> exists s', runs_to cfg B1 s s' /\ R1 s s') ->
  (forall s, bytes_ok s -> exists s', runs_to cfg B2 s s' /\ R2 s s') ->
  bytes_ok st ->
  exists st', runs_to cfg (ifelse_tpl_at c B1 B2 lelse lend here) st st' /\
    exists mid, same_mxys st mid /\ bytes_ok mid /\
      if cond_holds cfg c st then R1 mid st' else R2 mid st'.
Proof.
  intros cfg c B1 B2 lelse lend here R1 R2 st Hp Hw He Hd Hh Neh Ndh Ned Hnr1 Hnr2
    F1e F1d F1h F2e F2d F2h Hdisj HB1 HB2 Hb.
  destruct (HB1 st Hb) as (s0 & (slB1 & HslB1 & _) & _).
  destruct (HB2 st Hb) as (s0' & (slB2 & HslB2 & _) & _).
  unfold fresh_in, defs_disjoint in *.
  rewrite <- (slines_defs _ _ HslB1) in F1e, F1d, F1h, Hdisj.
  rewrite <- (slines_defs _ _ HslB2) in F2e, F2d, F2h, Hdisj.
  eapply runs_to_reach; [apply (slines_ifelse_tpl cfg); eassumption|].
  eapply reach_weaken;
    [|apply (ifelse_reach cfg c slB1 slB2 lelse lend here (length slB1) (length slB2) R1 R2 st
               Hp Hw Neh Ndh Ned (slines_no_ret _ _ HslB1 Hnr1) (slines_no_ret _ _ HslB2 Hnr2)
               F1e F1d F1h F2e F2d F2h (fun l H2 H1 => Hdisj l H1 H2) Hb)].
  - intros n pc' s' (Hn & HP). cbv beta. split; [|exact HP].
    cbn [cat]. rewrite !app_length. cbn [length]. destruct (cond_holds cfg c st); lia.
  - intros _. destruct (HB1 _ (cond_state_bytes_ok cfg c st Hb)) as (s' & Hr & HR).
    exists s'. split; [apply (runs_to_sl_halts cfg B1); assumption|exact HR].
  - intros _. destruct (HB2 _ (cond_state_bytes_ok cfg c st Hb)) as (s' & Hr & HR).
    exists s'. split; [apply (runs_to_sl_halts cfg B2); assumption|exact HR].
Qed.
Print Assumptions ifelse_tpl_correct.

Theorem ifelse_tpl_correct_h : forall cfg c B1 B2 lelse lend here
    (R1 R2 : mstate -> mstate -> Prop) st,
  ports cfg = [] -> cond_wf cfg c ->
  lelse <> ""%string -> lend <> ""%string -> here <> ""%string ->
  lelse <> here -> lend <> here -> lelse <> lend ->
  no_ret B1 -> no_ret B2 ->
  fresh_in lelse B1 -> fresh_in lend B1 -> fresh_in here B1 ->
  fresh_in lelse B2 -> fresh_in lend B2 -> fresh_in here B2 ->
  defs_disjoint B1 B2 ->
  (forall s, bytes_ok s -> exists s', halts_to cfg B1 s s' /\ R1 s s') ->
  (forall s, bytes_ok s -> exists s', halts_to cfg B2 s s' /\ R2 s s') ->
  bytes_ok st ->
  exists st', halts_to cfg (ifelse_tpl_at c B1 B2 lelse lend here) st st' /\
    exists mid, same_mxys st mid /\ bytes_ok mid /\
      if cond_holds cfg c st then R1 mid st' else R2 mid st'.
Proof.
  intros cfg c B1 B2 lelse lend here R1 R2 st Hp Hw He Hd Hh Neh Ndh Ned Hnr1 Hnr2
    F1e F1d F1h F2e F2d F2h Hdisj HB1 HB2 Hb.
  destruct (HB1 _ (cond_state_bytes_ok cfg c st Hb)) as (s1 & Hr1 & HR1).
  destruct (HB2 _ (cond_state_bytes_ok cfg c st Hb)) as (s2 & Hr2 & HR2).
  pose proof Hr1 as (slB1 & HslB1 & _). pose proof Hr2 as (slB2 & HslB2 & _).
  destruct (halts_to_sl_halts cfg B1 slB1 _ _ HslB1 Hr1) as (N1 & HN1).
  destruct (halts_to_sl_halts cfg B2 slB2 _ _ HslB2 Hr2) as (N2 & HN2).
  unfold fresh_in, defs_disjoint in *.
  rewrite <- (slines_defs _ _ HslB1) in F1e, F1d, F1h, Hdisj.
  rewrite <- (slines_defs _ _ HslB2) in F2e, F2d, F2h, Hdisj.
  eapply halts_to_reach; [apply (slines_ifelse_tpl cfg); eassumption|].
  eapply reach_weaken;
    [|apply (ifelse_reach cfg c slB1 slB2 lelse lend here N1 N2 R1 R2 st
               Hp Hw Neh Ndh Ned (slines_no_ret _ _ HslB1 Hnr1) (slines_no_ret _ _ HslB2 Hnr2)
               F1e F1d F1h F2e F2d F2h (fun l H2 H1 => Hdisj l H1 H2) Hb)].
  - intros n pc' s' (_ & HP). exact HP.
  - intros _. exists s1. split; [exact HN1|exact HR1].
  - intros _. exists s2. split; [exact HN2|exact HR2].
Qed.
Print Assumptions ifelse_tpl_correct_h.

Lemma slines_while_tpl : forall cfg c B slB lhead lend here, cond_wf cfg c ->
  lhead <> ""%string -> lend <> ""%string -> here <> ""%string -> slines_of B = Some slB ->
  slines_of (while_tpl_at c B lhead lend here)
  = Some (cat [[SLbl lhead]; scond_code c lend here; slB; [sjmp lhead]; [SLbl lend]]).
Proof.
  intros cfg c B slB lhead lend here Hw Hh Hd He HB. unfold while_tpl_at.
  apply slines_app; [reflexivity|].
  apply slines_app; [apply (slines_cond_code cfg); assumption|].
  apply slines_app; [exact HB|].
  apply slines_jmp; [exact Hh|reflexivity].
Qed.

(** ** [while_tpl_correct]: the while rule (total correctness)

    [I] is the invariant, [mu] the measure; both are about memory, X, Y, S only (they do not see A
    and the flags, which the evaluation of the condition changes).  Whenever the invariant and the
    C condition hold on a byte-valued state, [mu] is non-negative and the body (which has no
    RTS / RTI and does not define the three labels of the template) halts in a state where the
    invariant holds again and [mu] is smaller.  Then from every byte-valued state satisfying the
    invariant, [while (c) B] halts ([halts_to]: [Sem.run] on the whole sequence, backward jump
    included, with any fuel above some bound), the invariant holds on the final state and the
    C condition does not. *)
Theorem while_tpl_correct : forall cfg c B lhead lend here
    (I : mstate -> Prop) (mu : mstate -> Z) st,
  ports cfg = [] -> cond_wf cfg c ->
  lhead <> ""%string -> lend <> ""%string -> here <> ""%string ->
  lhead <> lend -> lhead <> here -> lend <> here ->
  no_ret B -> fresh_in lhead B -> fresh_in lend B -> fresh_in here B ->
  (exists slB, slines_of B = Some slB) ->
  (forall s s', same_mxys s s' -> I s -> I s') ->
  (forall s s', same_mxys s s' -> mu s' = mu s) ->
  (forall s, bytes_ok s -> I s -> cond_holds cfg c s = true ->
     0 <= mu s /\ exists s', halts_to cfg B s s' /\ I s' /\ mu s' < mu s) ->
  bytes_ok st -> I st ->
  exists st', halts_to cfg (while_tpl_at c B lhead lend here) st st' /\
    I st' /\ cond_holds cfg c st' = false /\ bytes_ok st'.
Proof.
  intros cfg c B lhead lend here I mu st Hp Hw Hh Hd He Nhd Nhh Ndh Hnr Fh Fd Fe (slB & HslB)
    HI Hmu Hbody Hb Hinv.
  unfold fresh_in in Fh, Fd, Fe. rewrite <- (slines_defs _ _ HslB) in Fh, Fd, Fe.
  pose proof (slines_no_ret _ _ HslB Hnr) as Hnrs.
  pose proof (sdefs_scond_code c lend here) as Hc.
  eapply halts_to_reach; [apply (slines_while_tpl cfg); eassumption|].
  set (segs := [[SLbl lhead]; scond_code c lend here; slB; [sjmp lhead]; [SLbl lend]]).
  assert (Hkhead : find_label lhead (cat segs) 0 = Some (pos segs 0))
    by (apply (find_label_seg segs 0 lhead [] eq_refl); intros []).
  assert (Hkend : find_label lend (cat segs) 0 = Some (pos segs 4)).
  { apply (find_label_seg segs 4 lend [] eq_refl). cbn [firstn cat segs].
    rewrite !sdefs_app, !in_app_iff. cbn [sdefs In sjmp].
    intros [[E|[]]|[H|[H|[]]]]; [exact (Nhd E)|exact (Ndh (Hc _ H))|exact (Fd H)]. }
  (* a pass from the head: the measure of the invariant is [max 0 (mu + 1)] *)
  eapply (loop_rule cfg (cat segs) 0%nat (pos segs 5)
            (fun k s => I s /\ bytes_ok s /\ k = Z.max 0 (mu s + 1))
            (fun s' => I s' /\ cond_holds cfg c s' = false /\ bytes_ok s'))
    with (k := Z.max 0 (mu st + 1)); [|split; [exact Hinv|split; [exact Hb|reflexivity]]].
  intros k s (Hi & Hbs & Hk).
  pose proof (cond_state_same cfg c s) as Hsame.
  pose proof (cond_state_bytes_ok cfg c s Hbs) as Hbm.
  apply (seg_lbl cfg segs 0 lhead _ _ eq_refl).
  apply (seg_cond cfg c lend here segs 1 _ s _ Hp Hw eq_refl
           ltac:(intros l Hl [E|[]]; rewrite (Hc l Hl) in E; exact (Nhh E)) Hkend Hbs).
  intros n _. destruct (cond_holds cfg c s) eqn:Ec.
  - destruct (Hbody (cond_state cfg c s) Hbm (HI _ _ Hsame Hi)
                ltac:(rewrite cond_holds_state; exact Ec)) as (Hm0 & s' & Hr & Hi' & Hlt).
    rewrite (Hmu _ _ Hsame) in Hm0, Hlt.
    destruct (halts_to_sl_halts cfg B slB _ _ HslB Hr) as (N & HN).
    apply (seg_body cfg segs 2 slB N _ s' _ eq_refl HN Hnrs).
    + intros l Hl. cbn [firstn cat segs]. rewrite sdefs_app, in_app_iff. cbn [sdefs In].
      intros [[E|[]]|H]; [subst l; exact (Fh Hl)|rewrite (Hc l H) in Hl; exact (Fe Hl)].
    + intros n1 _. apply (seg_jmp cfg segs 3 lhead _ _ _ eq_refl Hkhead). apply reach_stop. cbv beta.
      left. split; [reflexivity|]. exists (Z.max 0 (mu s' + 1)). split; [lia|].
      split; [exact Hi'|]. split; [apply (halts_to_bytes_ok cfg B _ _ Hr Hbm)|reflexivity].
  - apply (seg_lbl cfg segs 4 lend _ _ eq_refl). apply reach_stop. cbv beta.
    right. split; [reflexivity|]. split; [apply (HI _ _ Hsame Hi)|].
    split; [rewrite cond_holds_state; exact Ec|exact Hbm].
Qed.
Print Assumptions while_tpl_correct.

Theorem assign8_correct : forall cfg dst k pd st,
  ports cfg = [] -> var_name dst -> layout cfg dst = Some pd -> 0 <= pd < 65536 -> 0 <= k < 256 ->
  exists st', runs_to cfg (assign8 dst k) st st' /\
    mget (mem st') pd = k /\ only_changes [pd] st st' /\ keeps_xys st st'.
Proof.
  intros cfg dst k pd st Hp Vd Ld Rd Rk.
  apply (copy_gen cfg (Lit k) pd); [apply imm_r|apply cell_w, cell_var]; assumption.
Qed.
Print Assumptions assign8_correct.

Lemma assign8_no_ret : forall dst k, no_ret (assign8 dst k).
Proof. reflexivity. Qed.
Lemma assign8_fresh : forall l dst k, fresh_in l (assign8 dst k).
Proof. intros l dst k H. exact H. Qed.

(** the frame of a statement: it writes only cells of [d], and keeps X, Y, S *)
Definition framed (d : list Z) (s s' : mstate) : Prop := only_changes d s s' /\ keeps_xys s s'.

Lemma keeps_xys_refl : forall s, keeps_xys s s.
Proof. intros s. repeat split; reflexivity. Qed.
Lemma keeps_xys_trans : forall s1 s2 s3, keeps_xys s1 s2 -> keeps_xys s2 s3 -> keeps_xys s1 s3.
Proof. intros s1 s2 s3 (A1 & A2 & A3) (B1 & B2 & B3). repeat split; congruence. Qed.

Lemma framed_refl : forall d s, framed d s s.
Proof. intros d s. split; [intros a _ _; reflexivity|apply keeps_xys_refl]. Qed.

Lemma framed_trans : forall d s1 s2 s3, framed d s1 s2 -> framed d s2 s3 -> framed d s1 s3.
Proof.
  intros d s1 s2 s3 (H1 & K1) (H2 & K2). split; [|apply (keeps_xys_trans _ _ _ K1 K2)].
  intros a Ha Hn. rewrite (H2 a Ha Hn). apply (H1 a Ha Hn).
Qed.

Lemma framed_incl : forall d d' s s', (forall a, In a d -> In a d') -> framed d s s' -> framed d' s s'.
Proof.
  intros d d' s s' Hi (H & K). split; [|exact K].
  intros a Ha Hn. apply (H a Ha). intros Hin. apply Hn. apply Hi. exact Hin.
Qed.

(** one more statement, writing a cell of [d] *)
Lemma framed_step : forall p d st s s', In p d -> framed d st s -> framed [p] s s' -> framed d st s'.
Proof.
  intros p d st s s' Hin H1 H2. apply (framed_trans _ _ _ _ H1). apply (framed_incl [p]); [|exact H2].
  intros x [<-|[]]. exact Hin.
Qed.

(** evaluating a condition changes A and the flags only *)
Lemma framed_of_same : forall d s s', same_mxys s s' -> framed d s s'.
Proof.
  intros d s s' (Em & Ex & Ey & Es).
  split; [intros a _ _; rewrite Em; reflexivity|repeat split; assumption].
Qed.

(** [if (c) dst = k;] for ANY 8-bit condition [c]: [dst] holds the C value, every other cell and
    X, Y, S are unchanged (the operands of [c] may be [dst] itself) *)
Corollary if_assign_correct : forall cfg c dst k lend here pd st,
  ports cfg = [] -> cond_wf cfg c ->
  lend <> ""%string -> here <> ""%string -> lend <> here ->
  var_name dst -> layout cfg dst = Some pd -> 0 <= pd < 65536 -> 0 <= k < 256 ->
  bytes_ok st ->
  exists st', runs_to cfg (if_tpl_at c (assign8 dst k) lend here) st st' /\
    mget (mem st') pd = (if cond_holds cfg c st then k else mget (mem st) pd) /\
    only_changes [pd] st st' /\ keeps_xys st st'.
Proof.
  intros cfg c dst k lend here pd st Hp Hw Hl Hh Nlh Vd Ld Rd Rk Hb.
  destruct (if_tpl_correct cfg c (assign8 dst k) lend here
              (fun s s' => mget (mem s') pd = k /\ framed [pd] s s') st
              Hp Hw Hl Hh Nlh (assign8_no_ret _ _) (assign8_fresh _ _ _) (assign8_fresh _ _ _)
              (fun s _ => assign8_correct cfg dst k pd s Hp Vd Ld Rd Rk) Hb) as (st' & Hr & HP).
  exists st'. split; [exact Hr|].
  destruct (cond_holds cfg c st).
  - destruct HP as (mid & Hs & _ & Hv & Hf).
    split; [exact Hv|apply (framed_trans _ _ _ _ (framed_of_same _ _ _ Hs) Hf)].
  - split; [rewrite (proj1 HP); reflexivity|apply framed_of_same; exact HP].
Qed.
Print Assumptions if_assign_correct.

(** [if (c) dst = k1; else dst = k2;] *)
Corollary ifelse_assign_correct : forall cfg c dst k1 k2 lelse lend here pd st,
  ports cfg = [] -> cond_wf cfg c ->
  lelse <> ""%string -> lend <> ""%string -> here <> ""%string ->
  lelse <> here -> lend <> here -> lelse <> lend ->
  var_name dst -> layout cfg dst = Some pd -> 0 <= pd < 65536 ->
  0 <= k1 < 256 -> 0 <= k2 < 256 ->
  bytes_ok st ->
  exists st', runs_to cfg (ifelse_tpl_at c (assign8 dst k1) (assign8 dst k2) lelse lend here) st st' /\
    mget (mem st') pd = (if cond_holds cfg c st then k1 else k2) /\
    only_changes [pd] st st' /\ keeps_xys st st'.
Proof.
  intros cfg c dst k1 k2 lelse lend here pd st Hp Hw He Hd Hh Neh Ndh Ned Vd Ld Rd Rk1 Rk2 Hb.
  destruct (ifelse_tpl_correct cfg c (assign8 dst k1) (assign8 dst k2) lelse lend here
              (fun s s' => mget (mem s') pd = k1 /\ framed [pd] s s')
              (fun s s' => mget (mem s') pd = k2 /\ framed [pd] s s') st
              Hp Hw He Hd Hh Neh Ndh Ned (assign8_no_ret _ _) (assign8_no_ret _ _)
              (assign8_fresh _ _ _) (assign8_fresh _ _ _) (assign8_fresh _ _ _)
              (assign8_fresh _ _ _) (assign8_fresh _ _ _) (assign8_fresh _ _ _)
              (fun l H => match H with end)
              (fun s _ => assign8_correct cfg dst k1 pd s Hp Vd Ld Rd Rk1)
              (fun s _ => assign8_correct cfg dst k2 pd s Hp Vd Ld Rd Rk2) Hb)
    as (st' & Hr & mid & Hs & _ & HP).
  exists st'. split; [exact Hr|].
  destruct (cond_holds cfg c st); destruct HP as (Hv & Hf);
    (split; [exact Hv|apply (framed_trans _ _ _ _ (framed_of_same _ _ _ Hs) Hf)]).
Qed.
Print Assumptions ifelse_assign_correct.

(** ** the compiler's labels are non-empty and distinct: hints [lname] *)

Lemma lname_nonempty : forall p n, p <> ""%string -> lname p n <> ""%string.
Proof. intros [|ch p] n H; [contradiction|discriminate]. Qed.

(** the prefixes differ at some character (neither is a prefix of the other) *)
Fixpoint differ (p q : string) : bool :=
  match p, q with
  | String a p', String b q' => if Ascii.eqb a b then differ p' q' else true
  | _, _ => false
  end.

Lemma lname_differ : forall p q n m, differ p q = true -> lname p n <> lname q m.
Proof.
  unfold lname. induction p as [|a p IH]; intros [|b q] n m H E; try discriminate H.
  cbn [differ append] in *. inversion E; subst. rewrite Ascii.eqb_refl in H.
  apply (IH q n m H). assumption.
Qed.

Create HintDb lname.
#[export] Hint Resolve lname_nonempty lname_differ lname_for_forend lname_for_forupdate
  lname_while_whileend lname_dowhile_dowhileend : lname.
#[export] Hint Extern 1 (_ <> ""%string) => discriminate : lname.
#[export] Hint Extern 1 (differ _ _ = true) => reflexivity : lname.

Lemma var_at_intro : forall cfg x px, var_name x -> layout cfg x = Some px -> 0 <= px < 65536 ->
  var_at cfg x.
Proof. intros cfg x px V L R. split; [exact V|]. exists px. split; assumption. Qed.

Lemma cond_wf_var : forall cfg o x y px py,
  var_name x -> var_name y -> layout cfg x = Some px -> layout cfg y = Some py ->
  0 <= px < 65536 -> 0 <= py < 65536 -> cond_wf cfg (CVar o x y).
Proof.
  intros cfg o x y px py Vx Vy Lx Ly Rx Ry.
  split; [apply (var_at_intro cfg x px)|apply (var_at_intro cfg y py)]; assumption.
Qed.

Lemma cond_wf_const : forall cfg o x k px,
  var_name x -> layout cfg x = Some px -> 0 <= px < 65536 -> 0 <= k < 256 -> cond_wf cfg (CConst o x k).
Proof. intros cfg o x k px Vx Lx Rx Rk. split; [apply (var_at_intro cfg x px); assumption|exact Rk]. Qed.

Lemma cond_holds_var : forall cfg o x y px py st,
  layout cfg x = Some px -> layout cfg y = Some py ->
  cond_holds cfg (CVar o x y) st = rel_holds o (mget (mem st) px) (mget (mem st) py).
Proof.
  intros cfg o x y px py st Lx Ly.
  unfold cond_holds, cond_lhs_val, cond_rhs_val, var_val. cbn [cond_op cond_lhs]. rewrite Lx, Ly.
  reflexivity.
Qed.

Lemma cond_holds_const : forall cfg o x k px st,
  layout cfg x = Some px ->
  cond_holds cfg (CConst o x k) st = rel_holds o (mget (mem st) px) k.
Proof.
  intros cfg o x k px st Lx.
  unfold cond_holds, cond_lhs_val, cond_rhs_val, var_val. cbn [cond_op cond_lhs]. rewrite Lx.
  reflexivity.
Qed.

(** * Instances of the while rule: the loops of the listing with a closed form *)

(** the frame part of an invariant does not see A and the flags *)
Lemma framed_same : forall d st s s', same_mxys s s' -> framed d st s -> framed d st s'.
Proof. intros d st s s' Hs H. apply (framed_trans _ _ _ _ H (framed_of_same _ _ _ Hs)). Qed.

Lemma inc8_assembles : forall a, var_name a -> exists slB, slines_of (template (SInc8 a)) = Some slB.
Proof. intros a Va. eexists. cbn [template]. slines_tac. Qed.

(** [while (a != b) a++;] terminates from EVERY byte-valued state, with [a = b]:
    the measure is [(b - a) mod 256] *)
Theorem while_ne_inc_code_correct : forall cfg a b lhead lend here pa pb st,
  ports cfg = [] -> var_name a -> var_name b ->
  lhead <> ""%string -> lend <> ""%string -> here <> ""%string ->
  lhead <> lend -> lhead <> here -> lend <> here ->
  layout cfg a = Some pa -> layout cfg b = Some pb ->
  0 <= pa < 65536 -> 0 <= pb < 65536 -> pa <> pb ->
  bytes_ok st ->
  exists st', halts_to cfg (while_tpl_at (CVar RNeq a b) (template (SInc8 a)) lhead lend here) st st' /\
    mget (mem st') pa = mget (mem st) pb /\
    only_changes [pa] st st' /\ keeps_xys st st'.
Proof.
  intros cfg a b lhead lend here pa pb st Hp Va Vb Hh Hd He Nhd Nhh Ndh La Lb Ra Rb Nab Hb.
  pose proof Hb as (_ & _ & _ & _ & HM0).
  destruct (while_tpl_correct cfg (CVar RNeq a b) (template (SInc8 a)) lhead lend here
              (fun s => framed [pa] st s)
              (fun s => (mget (mem st) pb - mget (mem s) pa) mod 256) st Hp
              (cond_wf_var cfg _ a b pa pb Va Vb La Lb Ra Rb) Hh Hd He Nhd Nhh Ndh eq_refl
              (fun H => H) (fun H => H) (fun H => H) (inc8_assembles a Va))
    as (st' & Hr & Hf & Hc & _); try assumption.
  - intros s s' Hs H. apply (framed_same _ _ _ _ Hs H).
  - intros s s' (Em & _). cbv beta. rewrite Em. reflexivity.
  - intros s Hbs H2 Hc. rewrite (cond_holds_var cfg RNeq a b pa pb s La Lb) in Hc.
    cbn [rel_holds] in Hc. rewrite (proj1 H2 pb ltac:(lia) ltac:(cbn [In]; lia)) in Hc.
    pose proof Hbs as (_ & _ & _ & _ & HM).
    pose proof (HM pa) as Ma. pose proof (HM0 pb) as Mb.
    split; [Z.div_mod_to_equations; lia|].
    destruct (inc8_correct cfg a pa s Hp Va La Ra) as (s' & Hr & Hv & Hf).
    exists s'. split; [apply runs_to_halts_to; exact Hr|].
    split; [apply (framed_trans _ _ _ _ H2 Hf)|].
    rewrite Hv. Z.div_mod_to_equations. lia.
  - apply framed_refl.
  - exists st'. split; [exact Hr|]. split; [|exact Hf].
    rewrite (cond_holds_var cfg RNeq a b pa pb st' La Lb) in Hc. cbn [rel_holds] in Hc.
    rewrite (proj1 Hf pb ltac:(lia) ltac:(cbn [In]; lia)) in Hc. destruct (Z.eqb_spec (mget (mem st') pa) (mget (mem st) pb)); [assumption|discriminate Hc].
Qed.
Print Assumptions while_ne_inc_code_correct.

(** [while (a < b) a++;]: [a] ends as the larger of [a] and [b] *)
Theorem while_lt_inc_code_correct : forall cfg a b lhead lend here pa pb st,
  ports cfg = [] -> var_name a -> var_name b ->
  lhead <> ""%string -> lend <> ""%string -> here <> ""%string ->
  lhead <> lend -> lhead <> here -> lend <> here ->
  layout cfg a = Some pa -> layout cfg b = Some pb ->
  0 <= pa < 65536 -> 0 <= pb < 65536 -> pa <> pb ->
  bytes_ok st ->
  exists st', halts_to cfg (while_tpl_at (CVar RLt a b) (template (SInc8 a)) lhead lend here) st st' /\
    mget (mem st') pa = Z.max (mget (mem st) pa) (mget (mem st) pb) /\
    only_changes [pa] st st' /\ keeps_xys st st'.
Proof.
  intros cfg a b lhead lend here pa pb st Hp Va Vb Hh Hd He Nhd Nhh Ndh La Lb Ra Rb Nab Hb.
  pose proof Hb as (_ & _ & _ & _ & HM0).
  destruct (while_tpl_correct cfg (CVar RLt a b) (template (SInc8 a)) lhead lend here
              (fun s => mget (mem st) pa <= mget (mem s) pa
                          <= Z.max (mget (mem st) pa) (mget (mem st) pb) /\
                        framed [pa] st s)
              (fun s => mget (mem st) pb - mget (mem s) pa) st Hp
              (cond_wf_var cfg _ a b pa pb Va Vb La Lb Ra Rb) Hh Hd He Nhd Nhh Ndh eq_refl
              (fun H => H) (fun H => H) (fun H => H) (inc8_assembles a Va))
    as (st' & Hr & (Hva & Hf) & Hc & _); try assumption.
  - intros s s' Hs (H2 & H3). rewrite (proj1 Hs).
    split; [exact H2|apply (framed_same _ _ _ _ Hs H3)].
  - intros s s' (Em & _). cbv beta. rewrite Em. reflexivity.
  - intros s Hbs (H2 & H3) Hc. rewrite (cond_holds_var cfg RLt a b pa pb s La Lb) in Hc.
    cbn [rel_holds] in Hc. rewrite (proj1 H3 pb ltac:(lia) ltac:(cbn [In]; lia)) in Hc.
    pose proof (HM0 pa) as Ma. pose proof (HM0 pb) as Mb.
    destruct (Z.ltb_spec (mget (mem s) pa) (mget (mem st) pb)) as [Hlt|]; [|discriminate Hc].
    split; [lia|].
    destruct (inc8_correct cfg a pa s Hp Va La Ra) as (s' & Hr & Hv & Hf).
    exists s'. split; [apply runs_to_halts_to; exact Hr|].
    rewrite Z.mod_small in Hv by lia.
    split; [|lia].
    split; [lia|apply (framed_trans _ _ _ _ H3 Hf)].
  - split; [lia|apply framed_refl].
  - exists st'. split; [exact Hr|]. split; [|exact Hf].
    rewrite (cond_holds_var cfg RLt a b pa pb st' La Lb) in Hc. cbn [rel_holds] in Hc.
    rewrite (proj1 Hf pb ltac:(lia) ltac:(cbn [In]; lia)) in Hc.
    destruct (Z.ltb_spec (mget (mem st') pa) (mget (mem st) pb)); [discriminate Hc|]. lia.
Qed.
Print Assumptions while_lt_inc_code_correct.

