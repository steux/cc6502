(** GLOBAL simulation of the peephole optimiser on straight-line code (C02): executing the
    optimised line list gives the same final state as executing the original, N and Z included.

    The walk of [optimize] is read as a sequence of rewritings of the whole code; the invariant
    [Inv] (Model/OptSim.v) says that the code represented by the zipper still executes from the
    initial state to a state equal to the final state of the original code, and that the
    knowledge is sound just after [z_f] in that execution.  Every branch of [step_pair] preserves
    it ([step_pair_inv]), by the local theorems of Proofs/OptSemFacts.v:
    - swap: [rule_swap_lda_carry]; the flags component of the knowledge is stale for one step
      ([pswap]), harmlessly;
    - remove_second by a pair rule: [rule_sta_lda_exact], [rule_ora_zero_exact], [rule_ld_st],
      [rule_transfer_pair]; the knowledge is unchanged and so is the state it describes;
    - remove_second by [transfer]: [removal_sound]; when the removal rests on the look-ahead the
      states differ in N/Z, and the rest of the code ends in equal states because an instruction
      that redefines N/Z is still to come ([exec_straight_redefined]) -- whether or not that
      instruction is the one the optimiser looked at, which may itself be removed later;
      [transfer_removed_sound] keeps the knowledge sound for the state in which the load is not
      executed;
    - remove_first: [rule_load_load];
    - advance: [transfer_sound].
    Theorems: [optimize_straight_sound] (on [exec_straight]) and [optimize_straight_run] (on
    [Sem.run], through [exec_straight_runs_to] / [runs_to_exec_straight]).  The ",Y" clause of the
    scan [straight_ok] cannot be dropped ([zp_y_changes_a]).

    Before the repairs of "STA o; LDA o", "ORA #0" and of the knowledge recorded with a look-ahead
    removal, four straight-line programs ended with a different Z flag once optimised; they are
    kept as regression examples ([..._fixed]).

    (J), (S), (P)+(T)+(A): the phases of [step] as labelled in Model/Optimize.v at [step_jmp],
    [step_second], [step_pair]; the letters are those of the skeleton of [AssemblyCode::optimize]
    in DESIGN.md (jump, second, pair rules, transfer, action). *)
From Coq Require Import String Ascii List Bool NArith ZArith Lia.
From CC Require Import Base.Str Asm.Lines M6502.Isa Asm.Operand M6502.Sem
     Model.Optimize Model.OptSpec Model.OptSem Model.OptSim Proofs.ExecFacts Proofs.OptSemFacts.
From CC Require Proofs.OptFacts Proofs.GenTemplatesFacts.
Import ListNotations.
Open Scope Z_scope.

#[local] Opaque mget mset byte.
#[local] Arguments mget : simpl never.
#[local] Arguments mset : simpl never.
#[local] Arguments byte : simpl never.

(** both relations at once: [true] = all of the state, [false] = up to N and Z *)
Definition srel (ex : bool) (s s' : mstate) : Prop :=
  if ex then eq_state s s' else eq_mod_nz s s'.

Lemma eq_mod_nz_refl (s : mstate) : eq_mod_nz s s.
Proof. unfold eq_mod_nz. repeat split; try reflexivity. Qed.

Lemma eq_mod_nz_trans (a b c : mstate) : eq_mod_nz a b -> eq_mod_nz b c -> eq_mod_nz a c.
Proof.
  intros (A1 & X1 & Y1 & S1 & V1 & C1 & M1) (A2 & X2 & Y2 & S2 & V2 & C2 & M2).
  unfold eq_mod_nz. repeat split; try congruence. all: try (intros x; rewrite M1; apply M2).
Qed.

Lemma eq_state_refl (s : mstate) : eq_state s s.
Proof. split; [apply eq_mod_nz_refl|split; reflexivity]. Qed.

Lemma eq_state_sym (a b : mstate) : eq_state a b -> eq_state b a.
Proof. intros (H & N & Z). split; [apply eq_mod_nz_sym; exact H|split; congruence]. Qed.

Lemma eq_state_trans (a b c : mstate) : eq_state a b -> eq_state b c -> eq_state a c.
Proof.
  intros (H1 & N1 & Z1) (H2 & N2 & Z2).
  split; [eapply eq_mod_nz_trans; eassumption|split; congruence].
Qed.

(** in either mode: related states give the same fault, or related states and the same flow *)
Lemma exec_plain_rel (ex : bool) (cfg : config) (m : mnem) (op : operand) (s1 s2 t1 : mstate)
      (c1 : N) (f1 : flow) :
  plain m = true -> srel ex s1 s2 -> exec cfg m op s1 = XOk t1 c1 f1 ->
  exists t2, exec cfg m op s2 = XOk t2 c1 f1 /\ srel ex t1 t2.
Proof.
  intros P R E.
  assert (A : forall a b, srel ex a b <-> agree ex true all_cells a b)
    by (destruct ex; [apply eq_state_agree|apply eq_mod_nz_agree]).
  assert (X : xagree (ex || defines_nz m) true all_cells (exec cfg m op s1) (exec cfg m op s2)).
  { apply exec_agree; [apply A, R| |split; [reflexivity|exact I]|intros; exact I].
    destruct m; try discriminate P; discriminate. }
  rewrite E in X. destruct (exec cfg m op s2) as [t2 c2 f2|w2]; [|contradiction].
  destruct X as (<- & <- & X). exists t2. split; [reflexivity|].
  apply A, (agree_weaken (ex || defines_nz m)); [intros ->; reflexivity|exact X].
Qed.

Lemma exec_app (cfg : config) (a b : code) :
  forall s, exec_straight cfg (a ++ b) s =
            match exec_straight cfg a s with Some s' => exec_straight cfg b s' | None => None end.
Proof.
  induction a as [|x a IH]; intros s; [reflexivity|].
  destruct x as [l|i|t sz|cm|]; cbn [app exec_straight]; try reflexivity; try apply IH.
  destruct (parse_operand (i_mn i) (i_op i)) as [op|]; [|reflexivity].
  destruct (exec cfg (i_mn i) op s) as [s' c f|w]; [|reflexivity].
  destruct f; try reflexivity. apply IH.
Qed.

Lemma exec_skip (cfg : config) (l : code) :
  forallb skip_line l = true -> forall s, exec_straight cfg l s = Some s.
Proof.
  induction l as [|x l IH]; intros H s; [reflexivity|].
  cbn [forallb] in H. apply andb_true_iff in H. destruct H as [H1 H2].
  destruct x; try discriminate H1; cbn [exec_straight]; apply IH; exact H2.
Qed.

Lemma exec_skip_app (cfg : config) (l r : code) (s : mstate) :
  forallb skip_line l = true -> exec_straight cfg (l ++ r) s = exec_straight cfg r s.
Proof. intros H. rewrite exec_app, (exec_skip cfg l H). reflexivity. Qed.

Lemma skip_rev (l : code) : forallb skip_line l = true -> forallb skip_line (rev l) = true.
Proof. intros H. rewrite OptFacts.forallb_rev. exact H. Qed.

Lemma exec_ins (cfg : config) (i : instr) (r : code) (s s' : mstate) :
  steps_to cfg i s s' -> exec_straight cfg (Ins i :: r) s = exec_straight cfg r s'.
Proof. intros (op & c & P & E). cbn [exec_straight]. rewrite P, E. reflexivity. Qed.

Lemma exec_ins_inv (cfg : config) (i : instr) (r : code) (s t : mstate) :
  exec_straight cfg (Ins i :: r) s = Some t ->
  exists s', steps_to cfg i s s' /\ exec_straight cfg r s' = Some t.
Proof.
  cbn [exec_straight]. intros H.
  destruct (parse_operand (i_mn i) (i_op i)) as [op|] eqn:P; [|discriminate H].
  destruct (exec cfg (i_mn i) op s) as [s' c f|w] eqn:E; [|discriminate H].
  destruct f; try discriminate H. exists s'. split; [|exact H]. exists op, c. auto.
Qed.

Lemma straight_ok_cons (cfg : config) (x : line) (c : code) :
  straight_ok cfg (x :: c) = true -> line_ok cfg x = true /\ straight_ok cfg c = true.
Proof. unfold straight_ok. cbn [forallb]. intros H. apply andb_true_iff in H. exact H. Qed.

Lemma line_ok_ins (cfg : config) (i : instr) :
  line_ok cfg (Ins i) = true -> plain (i_mn i) = true /\ ins_ok cfg i = true.
Proof. cbn [line_ok]. intros H. apply andb_true_iff in H. exact H. Qed.

Lemma exec_straight_rel (ex : bool) (cfg : config) (c : code) :
  straight_ok cfg c = true ->
  forall s1 s2 t1, srel ex s1 s2 -> exec_straight cfg c s1 = Some t1 ->
  exists t2, exec_straight cfg c s2 = Some t2 /\ srel ex t1 t2.
Proof.
  induction c as [|x c IH]; intros OK s1 s2 t1 R E.
  - cbn in E. inversion E; subst. exists s2. split; [reflexivity|exact R].
  - apply straight_ok_cons in OK. destruct OK as [OK1 OK2].
    destruct x as [l|i|t sz|cm|]; try discriminate OK1.
    + apply line_ok_ins in OK1. destruct OK1 as [PL _].
      cbn [exec_straight] in E |- *.
      destruct (parse_operand (i_mn i) (i_op i)) as [op|]; [|discriminate E].
      destruct (exec cfg (i_mn i) op s1) as [u1 c1 f1|w1] eqn:E1; [|discriminate E].
      destruct (exec_plain_rel ex cfg _ op s1 s2 u1 c1 f1 PL R E1) as (u2 & E2 & R2).
      rewrite E2. destruct f1; try discriminate E. exact (IH OK2 u1 u2 t1 R2 E).
    + cbn [exec_straight] in E |- *. exact (IH OK2 s1 s2 t1 R E).
    + cbn [exec_straight] in E |- *. exact (IH OK2 s1 s2 t1 R E).
Qed.

Lemma know_sound_kregs (cfg : config) (k : know) (s : mstate) :
  know_sound cfg k s -> know_sound cfg (kregs k) s.
Proof.
  intros (KA & KX & KY & _). unfold know_sound, kregs. cbn [k_acc k_x k_y k_flags].
  repeat split; try assumption; discriminate.
Qed.

Lemma know_sound_eq (cfg : config) (k : know) (s s' : mstate) :
  eq_state s s' -> know_sound cfg k s -> know_sound cfg k s'.
Proof.
  intros ((HA & HX & HY & HS & HV & HC & HM) & HN & HZ) (KA & KX & KY & KF).
  assert (MM : forall a, mget (mem s') a = mget (mem s) a) by (intros a; symmetry; apply HM).
  unfold know_sound. rewrite <- HA, <- HX, <- HY, <- HN, <- HZ.
  split; [|split; [|split; [|exact KF]]].
  - intros o Ho.
    eapply holds_frame; [reflexivity|apply KA; exact Ho|right; congruence|right; congruence|right; exact MM].
  - intros o Ho.
    eapply holds_frame; [reflexivity|apply KX; exact Ho|right; congruence|right; congruence|right; exact MM].
  - intros o Ho.
    eapply holds_frame; [reflexivity|apply KY; exact Ho|right; congruence|right; congruence|right; exact MM].
Qed.

Lemma transfer_flag_setter (k : know) (i : instr) (a : list line) :
  is_flag_setter (i_mn i) = true -> transfer k i a = (k, false).
Proof. unfold transfer. destruct (i_mn i); intros H; try discriminate H; reflexivity. Qed.

Lemma operand_ok_no_zpy (cfg : config) (op : operand) : operand_ok cfg op = true -> ~ zp_y_op cfg op.
Proof.
  destruct op as [|v|y k ix|y k|l]; cbn; try tauto.
  destruct ix; try tauto. intros H (a0 & E & L). rewrite E in H. apply Z.leb_le in H. lia.
Qed.

Lemma plain_no_label (m : mnem) : plain m = true -> takes_label m = false.
Proof. destruct m; intros H; try discriminate H; reflexivity. Qed.

Lemma ins_ok_ind_legal (cfg : config) (i : instr) : ins_ok cfg i = true -> ind_legal i.
Proof.
  unfold ins_ok, ind_legal. intros H y k P. rewrite P in H. discriminate H.
Qed.

Lemma ins_ok_ptr_not_hit (cfg : config) (i : instr) (s : mstate) :
  ins_ok cfg i = true -> ptr_not_hit cfg i s.
Proof.
  unfold ins_ok, ptr_not_hit. intros H y k a0 a md cr P. rewrite P in H. discriminate H.
Qed.

Lemma know_ops_ok_xfer (cfg : config) (k : know) (i : instr) :
  know_ops_ok cfg k -> xfer_no_zp_y cfg k i.
Proof.
  intros H. split; intros _ o op Ho P; apply operand_ok_no_zpy.
  - apply (H o op); auto.
  - apply (H o op); auto.
Qed.

Lemma know_ops_ok_kregs (cfg : config) (k : know) : know_ops_ok cfg k -> know_ops_ok cfg (kregs k).
Proof. intros H o op Ho. apply H. exact Ho. Qed.

Definition kstr (k : know) (o : string) : Prop :=
  k_acc k = Some o \/ k_x k = Some o \/ k_y k = Some o.

Lemma transfer_strs (k : know) (i : instr) (a : list line) (o : string) :
  kstr (fst (transfer k i a)) o -> kstr k o \/ o = i_op i.
Proof.
  unfold kstr, transfer.
  destruct (i_mn i); cbn [fst k_acc k_x k_y]; try (intros H; left; exact H);
    try (destruct (String.eqb (i_op i) ""); cbn [fst k_acc k_x k_y]);
    try (match goal with |- context [match k_acc k with _ => _ end] => destruct (k_acc k) as [v|] eqn:EA end;
         try match goal with |- context [if ?b then _ else _] => destruct b end;
         cbn [fst k_acc k_x k_y]);
    intros [H|[H|H]]; try discriminate H; try (apply kill_if_some in H; destruct H as [H _]);
    try rewrite EA; auto; right; congruence.
Qed.

Lemma know_ops_ok_transfer (cfg : config) (k : know) (i : instr) (a : list line) :
  plain (i_mn i) = true -> ins_ok cfg i = true -> know_ops_ok cfg k ->
  know_ops_ok cfg (fst (transfer k i a)).
Proof.
  intros PL OK H o op Ho P. destruct (transfer_strs k i a o Ho) as [K| ->].
  - exact (H o op K P).
  - unfold ins_ok in OK.
    rewrite (parse_operand_mnem LDA (i_mn i)) in P by (try reflexivity; apply plain_no_label; exact PL).
    rewrite P in OK. exact OK.
Qed.

Lemma transfer_sound_kept (cfg : config) (k : know) (i : instr) (a : list line) (s s' : mstate) :
  ports cfg = [] -> bytes_ok s -> plain (i_mn i) = true -> ins_ok cfg i = true ->
  know_ops_ok cfg k -> know_sound cfg k s -> steps_to cfg i s s' ->
  snd (transfer k i a) = false ->
  know_sound cfg (fst (transfer k i a)) s'.
Proof.
  intros HP HB PL OK KO KS ST R.
  apply (transfer_sound cfg k i a s s'); auto.
  - intros [E|E]; rewrite E in PL; discriminate PL.
  - apply (ins_ok_ind_legal cfg); exact OK.
  - apply know_ops_ok_xfer; exact KO.
Qed.

(** an LDA when nothing is known about A: kept, and the flags component is overwritten *)
Lemma transfer_lda_fresh (k : know) (i : instr) (a : list line) :
  i_mn i = LDA -> k_acc k = None ->
  transfer k i a = (mkK (Some (i_op i)) (k_x k) (k_y k) FA, false).
Proof. unfold transfer. intros -> ->. reflexivity. Qed.

Lemma know_sound_lda_fresh (cfg : config) (k : know) (i : instr) (a : list line) (s s' : mstate) :
  ports cfg = [] -> bytes_ok s -> plain (i_mn i) = true -> ins_ok cfg i = true ->
  i_mn i = LDA -> k_acc k = None ->
  know_ops_ok cfg k -> know_sound cfg (kregs k) s -> steps_to cfg i s s' ->
  know_sound cfg (fst (transfer k i a)) s'.
Proof.
  intros HP HB PL OK M A KO KS ST.
  rewrite (transfer_lda_fresh k i a M A).
  pose proof (transfer_lda_fresh (kregs k) i a M A) as T. cbn [kregs k_x k_y] in T.
  pose proof (transfer_sound_kept cfg (kregs k) i a s s' HP HB PL OK (know_ops_ok_kregs cfg k KO) KS ST) as H.
  rewrite T in H. exact (H eq_refl).
Qed.

Lemma analyse_start (i : instr) (a : list line) :
  analyse_load AlStart k_init i = (if is_load (i_mn i) then fst (transfer k_init i a) else k_init) /\
  snd (transfer k_init i a) = false.
Proof.
  unfold analyse_load, transfer, k_init.
  destruct (i_mn i); split; try reflexivity; destruct (String.eqb (i_op i) ""); reflexivity.
Qed.

Lemma know_sound_init (cfg : config) (s : mstate) : know_sound cfg k_init s.
Proof. unfold know_sound, k_init. cbn. repeat split; discriminate. Qed.

Lemma know_ops_ok_init (cfg : config) : know_ops_ok cfg k_init.
Proof. intros o op [H|[H|H]]; discriminate H. Qed.

Lemma cmp_rule_branch (reg : option string) (m : mnem) (i1 i2 : instr) :
  cmp_rule reg m i1 i2 = true -> plain (i_mn i2) = false.
Proof.
  unfold cmp_rule. destruct reg as [r|]; [|discriminate].
  destruct (is_imm r && mnem_eqb (i_mn i1) m && is_imm (i_op i1)); [|discriminate].
  destruct (i_mn i2); try discriminate; reflexivity.
Qed.

Lemma pair_rules_rb_plain (k : know) (i1 i2 : instr) :
  plain (i_mn i2) = true -> fst (fst (fst (pair_rules k i1 i2))) = false.
Proof.
  intros PL. destruct (fst (fst (fst (pair_rules k i1 i2)))) eqn:E; [exfalso|reflexivity].
  unfold pair_rules in E. cbv beta zeta in E. cbn [fst snd] in E. OptFacts.bsplit;
    try (match goal with H : i_mn i2 = _ |- _ => rewrite H in PL; discriminate PL end);
    match goal with H : cmp_rule _ _ _ _ = true |- _ => apply cmp_rule_branch in H; congruence end.
Qed.

(** the shapes of remove_second by a pair rule; "STA o; LDA o" and "ORA #0" fire only when the
    knowledge says that N/Z describe A *)
Definition rs0_shape (k : know) (i1 i2 : instr) : Prop :=
  (i_mn i1 = STA /\ i_mn i2 = LDA /\ i_op i1 = i_op i2 /\ k_flags k = FA) \/
  (((i_mn i1 = LDA /\ i_mn i2 = STA) \/ (i_mn i1 = LDX /\ i_mn i2 = STX) \/
    (i_mn i1 = LDY /\ i_mn i2 = STY)) /\ i_op i1 = i_op i2) \/
  ((i_mn i1 = TAX /\ i_mn i2 = TXA) \/ (i_mn i1 = TXA /\ i_mn i2 = TAX) \/
   (i_mn i1 = TAY /\ i_mn i2 = TYA) \/ (i_mn i1 = TYA /\ i_mn i2 = TAY)) \/
  (i_mn i2 = ORA /\ i_op i2 = "#0"%string /\ k_flags k = FA).

Lemma pair_rules_rs0 (k : know) (i1 i2 : instr) :
  snd (fst (pair_rules k i1 i2)) = true ->
  rs0_shape k i1 i2 \/ (i_mn i1 = JMP /\ i_mn i2 = JMP).
Proof.
  intros E. unfold pair_rules in E. cbv beta zeta in E. cbn [fst snd] in E. unfold rs0_shape.
  OptFacts.bsplit; tauto.
Qed.

(** the shape of remove_first: two loads of the same register *)
Definition rf_shape (i1 i2 : instr) : Prop :=
  (i_mn i1 = LDA /\ i_mn i2 = LDA) \/ (i_mn i1 = LDX /\ i_mn i2 = LDX) \/
  (i_mn i1 = LDY /\ i_mn i2 = LDY).

Lemma pair_rules_rf_shape (k : know) (i1 i2 : instr) :
  snd (fst (fst (pair_rules k i1 i2))) = true -> rf_shape i1 i2.
Proof.
  intros E. unfold pair_rules in E. cbv beta zeta in E. cbn [fst snd] in E. unfold rf_shape. OptFacts.bsplit; auto.
Qed.

Lemma flag_setter_cases (m : mnem) : is_flag_setter m = true -> m = SEC \/ m = CLC.
Proof. destruct m; intros H; try discriminate H; auto. Qed.

Lemma rs0_shape_not_flag_setter (k : know) (i1 i2 : instr) :
  rs0_shape k i1 i2 ->
  (is_flag_setter (i_mn i1) = true /\ i_mn i2 = LDA) \/ (i_mn i1 = LDA /\ is_flag_setter (i_mn i2) = true) ->
  False.
Proof.
  intros H [[F L]|[L F]]; apply flag_setter_cases in F; unfold rs0_shape in H;
    destruct F as [F|F]; rewrite F, L in H; intuition congruence.
Qed.

Lemma steps_bytes (cfg : config) (i : instr) (s s' : mstate) :
  steps_to cfg i s s' -> bytes_ok s -> bytes_ok s'.
Proof. intros (op & c & _ & E) B. exact (GenTemplatesFacts.exec_bytes_ok _ _ _ _ _ _ _ E B). Qed.

(** remove_second by a pair rule: the second instruction changes nothing *)
Lemma rs0_sound (cfg : config) (k : know) (i1 i2 : instr) (s1 s2 s3 : mstate) :
  ports cfg = [] -> bytes_ok s1 -> ptr_not_hit cfg i1 s1 -> ind_legal i1 ->
  rs0_shape k i1 i2 -> know_sound cfg k s2 ->
  steps_to cfg i1 s1 s2 -> steps_to cfg i2 s2 s3 -> eq_state s3 s2.
Proof.
  intros HP HB PH IL SH KS ST1 ST2.
  destruct SH as [(M1 & M2 & EO & FA)|[(MM & EO)|[MM|(M2 & O2 & FA)]]].
  - apply (rule_sta_lda_exact cfg k i1 i2 s1 s2 s3); auto.
  - apply (rule_ld_st cfg i1 i2 s1 s2 s3); auto.
  - apply (rule_transfer_pair cfg i1 i2 s1 s2 s3); auto.
  - apply (rule_ora_zero_exact cfg k i2 s2 s3); auto.
    exact (steps_bytes cfg i1 s1 s2 ST1 HB).
Qed.

Lemma transfer_rs_known (k : know) (i : instr) (a : list line) :
  snd (transfer k i a) = true ->
  (i_mn i = LDA /\ k_acc k = Some (i_op i)) \/ (i_mn i = LDX /\ k_x k = Some (i_op i)) \/
  (i_mn i = LDY /\ k_y k = Some (i_op i)).
Proof.
  unfold transfer. intros R.
  destruct (i_mn i) eqn:M; cbn [snd] in R; try discriminate R;
    try (destruct (String.eqb (i_op i) ""); discriminate R);
    try (destruct (k_acc k) as [va|]; [destruct (ends_x va)|]; discriminate R);
    try (destruct (k_acc k) as [va|]; [destruct (ends_y va)|]; discriminate R).
  - destruct (opt_eqb (k_acc k) (i_op i)) eqn:EQ; [|discriminate R]. apply opt_eqb_true in EQ. auto.
  - destruct (opt_eqb (k_x k) (i_op i)) eqn:EQ; [|discriminate R]. apply opt_eqb_true in EQ. auto.
  - destruct (opt_eqb (k_y k) (i_op i)) eqn:EQ; [|discriminate R]. apply opt_eqb_true in EQ. auto.
Qed.

Lemma flag_setter_inv (cfg : config) (i : instr) (s t : mstate) :
  is_flag_setter (i_mn i) = true -> steps_to cfg i s t -> exists b, t = set_c s b.
Proof.
  intros F (op & c & P & E). apply flag_setter_cases in F.
  destruct F as [F|F]; rewrite F in E; injection E as <- _; eauto.
Qed.

(** the swap: the knowledge about X and Y survives, nothing is claimed about A *)
Lemma swap_know (cfg : config) (k : know) (i1 : instr) (s1 s2 : mstate) (b : bool) :
  i_mn i1 = LDA -> steps_to cfg i1 s1 s2 -> know_sound cfg (kregs k) s2 ->
  know_sound cfg (kregs (mkK None (k_x k) (k_y k) (k_flags k))) (set_c s1 b).
Proof.
  intros M (op & c & P & E) (_ & KX & KY & _).
  rewrite M in E. apply exec_rd_inv in E; [|reflexivity]. destruct E as (v & _ & ->).
  cbn [kregs k_acc k_x k_y k_flags] in *.
  unfold know_sound. cbn [k_acc k_x k_y k_flags].
  split; [discriminate|]. split; [|split; [|repeat split; discriminate]].
  - intros o Ho. apply (holds_frame cfg LDX (set_nz (set_a s1 v) v)); [reflexivity|exact (KX o Ho)| | |];
      right; intros; reflexivity.
  - intros o Ho. apply (holds_frame cfg LDY (set_nz (set_a s1 v) v)); [reflexivity|exact (KY o Ho)| | |];
      right; intros; reflexivity.
Qed.

(** an instruction that sets both N and Z, whatever they were, is still to be executed (in
    straight-line code nothing reads N/Z before it) *)
Definition nz_redefined (l : list line) : bool :=
  existsb (fun x => match x with Ins j => defines_nz (i_mn j) | _ => false end) l.

Lemma exec_straight_redefined (cfg : config) (c : code) :
  straight_ok cfg c = true -> nz_redefined c = true ->
  forall s1 s2 t1, eq_mod_nz s1 s2 -> exec_straight cfg c s1 = Some t1 ->
  exists t2, exec_straight cfg c s2 = Some t2 /\ eq_state t1 t2.
Proof.
  induction c as [|x c IH]; intros OK NR s1 s2 t1 R E; [discriminate NR|].
  apply straight_ok_cons in OK. destruct OK as [OK1 OK2].
  unfold nz_redefined in NR. cbn [existsb] in NR. fold (nz_redefined c) in NR.
  destruct x as [l|i|t sz|cm|]; try discriminate OK1.
  - apply line_ok_ins in OK1. destruct OK1 as [PL _].
    cbn [exec_straight] in E |- *.
    destruct (parse_operand (i_mn i) (i_op i)) as [op|]; [|discriminate E].
    destruct (exec cfg (i_mn i) op s1) as [u1 c1 f1|w1] eqn:E1; [|discriminate E].
    destruct (defines_nz (i_mn i)) eqn:D.
    + pose proof (defines_nz_dead cfg (i_mn i) op s1 s2 D R) as O. rewrite E1 in O.
      destruct (exec cfg (i_mn i) op s2) as [u2 c2 f2|w2]; cbn in O; [|contradiction].
      destruct O as (-> & -> & O). destruct f2; try discriminate E.
      exact (exec_straight_rel true cfg c OK2 u1 u2 t1 O E).
    + cbn [orb] in NR.
      destruct (exec_plain_rel false cfg _ op s1 s2 u1 c1 f1 PL R E1) as (u2 & E2 & R2).
      rewrite E2. destruct f1; try discriminate E. exact (IH OK2 NR u1 u2 t1 R2 E).
  - cbn [orb] in NR. cbn [exec_straight] in E |- *. exact (IH OK2 NR s1 s2 t1 R E).
  - cbn [orb] in NR. cbn [exec_straight] in E |- *. exact (IH OK2 NR s1 s2 t1 R E).
Qed.

(** both look-aheads of the optimiser guarantee it: what they look at is a stretch of plain
    instructions and skipped lines, then an instruction that defines N and Z -- at the time of the
    removal; the instruction looked at may be removed later, by a rewriting that is justified on
    its own *)
Definition plain_line (x : line) : Prop :=
  match x with Ins i => plain (i_mn i) = true | Cmt _ | Dummy => True | _ => False end.

Lemma lookahead_split (ahead : list line) :
  lda_lookahead ahead = true \/ ldxy_lookahead ahead = true ->
  exists P j R, ahead = P ++ Ins j :: R /\ Forall plain_line P /\ defines_nz (i_mn j) = true.
Proof.
  intros [H|H].
  - unfold lda_lookahead in H. destruct ahead as [|[l|j1|tx sz|cm|] t]; try discriminate H.
    destruct (i_mn j1) eqn:M; try discriminate H.
    + assert (P1 : plain_line (Ins j1)) by (cbn; rewrite M; reflexivity).
      destruct t as [|[l|j2|tx sz|cm|] t']; try discriminate H.
      * exists [Ins j1], j2, t'. repeat split; [repeat constructor; exact P1|exact (is_load_defines_nz _ H)].
      * destruct t' as [|[l|j3|tx sz|cm|] t'']; try discriminate H.
        exists [Ins j1; Dummy], j3, t''.
        repeat split; [repeat constructor; exact P1|exact (is_load_defines_nz _ H)].
    + exists [], j1, t. repeat split; [constructor|rewrite M; reflexivity].
  - induction ahead as [|x t IH]; [discriminate H|].
    destruct x as [l|j|tx sz|cm|]; cbn [ldxy_lookahead] in H; try discriminate H.
    + exists [], j, t. repeat split; [constructor|exact H].
    + destruct (IH H) as (P & j & R & -> & FP & D). exists (Cmt cm :: P), j, R.
      repeat split; [constructor; [exact I|exact FP]|exact D].
    + destruct (IH H) as (P & j & R & -> & FP & D). exists (Dummy :: P), j, R.
      repeat split; [constructor; [exact I|exact FP]|exact D].
Qed.

Lemma nz_redefined_mid (P R : list line) (j : instr) :
  defines_nz (i_mn j) = true -> nz_redefined (P ++ Ins j :: R) = true.
Proof. intros D. unfold nz_redefined. rewrite existsb_app. cbn [existsb]. rewrite D. apply orb_true_r. Qed.

(** remove_second by [transfer]: the load changes nothing but N and Z, and the rest of the code
    cannot tell *)
Lemma removal_tail (cfg : config) (k : know) (i : instr) (ahead : code) (s s' sE : mstate) :
  ports cfg = [] -> straight_ok cfg ahead = true ->
  know_sound cfg k s -> steps_to cfg i s s' -> snd (transfer k i ahead) = true ->
  exec_straight cfg ahead s' = Some sE ->
  exists sE', exec_straight cfg ahead s = Some sE' /\ eq_state sE sE'.
Proof.
  intros HP OK KS ST R E.
  destruct (removal_sound cfg k i ahead s s' HP KS ST R) as [NZ [H|H]].
  - exact (exec_straight_rel true cfg ahead OK s' s sE H E).
  - destruct (lookahead_split ahead) as (P & j & R0 & EA & _ & D); [tauto|].
    apply (exec_straight_redefined cfg ahead OK) with (s1 := s'); [rewrite EA; exact (nz_redefined_mid P R0 j D)|exact NZ|exact E].
Qed.

Lemma pswap_true (z : zst) (i2 : instr) (ahead : list line) :
  z_rest z = Ins i2 :: ahead -> pswap z = true ->
  is_flag_setter (i_mn (z_f z)) = true /\ i_mn i2 = LDA /\ k_acc (z_k z) = None.
Proof.
  unfold pswap. intros -> H. apply andb_true_iff in H. destruct H as [H1 H2].
  apply andb_true_iff in H2. destruct H2 as [H2 H3]. apply mnem_eqb_eq in H2.
  destruct (k_acc (z_k z)); [discriminate H3|]. auto.
Qed.

(** when remove_both does not fire: the five outcomes, with what is known of the two instructions
    in each; a removal never follows a swap at once ([pswap] is off) *)
Lemma step_pair_cases (pre : list line) (i1 : instr) (mid : list line) (i2 : instr)
      (ahead : list line) (k : know) (n : N) :
  let z := mkZ pre i1 mid (Ins i2 :: ahead) k n in
  let k1 := fst (transfer k i2 ahead) in
  fst (fst (fst (pair_rules k i1 i2))) = false ->
  (i_mn i1 = LDA /\ is_flag_setter (i_mn i2) = true /\
   step_pair z i2 ahead = Next (mkZ pre i2 mid (Ins i1 :: ahead) (mkK None (k_x k) (k_y k) (k_flags k)) n)) \/
  (pswap z = false /\ (rs0_shape k i1 i2 \/ (i_mn i1 = JMP /\ i_mn i2 = JMP)) /\
   step_pair z i2 ahead = Next (mkZ pre i1 (Dummy :: mid) ahead k (n + 1)%N)) \/
  (pswap z = false /\ snd (transfer k i2 ahead) = true /\
   step_pair z i2 ahead = Next (mkZ pre i1 (Dummy :: mid) ahead k1 (n + 1)%N)) \/
  (pswap z = false /\ snd (transfer k i2 ahead) = false /\
   rf_shape i1 i2 /\
   step_pair z i2 ahead = Next (mkZ (mid ++ Dummy :: pre) i2 [] ahead k1 (n + 1)%N)) \/
  (snd (transfer k i2 ahead) = false /\
   step_pair z i2 ahead = Next (mkZ (mid ++ Ins i1 :: pre) i2 [] ahead k1 n)).
Proof.
  intros z k1 RB.
  assert (PSW : pswap z = true -> is_flag_setter (i_mn i1) = true /\ i_mn i2 = LDA /\ k_acc k = None)
    by (exact (pswap_true z i2 ahead eq_refl)).
  pose proof (pair_rules_rs0 k i1 i2) as SH.
  pose proof (pair_rules_rf_shape k i1 i2) as RF.
  pose proof (OptFacts.pair_rules_sw k i1 i2) as SW.
  pose proof (transfer_rs_known k i2 ahead) as TK.
  unfold step_pair, k1. cbn [z z_pre z_f z_mid z_rest z_k z_removed].
  destruct (pair_rules k i1 i2) as [[[rb rf] rs0] sw]. cbn [fst snd] in RB, SH, RF, SW. subst rb.
  destruct sw.
  - left. destruct (SW eq_refl) as [M1 F2].
    assert (RS0 : rs0 = false).
    { destruct rs0; [|reflexivity]. exfalso. destruct (SH eq_refl) as [S|[_ MJ]].
      - exact (rs0_shape_not_flag_setter k i1 i2 S (or_intror (conj M1 F2))).
      - apply flag_setter_cases in F2. destruct F2; congruence. }
    subst rs0. cbn [negb andb]. rewrite (transfer_flag_setter k i2 ahead F2). auto.
  - right. destruct rs0; cbn [negb andb].
    + left. split; [|split; [exact (SH eq_refl)|reflexivity]].
      destruct (pswap z) eqn:PS; [exfalso|reflexivity]. destruct (PSW eq_refl) as (F & L & _).
      destruct (SH eq_refl) as [S|[MJ _]].
      * exact (rs0_shape_not_flag_setter k i1 i2 S (or_introl (conj F L))).
      * apply flag_setter_cases in F. destruct F; congruence.
    + right. destruct (transfer k i2 ahead) as [k' rs]. cbn [fst snd] in *. destruct rs.
      * left. split; [|split; reflexivity].
        destruct (pswap z) eqn:PS; [exfalso|reflexivity]. destruct (PSW eq_refl) as (F & L & A).
        destruct (TK eq_refl) as [[_ H]|[[H _]|[H _]]]; congruence.
      * right. destruct rf.
        -- left. split; [|split; [reflexivity|split; [exact (RF eq_refl)|reflexivity]]].
           destruct (pswap z) eqn:PS; [exfalso|reflexivity]. destruct (PSW eq_refl) as (F & L & A).
           apply flag_setter_cases in F.
           destruct (RF eq_refl) as [[H _]|[[H _]|[H _]]]; destruct F; congruence.
        -- right. split; reflexivity.
Qed.

Section Sim.
  Variables (cfg : config) (s0 sF : mstate).
  Hypothesis HP : ports cfg = [].

  (** what a step must deliver: a final code that executes to a state equal to [sF], or a new
      zipper state satisfying the invariant *)
  Definition Res (r : step_result) : Prop :=
    match r with
    | Done c _ => exists sE, exec_straight cfg c s0 = Some sE /\ eq_state sE sF
    | Next z' => Inv cfg s0 sF z'
    end.

  Lemma Inv_intro (z : zst) (s1 s2 sE : mstate) :
    plain (i_mn (z_f z)) = true -> ins_ok cfg (z_f z) = true ->
    forallb skip_line (z_mid z) = true -> straight_ok cfg (z_rest z) = true ->
    know_ops_ok cfg (z_k z) ->
    exec_straight cfg (rev (z_pre z)) s0 = Some s1 -> bytes_ok s1 ->
    steps_to cfg (z_f z) s1 s2 ->
    know_sound cfg (z_k z) s2 \/ (pswap z = true /\ know_sound cfg (kregs (z_k z)) s2) ->
    exec_straight cfg (z_rest z) s2 = Some sE -> eq_state sE sF ->
    Inv cfg s0 sF z.
  Proof.
    intros PF OF MID RST KOK E1 B1 ST KS E2 REL.
    unfold Inv. repeat (split; [assumption|]). exists s1, s2, sE.
    repeat (split; [assumption|]). split; [|split; [|exact REL]].
    - destruct KS as [KS|[PS KS]].
      + destruct (pswap z); [apply know_sound_kregs|]; exact KS.
      + rewrite PS. exact KS.
    - rewrite (exec_skip_app cfg _ _ s2 (skip_rev _ MID)). exact E2.
  Qed.

  Lemma exec_pre (pre mid : list line) (x : line) (s1 s2 : mstate) :
    exec_straight cfg (rev pre) s0 = Some s1 -> exec_straight cfg [x] s1 = Some s2 ->
    forallb skip_line mid = true ->
    exec_straight cfg (rev (mid ++ x :: pre)) s0 = Some s2.
  Proof.
    intros E X M. rewrite rev_app_distr. cbn [rev]. rewrite <- app_assoc.
    rewrite exec_app, E, (exec_app cfg [x]), X. apply exec_skip. apply skip_rev. exact M.
  Qed.

  (** (P)+(T)+(A): every branch of [step_pair] *)
  Lemma step_pair_inv (z : zst) (i2 : instr) (ahead : list line) :
    z_rest z = Ins i2 :: ahead -> Inv cfg s0 sF z -> Res (step_pair z i2 ahead).
  Proof.
    intros ER (PF & OF & MID & RST & KOK & s1 & s2 & sE & E1 & B1 & ST1 & KS & E2 & REL).
    assert (KS' : pswap z = false -> know_sound cfg (z_k z) s2).
    { intros E. rewrite E in KS. exact KS. }
    assert (KSw : know_sound cfg (kregs (z_k z)) s2).
    { destruct (pswap z); [exact KS|apply know_sound_kregs; exact KS]. }
    pose proof (pswap_true z i2 ahead ER) as PSW.
    destruct z as [pre i1 mid rest k n]. cbn [z_pre z_f z_mid z_rest z_k z_removed] in *. subst rest.
    apply straight_ok_cons in RST. destruct RST as [L2 RST].
    apply line_ok_ins in L2. destruct L2 as [P2 O2].
    rewrite (exec_skip_app cfg _ _ s2 (skip_rev _ MID)) in E2.
    apply exec_ins_inv in E2. destruct E2 as (s3 & ST2 & E3).
    pose proof (steps_bytes cfg _ _ _ ST1 B1) as B2.
    pose proof (transfer_sound_kept cfg k i2 ahead s2 s3 HP B2 P2 O2 KOK) as KT.
    pose proof (know_ops_ok_transfer cfg k i2 ahead P2 O2 KOK) as KOK1.
    destruct (step_pair_cases pre i1 mid i2 ahead k n (pair_rules_rb_plain k i1 i2 P2))
      as [(M1 & F2 & ->)|[(PS & SH & ->)|[(PS & R & ->)|[(PS & R & RF & ->)|(R & ->)]]]]; cbn [Res].
    - (* swap: the flags component is stale for one step *)
      destruct (rule_swap_lda_carry cfg i1 i2 s1 s2 s3 M1 (flag_setter_cases _ F2) ST1 ST2)
        as (t1 & t2 & T1 & T2 & TE).
      destruct (flag_setter_inv cfg i2 s1 t1 F2 T1) as (b & ->).
      destruct (exec_straight_rel true cfg ahead RST s3 t2 sE (eq_state_sym _ _ TE) E3)
        as (sE' & E3' & RE).
      apply (Inv_intro _ s1 (set_c s1 b) sE'); cbn [z_pre z_f z_mid z_rest z_k]; try assumption.
      + unfold straight_ok. cbn [forallb line_ok]. rewrite PF, OF. exact RST.
      + intros o op [H|[H|H]] P; cbn [k_acc k_x k_y] in H; [discriminate H| |];
          apply (KOK o op); auto.
      + right. split.
        * unfold pswap. cbn [z_f z_rest z_k k_acc]. rewrite F2, M1. reflexivity.
        * apply (swap_know cfg k i1 s1 s2 b M1 ST1 KSw).
      + rewrite (exec_ins cfg i1 _ _ t2 T2). exact E3'.
      + exact (eq_state_trans _ _ _ (eq_state_sym _ _ RE) REL).
    - (* remove_second by a pair rule: knowledge unchanged, and the state it describes too *)
      destruct SH as [SH|[_ MJ]]; [|rewrite MJ in P2; discriminate P2].
      pose proof (KS' PS) as KSf.
      pose proof (rs0_sound cfg k i1 i2 s1 s2 s3 HP B1 (ins_ok_ptr_not_hit cfg i1 s1 OF)
                    (ins_ok_ind_legal cfg i1 OF) SH KSf ST1 ST2) as R32.
      destruct (exec_straight_rel true cfg ahead RST s3 s2 sE R32 E3) as (sE' & E3' & RE).
      apply (Inv_intro _ s1 s2 sE'); cbn [z_pre z_f z_mid z_rest z_k]; try assumption.
      + left. exact KSf.
      + exact (eq_state_trans _ _ _ (eq_state_sym _ _ RE) REL).
    - (* remove_second by [transfer]: the knowledge returned describes the state in which the
         load is not executed *)
      pose proof (KS' PS) as KSf.
      destruct (removal_tail cfg k i2 ahead s2 s3 sE HP RST KSf ST2 R E3) as (sE' & E3' & RE).
      apply (Inv_intro _ s1 s2 sE'); cbn [z_pre z_f z_mid z_rest z_k]; try assumption.
      + left. exact (transfer_removed_sound cfg k i2 ahead s2 KSf R).
      + exact (eq_state_trans _ _ _ (eq_state_sym _ _ RE) REL).
    - pose proof (KS' PS) as KSf.
      destruct (rule_load_load cfg i1 i2 s1 s2 s3 RF (ins_ok_ind_legal cfg i2 O2) ST1 ST2)
        as (s2' & ST2' & EQ).
      destruct (exec_straight_rel true cfg ahead RST s3 s2' sE (eq_state_sym _ _ EQ) E3)
        as (sE' & E3' & RE).
      apply (Inv_intro _ s1 s2' sE'); cbn [z_pre z_f z_mid z_rest z_k]; try assumption.
      + reflexivity.
      + apply (exec_pre pre mid Dummy s1 s1); [assumption|reflexivity|assumption].
      + left. apply (know_sound_eq cfg _ s3 s2' (eq_state_sym _ _ EQ)). exact (KT KSf ST2 R).
      + exact (eq_state_trans _ _ _ (eq_state_sym _ _ RE) REL).
    - (* nothing removed: advance *)
      apply (Inv_intro _ s2 s3 sE); cbn [z_pre z_f z_mid z_rest z_k]; try assumption.
      + reflexivity.
      + apply (exec_pre pre mid (Ins i1) s1 s2); [assumption|exact (exec_ins cfg i1 [] s1 s2 ST1)|assumption].
      + left. destruct (pswap (mkZ pre i1 mid (Ins i2 :: ahead) k n)) eqn:PS.
        * destruct (PSW eq_refl) as (F & L & A).
          exact (know_sound_lda_fresh cfg k i2 ahead s2 s3 HP B2 P2 O2 L A KOK KS ST2).
        * exact (KT (KS' eq_refl) ST2 R).
  Qed.

  (** (J): no label, nothing to do *)
  Lemma step_jmp_straight (z : zst) : straight_ok cfg (z_rest z) = true -> step_jmp z = Next z.
  Proof.
    unfold step_jmp. destruct (z_rest z) as [|[l|i|t sz|cm|] r]; try reflexivity.
    intros H. apply straight_ok_cons in H. destruct H as [H _]. discriminate H.
  Qed.

  (** (S): a comment or a removed line joins [mid]; the represented code does not change *)
  Lemma Inv_quiet (pre : list line) (f : instr) (mid : list line) (q : line) (r : list line) (k : know) (n : N) :
    OptFacts.quiet q = true -> Inv cfg s0 sF (mkZ pre f mid (q :: r) k n) -> Inv cfg s0 sF (mkZ pre f (q :: mid) r k n).
  Proof.
    intros Q (PF & OF & MID & RST & KOK & s1 & s2 & sE & E1 & B1 & ST1 & KS & E2 & REL).
    cbn [z_pre z_f z_mid z_rest z_k] in *. apply straight_ok_cons in RST.
    assert (PS : pswap (mkZ pre f mid (q :: r) k n) = false) by (destruct q; try discriminate Q; apply andb_false_r).
    rewrite PS in KS.
    apply (Inv_intro _ s1 s2 sE); cbn [z_pre z_f z_mid z_rest z_k]; try tauto.
    - cbn [forallb]. rewrite MID. destruct q; try discriminate Q; reflexivity.
    - rewrite <- (exec_skip_app cfg (rev (q :: mid))) by (apply skip_rev; cbn [forallb]; rewrite MID; destruct q; try discriminate Q; reflexivity).
      cbn [rev]. rewrite <- app_assoc. exact E2.
  Qed.

  Lemma Inv_barrier (pre : list line) (f : instr) (mid : list line) (b : line) (r : list line) (k : know) (n : N) :
    OptFacts.barrier b = true -> Inv cfg s0 sF (mkZ pre f mid (b :: r) k n) -> False.
  Proof.
    intros B (_ & _ & _ & H & _). apply straight_ok_cons in H. destruct b; try discriminate B; discriminate (proj1 H).
  Qed.

  (** the code the zipper represents executes to a state equal to [sF] *)
  Lemma Inv_code (z : zst) :
    Inv cfg s0 sF z ->
    exists sE, exec_straight cfg (rev (z_pre z) ++ Ins (z_f z) :: rev (z_mid z) ++ z_rest z) s0 = Some sE /\
               eq_state sE sF.
  Proof.
    intros (_ & _ & _ & _ & _ & s1 & s2 & sE & E1 & _ & ST & _ & E2 & REL).
    exists sE. split; [|exact REL]. rewrite exec_app, E1, (exec_ins cfg _ _ s1 s2 ST). exact E2.
  Qed.

  Lemma step_inv (z : zst) : Inv cfg s0 sF z -> Res (step z).
  Proof.
    intros I. pose proof I as (_ & _ & _ & RST & _). unfold step. rewrite (step_jmp_straight z RST).
    destruct z as [pre f mid rest k n]. cbn [z_pre z_f z_mid z_rest z_k z_removed] in *.
    pose proof (OptFacts.step_second_inv
                  (fun pre f mid rest k => Inv cfg s0 sF (mkZ pre f mid rest k n)) (fun _ _ _ => False) n
                  (fun pre f mid q r k => Inv_quiet pre f mid q r k n)) as SS.
    specialize (SS (fun pre f mid b r k B H => Inv_barrier pre f mid b r k n B H) (fun _ _ _ _ _ F => F)
                   (fun _ _ _ _ F => match F with end) rest pre f mid k I).
    destruct (step_second pre f mid rest k n) as [c n'|z2]; cbn [OptFacts.second_res] in SS.
    - destruct SS as [-> _]. exact (Inv_code _ I).
    - destruct SS as (_ & _ & (i2 & ahead & H7) & I2). rewrite H7. destruct z2. exact (step_pair_inv _ i2 ahead H7 I2).
  Qed.

End Sim.

Lemma skip_to_ins_straight (cfg : config) (l : list line) : forall pre0 pre i r,
  skip_to_ins pre0 l = Some (pre, i, r) -> straight_ok cfg l = true ->
  exists sk, forallb skip_line sk = true /\ pre = rev sk ++ pre0 /\ l = sk ++ Ins i :: r.
Proof.
  induction l as [|x l IH]; intros pre0 pre i r H OK; [discriminate H|].
  apply straight_ok_cons in OK. destruct OK as [OK1 OK2].
  destruct x as [lb|j|t sz|cm|]; try discriminate OK1; cbn [skip_to_ins] in H.
  - inversion H; subst. exists []. repeat split; reflexivity.
  - destruct (IH _ _ _ _ H OK2) as (sk & S1 & S2 & S3). exists (Cmt cm :: sk).
    split; [exact S1|]. split; [|rewrite S3; reflexivity].
    rewrite S2. cbn [rev]. rewrite <- app_assoc. reflexivity.
  - destruct (IH _ _ _ _ H OK2) as (sk & S1 & S2 & S3). exists (Dummy :: sk).
    split; [exact S1|]. split; [|rewrite S3; reflexivity].
    rewrite S2. cbn [rev]. rewrite <- app_assoc. reflexivity.
Qed.

Lemma straight_ok_app (cfg : config) (a b : code) :
  straight_ok cfg (a ++ b) = true -> straight_ok cfg a = true /\ straight_ok cfg b = true.
Proof. unfold straight_ok. rewrite forallb_app. intros H. apply andb_true_iff in H. exact H. Qed.

Lemma Inv_init (cfg : config) (c : code) (s sF : mstate) (pre : list line) (i : instr)
      (r : list line) :
  ports cfg = [] -> bytes_ok s -> straight_ok cfg c = true ->
  exec_straight cfg c s = Some sF ->
  skip_to_ins [] c = Some (pre, i, r) ->
  Inv cfg s sF (mkZ pre i [] r (analyse_load AlStart k_init i) 0%N).
Proof.
  intros HP HB OK EX SK.
  destruct (skip_to_ins_straight cfg c [] pre i r SK OK) as (sk & S1 & S2 & S3).
  rewrite app_nil_r in S2. subst pre c.
  apply straight_ok_app in OK. destruct OK as [_ OK]. apply straight_ok_cons in OK.
  destruct OK as [OK1 OK2]. apply line_ok_ins in OK1. destruct OK1 as [PL OI].
  rewrite (exec_skip_app cfg sk _ s S1) in EX. apply exec_ins_inv in EX. destruct EX as (s2 & ST & E2).
  destruct (analyse_start i r) as [AS AR].
  apply (Inv_intro cfg s sF _ s s2 sF); cbn [z_pre z_f z_mid z_rest z_k]; try assumption.
  - reflexivity.
  - rewrite AS. destruct (is_load (i_mn i)); [|apply know_ops_ok_init].
    apply know_ops_ok_transfer; [exact PL|exact OI|apply know_ops_ok_init].
  - rewrite rev_involutive. apply exec_skip. exact S1.
  - left. rewrite AS. destruct (is_load (i_mn i)); [|apply know_sound_init].
    apply (transfer_sound_kept cfg k_init i r s s2); try assumption.
    + apply know_ops_ok_init.
    + apply know_sound_init.
  - apply eq_state_refl.
Qed.

(** executing the optimised line list gives the same final state as executing the original:
    registers, stack pointer, all four flags, memory *)
Theorem optimize_straight_sound : forall cfg c s s',
  ports cfg = [] -> bytes_ok s -> straight_ok cfg c = true ->
  exec_straight cfg c s = Some s' ->
  exists s'', exec_straight cfg (fst (optimize c)) s = Some s'' /\ eq_state s'' s'.
Proof.
  intros cfg c s s' HP HB OK EX.
  apply (OptFacts.optimize_walk (fun _ => Inv cfg s s')
           (fun c' => exists s'', exec_straight cfg c' s = Some s'' /\ eq_state s'' s')).
  - intros _ z. exact (step_inv cfg s s' HP z).
  - exists s'. split; [exact EX|apply eq_state_refl].
  - intros pre i r. exact (Inv_init cfg c s s' pre i r HP HB OK EX).
Qed.
Print Assumptions optimize_straight_sound.

(** * [exec_straight] is [Sem.run] on straight-line code

    [GenTemplatesFacts.runs_to cfg c s s']: the code assembles and [Sem.run] executes it from [s]
    (empty call stack, any program around it, any sufficient fuel) to a normal halt in [s']. *)

Lemma exec_straight_fwd (cfg : config) (c : code) : forall s s',
  exec_straight cfg c s = Some s' ->
  exists sl, slines_of c = Some sl /\ GenTemplatesFacts.lbls_once sl /\
             GenTemplatesFacts.exec_fwd cfg (S (length sl)) sl s = Some s'.
Proof.
  induction c as [|x c IH]; intros s s' E.
  - cbn in E. inversion E; subst. exists []. repeat split.
  - destruct x as [l|i|t sz|cm|]; cbn [exec_straight] in E; try discriminate E.
    + destruct (parse_operand (i_mn i) (i_op i)) as [op|] eqn:P; [|discriminate E].
      destruct (exec cfg (i_mn i) op s) as [s1 k f|w] eqn:X; [|discriminate E].
      destruct f; try discriminate E.
      destruct (IH s1 s' E) as (sl & S1 & S2 & S3).
      exists (SIns (i_mn i) op (i_prot i) (i_op i) :: sl). split; [|split].
      * cbn [slines_of sline_of]. rewrite P, S1. reflexivity.
      * exact S2.
      * cbn [length]. cbn [GenTemplatesFacts.exec_fwd]. rewrite X. exact S3.
    + destruct (IH s s' E) as (sl & S1 & S2 & S3). exists (SSkip :: sl). split; [|split].
      * cbn [slines_of sline_of]. rewrite S1. reflexivity.
      * exact S2.
      * cbn [length]. cbn [GenTemplatesFacts.exec_fwd]. exact S3.
    + destruct (IH s s' E) as (sl & S1 & S2 & S3). exists (SSkip :: sl). split; [|split].
      * cbn [slines_of sline_of]. rewrite S1. reflexivity.
      * exact S2.
      * cbn [length]. cbn [GenTemplatesFacts.exec_fwd]. exact S3.
Qed.

Theorem exec_straight_runs_to : forall cfg c s s',
  exec_straight cfg c s = Some s' -> GenTemplatesFacts.runs_to cfg c s s'.
Proof.
  intros cfg c s s' E. destruct (exec_straight_fwd cfg c s s' E) as (sl & S1 & S2 & S3).
  exact (GenTemplatesFacts.runs_to_intro cfg c sl _ s s' S1 S2 S3).
Qed.
Print Assumptions exec_straight_runs_to.

Lemma plain_falls_through (cfg : config) (m : mnem) (o : operand) (s s' : mstate) (k : N) (f : flow) :
  plain m = true -> exec cfg m o s = XOk s' k f -> f = FNext.
Proof.
  intros PL H. apply exec_flow in H.
  destruct f; [reflexivity|destruct H as [[H|H] _]| | |]; rewrite ?H in PL; destruct m; discriminate.
Qed.

Lemma run_straight_halt (cfg : config) (prog : sprogram) (inl_sem ext_call : string -> mstate -> option mstate)
      (c : code) :
  forall pre sl s fuel fname tr cy s' tr' cy',
  straight_ok cfg c = true -> slines_of c = Some sl ->
  Sem.run cfg prog inl_sem ext_call fuel fname (pre ++ sl) (length pre) [] s tr cy = Halt s' tr' cy' ->
  exec_straight cfg c s = Some s'.
Proof.
  induction c as [|x c IH]; intros pre sl s fuel fname tr cy s' tr' cy' OK SL R.
  - cbn in SL. inversion SL; subst sl. destruct fuel as [|fuel]; [discriminate R|].
    rewrite GenTemplatesFacts.run_S in R. rewrite app_nil_r in R.
    rewrite (proj2 (nth_error_None pre (length pre))) in R by lia. inversion R; subst. reflexivity.
  - apply straight_ok_cons in OK. destruct OK as [OK1 OK2].
    cbn [slines_of] in SL.
    destruct (sline_of x) as [sx|] eqn:SX; [|discriminate SL].
    destruct (slines_of c) as [slr|] eqn:SR; [|discriminate SL].
    inversion SL; subst sl. clear SL.
    destruct fuel as [|fuel]; [discriminate R|].
    rewrite GenTemplatesFacts.run_S in R. rewrite GenTemplatesFacts.nth_error_mid in R.
    rewrite GenTemplatesFacts.app_cons_assoc in R.
    rewrite <- (GenTemplatesFacts.length_snoc _ pre sx) in R.
    destruct x as [l|i|t sz|cm|]; try discriminate OK1; cbn [sline_of] in SX.
    + apply line_ok_ins in OK1. destruct OK1 as [PL _].
      destruct (parse_operand (i_mn i) (i_op i)) as [op|] eqn:P; [|discriminate SX].
      inversion SX; subst sx. clear SX. cbv zeta in R.
      cbn [exec_straight]. rewrite P.
      destruct (exec cfg (i_mn i) op s) as [s1 k f|w] eqn:X; [|discriminate R].
      pose proof (plain_falls_through cfg _ _ _ _ _ _ PL X) as F. subst f.
      exact (IH _ _ _ _ _ _ _ _ _ _ OK2 eq_refl R).
    + inversion SX; subst sx. cbn [exec_straight]. exact (IH _ _ _ _ _ _ _ _ _ _ OK2 eq_refl R).
    + inversion SX; subst sx. cbn [exec_straight]. exact (IH _ _ _ _ _ _ _ _ _ _ OK2 eq_refl R).
Qed.

Theorem runs_to_exec_straight : forall cfg c s s',
  straight_ok cfg c = true -> GenTemplatesFacts.runs_to cfg c s s' -> exec_straight cfg c s = Some s'.
Proof.
  intros cfg c s s' OK (sl & SL & R).
  destruct (R [] (fun _ _ => None) (fun _ _ => None) ""%string (S (length sl)) (Nat.lt_succ_diag_r _))
    as (tr & cy & H).
  exact (run_straight_halt cfg _ _ _ c [] sl s _ _ _ _ s' tr cy OK SL H).
Qed.
Print Assumptions runs_to_exec_straight.

Theorem optimize_straight_run : forall cfg c s s',
  ports cfg = [] -> bytes_ok s -> straight_ok cfg c = true ->
  GenTemplatesFacts.runs_to cfg c s s' ->
  exists s'', GenTemplatesFacts.runs_to cfg (fst (optimize c)) s s'' /\ eq_state s'' s'.
Proof.
  intros cfg c s s' HP HB OK R. apply runs_to_exec_straight in R; [|exact OK].
  destruct (optimize_straight_sound cfg c s s' HP HB OK R) as (s'' & E & Q).
  exists s''. split; [apply exec_straight_runs_to; exact E|exact Q].
Qed.
Print Assumptions optimize_straight_run.

#[local] Open Scope string_scope.

(** "w" in page zero, "t" a table at $0200 *)
Definition sim_cfg : config :=
  mkCfg (fun y => if String.eqb y "w" then Some 128 else if String.eqb y "t" then Some 512 else None) [].
Definition sim_ins (m : mnem) (o : string) : line := Ins (mkI m o 2%N None 2%N false).
Definition sim_state : mstate := cx_state 7 7 7 255 (mset (mset mem_empty 128 9) 515 4).

Lemma sim_state_bytes : bytes_ok sim_state.
Proof. unfold sim_state. cx_bytes. Qed.

(** ten instructions: the swap, "STA w; LDA w" (N/Z describe A), remove_first on "LDX; LDX" and
    a look-ahead removal (the second "LDX #2": N/Z describe Y, INY follows) all fire; three
    instructions go *)
Definition sim_code : code :=
  [sim_ins LDA "#3"; sim_ins CLC ""; sim_ins ADC "w"; sim_ins STA "w"; sim_ins LDA "w";
   sim_ins LDX "#1"; sim_ins LDX "#2"; Cmt "y := t[x+1] + 1"; sim_ins LDY "t+1,X";
   sim_ins LDX "#2"; sim_ins INY ""].

Example sim_code_optimized :
  optimize sim_code =
  ([sim_ins CLC ""; sim_ins LDA "#3"; sim_ins ADC "w"; sim_ins STA "w"; Dummy;
    Dummy; sim_ins LDX "#2"; Cmt "y := t[x+1] + 1"; sim_ins LDY "t+1,X";
    Dummy; sim_ins INY ""], 3%N).
Proof. vm_compute. reflexivity. Qed.

Example optimize_straight_sound_example :
  ports sim_cfg = [] /\ bytes_ok sim_state /\ straight_ok sim_cfg sim_code = true /\
  exists s' s'', exec_straight sim_cfg sim_code sim_state = Some s' /\
                 exec_straight sim_cfg (fst (optimize sim_code)) sim_state = Some s'' /\
                 eq_state s'' s' /\ rA s' = 12 /\ rX s' = 2 /\ rY s' = 5 /\ mget (mem s') 128 = 12.
Proof.
  assert (OK : straight_ok sim_cfg sim_code = true) by (vm_compute; reflexivity).
  split; [reflexivity|]. split; [exact sim_state_bytes|]. split; [exact OK|].
  destruct (exec_straight sim_cfg sim_code sim_state) as [s'|] eqn:E; [|vm_compute in E; discriminate E].
  destruct (optimize_straight_sound sim_cfg sim_code sim_state s' eq_refl sim_state_bytes OK E)
    as (s'' & E2 & Q).
  exists s', s''. split; [reflexivity|]. split; [exact E2|]. split; [exact Q|].
  vm_compute in E. inversion E. vm_compute. repeat split; reflexivity.
Qed.
Print Assumptions optimize_straight_sound_example.

(** Programs on which the final Z flag depends on a removal being withheld: were "STA o; LDA o" or
    "ORA #0" removed while N/Z do not describe A, or did the knowledge recorded with a look-ahead
    removal claim that N/Z describe the loaded register, each of these would end with Z set in the
    original and clear in the optimised code (resp. the converse for the last).  The removal is not
    made and, by the theorem, the final states are equal. *)
Definition nz_regression (c : code) (removed : N) : Prop :=
  straight_ok sim_cfg c = true /\ snd (optimize c) = removed /\
  exists s' s'', exec_straight sim_cfg c sim_state = Some s' /\
                 exec_straight sim_cfg (fst (optimize c)) sim_state = Some s'' /\
                 eq_state s'' s'.

(** by computation on the one state [sim_state]; that the two final states are equal is
    [optimize_straight_sound], not a computation *)
Ltac nz_reg :=
  match goal with |- nz_regression ?c _ =>
    assert (OK : straight_ok sim_cfg c = true) by (vm_compute; reflexivity);
    split; [exact OK|]; split; [vm_compute; reflexivity|];
    destruct (exec_straight sim_cfg c sim_state) as [s'|] eqn:E; [|vm_compute in E; discriminate E];
    destruct (optimize_straight_sound sim_cfg c sim_state s' eq_refl sim_state_bytes OK E)
      as (s'' & E2 & Q);
    exists s', s''; split; [reflexivity|]; split; [exact E2|exact Q]
  end.

(** "STA w; LDA w" while N/Z describe X: the reload is kept *)
Example sta_lda_fixed :
  nz_regression [sim_ins LDA "#0"; sim_ins LDX "#1"; sim_ins STA "w"; sim_ins LDA "w"] 0%N.
Proof. nz_reg. Qed.

(** "ORA #0" while N/Z describe X: kept *)
Example ora_zero_fixed :
  nz_regression [sim_ins LDA "#0"; sim_ins LDX "#1"; sim_ins ORA "#0"] 0%N.
Proof. nz_reg. Qed.

(** the LDA look-ahead ("STA follows, then a load"): the first reload goes, and the load looked
    at is kept, because the knowledge does not claim that N/Z describe A *)
Example lookahead_sta_fixed :
  nz_regression [sim_ins LDA "#0"; sim_ins LDX "#1"; sim_ins LDA "#0"; sim_ins STA "w";
                 sim_ins LDA "#0"] 1%N.
Proof. nz_reg. Qed.

(** the LDY look-ahead: the TXA looked at is removed by the pair rule "TAX; TXA" (which is
    sound on its own), the last LDY is kept *)
Example lookahead_ldy_fixed :
  nz_regression [sim_ins LDY "#5"; sim_ins LDA "#0"; sim_ins TAX ""; sim_ins LDY "#5";
                 sim_ins TXA ""; sim_ins LDY "#5"] 2%N.
Proof. nz_reg. Qed.

(** the ",Y" clause of the scan: "LDX v,Y" wraps in page zero, the "LDA v,Y" the optimiser removes
    does not (v = $80, Y = $90): A differs *)
Example zp_y_changes_a :
  exists cfg c s s' s'',
    ports cfg = [] /\ bytes_ok s /\ straight_ok cfg c = false /\
    forallb (fun l => match l with Ins i => plain (i_mn i) | _ => true end) c = true /\
    exec_straight cfg c s = Some s' /\ exec_straight cfg (fst (optimize c)) s = Some s'' /\
    rA s' = 2 /\ rA s'' = 1.
Proof.
  exists (cx_cfg "v" 128), [sim_ins LDX "v,Y"; sim_ins TXA ""; sim_ins LDA "v,Y"],
         (cx_state 0 1 144 255 (mset (mset mem_empty 16 1) 272 2)).
  eexists. eexists.
  split; [reflexivity|]. split; [cx_bytes|]. split; [vm_compute; reflexivity|].
  split; [vm_compute; reflexivity|]. split; [vm_compute; reflexivity|].
  split; [vm_compute; reflexivity|]. split; vm_compute; reflexivity.
Qed.
Print Assumptions zp_y_changes_a.
