(** Soundness of the peephole optimiser's register knowledge ([transfer]) and of its rewrite
    rules ([pair_rules]) with respect to the executable 6502 semantics (M6502/Sem.v).

    Statements that are false without an extra hypothesis are refuted by a concrete
    counterexample ([..._refuted]) and proved with that hypothesis, which has a name.

    The knowledge [transfer] returns describes the state actually reached in the OPTIMISED text:
    when the instruction is kept ([snd (transfer k i ahead) = false]) the state after it
    ([transfer_sound]); when it is a load to be removed, the state in which it is not executed
    ([transfer_removed_sound]).  The global statement built on these is in Proofs/OptSimFacts.v. *)
From Coq Require Import String Ascii List Bool NArith ZArith FMapPositive Lia ZifyBool.
From CC Require Import Base.Str Asm.Lines M6502.Isa Asm.Operand M6502.Sem Model.Optimize Model.OptSem
  Proofs.StrFacts Proofs.ExecFacts.
Import ListNotations.
Open Scope Z_scope.

Lemma read_addr_nil (a : Z) : read_addr [] a = Some a.
Proof. reflexivity. Qed.
Lemma write_addr_nil (a : Z) : write_addr [] a = Some a.
Proof. reflexivity. Qed.

Lemma eff_addr_range (cfg : config) (m : mnem) (s : mstate) (o : operand) (a : Z) (md : mode) (cr : bool) :
  eff_addr cfg m s o = Some (a, md, cr) -> 0 <= a < 65536.
Proof.
  unfold eff_addr. intros H.
  destruct o as [|v|y k ix|y k|l]; try discriminate.
  - destruct (layout cfg y) as [a0|]; [|discriminate].
    destruct (resolve m (shape_of (OMem y k ix)) (a0 + k <? 256)) as [md'|]; [|discriminate].
    assert (B : forall z, 0 <= byte z < 65536) by (intros z; pose proof (byte_range z); lia).
    destruct md'; injection H as <- _ _; first [apply B|apply Z.mod_pos_bound; reflexivity].
  - destruct (layout cfg y) as [a0|]; [|discriminate].
    destruct (a0 + k <? 255); [|discriminate].
    destruct (read_addr (ports cfg) (a0 + k)); [|discriminate].
    destruct (read_addr (ports cfg) (a0 + k + 1)); [|discriminate].
    inversion H; subst. apply Z.mod_pos_bound. reflexivity.
Qed.

Lemma mget_empty (a : Z) : mget mem_empty a = 0.
Proof. unfold mget, mem_empty. rewrite PositiveMap.gempty. reflexivity. Qed.

Lemma mget_mset_bytes (m : memory) (a v : Z) :
  (forall b, 0 <= mget m b < 256) -> 0 <= v < 256 -> forall b, 0 <= mget (mset m a v) b < 256.
Proof.
  intros Hm Hv b. destruct (Pos.eq_dec (akey a) (akey b)) as [E|E].
  - unfold mget, mset. rewrite E. rewrite PositiveMap.gss. exact Hv.
  - rewrite mget_mset_key by exact E. apply Hm.
Qed.

#[local] Opaque mget mset byte.
#[local] Arguments mget : simpl never.
#[local] Arguments mset : simpl never.
#[local] Arguments byte : simpl never.

Lemma ends_with_cons (suf : string) (a : ascii) (s : string) :
  ends_with suf s = true -> ends_with suf (String a s) = true.
Proof. unfold ends_with. intros H. rewrite rev_string_cons. apply starts_with_app_l. exact H. Qed.

Lemma strip_suffix_some (suf s b : string) : strip_suffix suf s = Some b -> ends_with suf s = true.
Proof. unfold strip_suffix. destruct (ends_with suf s); [reflexivity|discriminate]. Qed.

(** the three branches of [parse_operand] (Asm/Operand.v), named, so that [parse_operand_eq]
    states it as a chain of tests *)

Definition parse_imm (r : string) : option operand :=
  match r with
  | String "<"%char r' =>
      match parse_paren_sym_off r' with Some (y, k) => Some (OImm (ILo y k)) | None => None end
  | String ">"%char r' =>
      match parse_paren_sym_off r' with Some (y, k) => Some (OImm (IHi y k)) | None => None end
  | _ => match parse_dec r with Some n => Some (OImm (INum (Z.of_N n))) | None => None end
  end.

Definition parse_ind (r : string) : option operand :=
  match strip_suffix "),Y" r with
  | Some inner =>
      match parse_sym_off inner with Some (y, k) => Some (OInd y k) | None => None end
  | None => None
  end.

Definition parse_mem (s : string) : option operand :=
  match strip_suffix ",X" s with
  | Some b => match parse_sym_off b with Some (y, k) => Some (OMem y k IxX) | None => None end
  | None =>
      match strip_suffix ",Y" s with
      | Some b => match parse_sym_off b with Some (y, k) => Some (OMem y k IxY) | None => None end
      | None => match parse_sym_off s with Some (y, k) => Some (OMem y k IxNone) | None => None end
      end
  end.

(** the two-character dispatches of the parser; the branches stay variables, so that the 256
    cases are small *)
Lemma ascii_hash_paren (A : Type) (c : ascii) (x y z : A) :
  match c with "#"%char => x | "("%char => y | _ => z end =
  if Ascii.eqb c "#" then x else if Ascii.eqb c "(" then y else z.
Proof.
  destruct c as [b0 b1 b2 b3 b4 b5 b6 b7].
  destruct b0, b1, b2, b3, b4, b5, b6, b7; reflexivity.
Qed.

Lemma ascii_lt_gt (A : Type) (P : A -> Prop) (c : ascii) (x y z : A) :
  P x -> P y -> P z -> P match c with "<"%char => x | ">"%char => y | _ => z end.
Proof.
  intros. destruct c as [b0 b1 b2 b3 b4 b5 b6 b7].
  destruct b0, b1, b2, b3, b4, b5, b6, b7; assumption.
Qed.

Lemma parse_operand_eq (m : mnem) (s : string) :
  parse_operand m s =
  if String.eqb s "" then Some ONone
  else if takes_label m then Some (OLbl s)
  else match s with
       | EmptyString => parse_mem s
       | String c r =>
           if Ascii.eqb c "#" then parse_imm r
           else if Ascii.eqb c "(" then parse_ind r
           else parse_mem s
       end.
Proof.
  unfold parse_operand.
  destruct (String.eqb s ""); [reflexivity|].
  destruct (takes_label m); [reflexivity|].
  destruct s as [|c r]; [reflexivity|]. apply ascii_hash_paren.
Qed.

Lemma parse_imm_is_imm (r : string) (op : operand) :
  parse_imm r = Some op -> exists v, op = OImm v.
Proof.
  unfold parse_imm. destruct r as [|c r']; [|apply ascii_lt_gt];
    match goal with |- match ?x with _ => _ end = _ -> _ => destruct x as [[]|] end;
    intros H; try discriminate H; inversion H; eauto.
Qed.

Lemma parse_ind_shape (r : string) (op : operand) :
  parse_ind r = Some op -> (exists y k, op = OInd y k) /\ ends_with "),Y" r = true.
Proof.
  unfold parse_ind. intros H.
  destruct (strip_suffix "),Y" r) as [inner|] eqn:E; [|discriminate].
  destruct (parse_sym_off inner) as [[y k]|]; [|discriminate].
  inversion H. split; [eauto|]. eapply strip_suffix_some. exact E.
Qed.

Lemma parse_mem_shape (s : string) (op : operand) :
  parse_mem s = Some op ->
  exists y k ix, op = OMem y k ix /\
                 (ix = IxX -> ends_with ",X" s = true) /\
                 (ix = IxY -> ends_with ",Y" s = true).
Proof.
  unfold parse_mem. intros H.
  destruct (strip_suffix ",X" s) as [b|] eqn:EX.
  - destruct (parse_sym_off b) as [[y k]|]; [|discriminate]. inversion H.
    exists y, k, IxX. repeat split; [|discriminate].
    intros _. eapply strip_suffix_some. exact EX.
  - destruct (strip_suffix ",Y" s) as [b|] eqn:EY.
    + destruct (parse_sym_off b) as [[y k]|]; [|discriminate]. inversion H.
      exists y, k, IxY. repeat split; [discriminate|].
      intros _. eapply strip_suffix_some. exact EY.
    + destruct (parse_sym_off s) as [[y k]|]; [|discriminate]. inversion H.
      exists y, k, IxNone. repeat split; discriminate.
Qed.

Definition is_immop (op : operand) : bool :=
  match op with OImm _ => true | _ => false end.

Definition is_acc (op : operand) : bool := match op with ONone => true | _ => false end.

(** the optimiser tests the text of an operand ([ends_x], [ends_y], [is_imm] of Model/Optimize.v);
    what these tests say about its parse *)
Lemma parse_shape (m : mnem) (o : string) (op : operand) :
  takes_label m = false -> parse_operand m o = Some op ->
  (uses_x op = true -> ends_x o = true) /\ (uses_y op = true -> ends_y o = true) /\
  is_immop op = is_imm o /\ is_acc op = String.eqb o "".
Proof.
  intros HL H. rewrite parse_operand_eq, HL in H.
  destruct o as [|c r]; [injection H as <-; repeat split; discriminate|].
  cbn [String.eqb] in H |- *. unfold is_imm.
  change (starts_with "#" (String c r)) with (Ascii.eqb "#" c && true)%bool.
  rewrite andb_true_r, Ascii.eqb_sym.
  destruct (Ascii.eqb c "#"); [|destruct (Ascii.eqb c "(")].
  - apply parse_imm_is_imm in H. destruct H as [v ->]. repeat split; discriminate.
  - apply parse_ind_shape in H. destruct H as [(y & k & ->) E].
    repeat split; try discriminate. intros _. apply ends_with_cons.
    apply ends_with_inv in E. destruct E as [p ->].
    replace (p ++ "),Y")%string with ((p ++ ")") ++ ",Y")%string by apply app_assoc_s. apply ends_with_app.
  - apply parse_mem_shape in H. destruct H as (y & k & ix & -> & PX & PY).
    repeat split; try reflexivity; destruct ix; (discriminate || auto).
Qed.

Lemma parse_is_imm_conv (m : mnem) (o : string) (op : operand) :
  takes_label m = false -> parse_operand m o = Some op -> is_immop op = true -> is_imm o = true.
Proof. intros HL H U. rewrite <- U. symmetry. apply (parse_shape m o op HL H). Qed.

Lemma parse_acc (m : mnem) (o : string) (op : operand) :
  parse_operand m o = Some op -> is_acc op = String.eqb o "".
Proof.
  intros H. destruct (takes_label m) eqn:HL; [|apply (parse_shape m o op HL H)].
  rewrite parse_operand_eq, HL in H. destruct (String.eqb o ""); injection H as <-; reflexivity.
Qed.

Lemma parse_operand_mnem (m m' : mnem) (o : string) :
  takes_label m = false -> takes_label m' = false -> parse_operand m o = parse_operand m' o.
Proof. intros H H'. unfold parse_operand. rewrite H, H'. reflexivity. Qed.

Lemma read_operand_mem (cfg : config) (m : mnem) (s : mstate) (op : operand) :
  is_immop op = false ->
  read_operand cfg m s op =
  match eff_addr cfg m s op with
  | Some (a, md, cr) =>
      match read_addr (ports cfg) a with
      | Some a' => Some (mget (mem s) a', cyc m md cr)
      | None => None
      end
  | None => None
  end.
Proof. destruct op; try reflexivity. discriminate. Qed.

Lemma opcell_not_imm (cfg : config) (m : mnem) (s : mstate) (op : operand) (a : Z) :
  opcell cfg m s op a -> is_immop op = false.
Proof. intros [(y & k & p & -> & _)|(e & md & cr & E & _)]; [reflexivity|]. destruct op; try reflexivity. discriminate E. Qed.

Lemma read_operand_frame (cfg : config) (m : mnem) (s s' : mstate) (op : operand) :
  (uses_x op = true -> rX s' = rX s) -> (uses_y op = true -> rY s' = rY s) ->
  (is_immop op = false -> forall a, mget (mem s') a = mget (mem s) a) ->
  read_operand cfg m s' op = read_operand cfg m s op.
Proof.
  intros HX HY HM. apply read_operand_same; [exact HX|exact HY|].
  intros a OC. exact (HM (opcell_not_imm _ _ _ _ _ OC) a).
Qed.

(** LDX has no X-indexed mode, LDY no Y-indexed mode *)
Lemma ldx_not_x (cfg : config) (s : mstate) (op : operand) (r : Z * N) :
  read_operand cfg LDX s op = Some r -> uses_x op = false.
Proof.
  destruct op as [|v|y k ix|y k|l]; try reflexivity. destruct ix; try reflexivity.
  unfold read_operand, eff_addr. destruct (layout cfg y) as [a0|]; [|discriminate].
  destruct (a0 + k <? 256); discriminate.
Qed.

(** NB: [eff_addr] accepts an [OInd] operand for every mnemonic (it never asks [legal m IndY]);
    instructions such as "LDY (p),Y", which the 6502 does not have, must be excluded by hypothesis
    where they matter ([ind_legal] below). *)
Lemma ldy_not_y (cfg : config) (s : mstate) (op : operand) (r : Z * N) :
  read_operand cfg LDY s op = Some r -> (forall y k, op <> OInd y k) -> uses_y op = false.
Proof.
  intros R NI.
  destruct op as [|v|y k ix|y k|l]; try reflexivity.
  - destruct ix; try reflexivity.
    unfold read_operand, eff_addr in R. destruct (layout cfg y) as [a0|]; [|discriminate].
    destruct (a0 + k <? 256); discriminate.
  - exfalso. apply (NI y k). reflexivity.
Qed.

Definition is_ld (m : mnem) : Prop := m = LDA \/ m = LDX \/ m = LDY.

(** [OMem y k IxY] with a zero-page base: LDX uses zp,Y (wraps inside page zero) where LDA, which
    has no zp,Y mode, uses abs,Y (does not wrap) *)
Definition zp_y_op (cfg : config) (op : operand) : Prop :=
  match op with
  | OMem y k IxY => exists a0, layout cfg y = Some a0 /\ a0 + k < 256
  | _ => False
  end.

(** [eff_addr] depends on the mnemonic through the mode the assembler selects only *)
Lemma eff_addr_conv (cfg : config) (m m' : mnem) (s : mstate) (op : operand) (r : Z * mode * bool) :
  eff_addr cfg m s op = Some r ->
  (forall y k ix a0 md, op = OMem y k ix -> layout cfg y = Some a0 ->
     resolve m (shape_of op) (a0 + k <? 256) = Some md ->
     resolve m' (shape_of op) (a0 + k <? 256) = Some md) ->
  eff_addr cfg m' s op = Some r.
Proof.
  intros E H. destruct op as [|v|y k ix|y k|l]; try discriminate E; [|exact E].
  unfold eff_addr in *. destruct (layout cfg y) as [a0|] eqn:EL; [|discriminate E].
  destruct (resolve m (shape_of (OMem y k ix)) (a0 + k <? 256)) as [md|] eqn:R; [|discriminate E].
  rewrite (H y k ix a0 md eq_refl EL R). exact E.
Qed.

Lemma read_operand_ld_conv (cfg : config) (m m' : mnem) (s : mstate) (op : operand) (v : Z) (c : N) :
  is_ld m -> is_ld m' ->
  read_operand cfg m s op = Some (v, c) ->
  (m' = LDX -> uses_x op = false) ->
  (m' = LDY -> uses_y op = false) ->
  (m = LDX \/ m' = LDX -> ~ zp_y_op cfg op) ->
  exists c', read_operand cfg m' s op = Some (v, c').
Proof.
  intros Hm Hm' R NX NY YY. destruct (is_immop op) eqn:I.
  - destruct op as [|iv| | |]; try discriminate I. unfold read_operand in *.
    destruct (imm_value cfg iv) as [x|]; [|discriminate R].
    destruct Hm as [-> | [-> | ->]]; injection R as <- _;
      destruct Hm' as [-> | [-> | ->]]; eexists; reflexivity.
  - rewrite read_operand_mem in * by exact I.
    destruct (eff_addr cfg m s op) as [[[a md] cr]|] eqn:E; [|discriminate R].
    rewrite (eff_addr_conv cfg m m' s op _ E).
    + destruct (read_addr (ports cfg) a); [|discriminate R]. injection R as <- _. eauto.
    + intros y k ix a0 md' -> EL.
      destruct Hm as [-> | [-> | ->]], Hm' as [-> | [-> | ->]], ix, (a0 + k <? 256) eqn:EZ; intros R';
        try solve [discriminate R' | exact R' | discriminate (NX eq_refl) | discriminate (NY eq_refl)];
        (elim (YY ltac:(auto)); exists a0; split; [exact EL|apply Z.ltb_lt; exact EZ]).
Qed.

Lemma is_ld_no_label (m : mnem) : is_ld m -> takes_label m = false.
Proof. intros [-> | [-> | ->]]; reflexivity. Qed.

Lemma is_ld_rd (m : mnem) : is_ld m -> iclass_of m = CRd.
Proof. intros [-> | [-> | ->]]; reflexivity. Qed.

Lemma holds_frame (cfg : config) (ld : mnem) (s s' : mstate) (o : string) (v : Z) :
  takes_label ld = false -> holds_in cfg ld s o v ->
  (ends_x o = false \/ rX s' = rX s) -> (ends_y o = false \/ rY s' = rY s) ->
  (is_imm o = true \/ forall a, mget (mem s') a = mget (mem s) a) ->
  holds_in cfg ld s' o v.
Proof.
  intros HL (op & c & P & R) HX HY HM. exists op, c. split; [exact P|].
  destruct (parse_shape _ _ _ HL P) as (SX & SY & SI & _).
  rewrite (read_operand_frame cfg ld s s'); [exact R| | |].
  - intros U. destruct HX as [HX|HX]; [|exact HX]. rewrite (SX U) in HX. discriminate.
  - intros U. destruct HY as [HY|HY]; [|exact HY]. rewrite (SY U) in HY. discriminate.
  - intros U. destruct HM as [HM|HM]; [|exact HM]. rewrite SI, HM in U. discriminate.
Qed.

(** what is held off the stack page is still held after a push *)
Lemma holds_push (cfg : config) (ld : mnem) (s : mstate) (o : string) (v w : Z) :
  ports cfg = [] -> 0 <= rS s < 256 -> off_stack cfg ld s o ->
  holds_in cfg ld s o v -> holds_in cfg ld (push s w) o v.
Proof.
  intros HP HS OFF (op & c & P & R). exists op, c. split; [exact P|].
  rewrite <- R. apply read_operand_same; try reflexivity.
  intros a OC. apply mget_mset_key. unfold akey. unfold opcell, ptrcell in OC. rewrite HP in OC.
  destruct OC as [(y & k & p & _ & _ & B & [[= <-]|[= <-]])|(e & md & cr & E & [= <-])]; try lia.
  pose proof (OFF _ _ _ _ P E). pose proof (eff_addr_range _ _ _ _ _ _ _ E). lia.
Qed.

Lemma holds_conv (cfg : config) (m m' : mnem) (s : mstate) (o : string) (v : Z) :
  is_ld m -> is_ld m' -> holds_in cfg m s o v ->
  (m' = LDX -> ends_x o = false) -> (m' = LDY -> ends_y o = false) ->
  (m = LDX \/ m' = LDX -> forall op, parse_operand m o = Some op -> ~ zp_y_op cfg op) ->
  holds_in cfg m' s o v.
Proof.
  intros Hm Hm' (op & c & P & R) NX NY YY.
  pose proof (is_ld_no_label _ Hm) as L. pose proof (is_ld_no_label _ Hm') as L'.
  destruct (read_operand_ld_conv cfg m m' s op v c Hm Hm' R) as [c' R'].
  - intros E. destruct (uses_x op) eqn:U; [|reflexivity].
    rewrite (proj1 (parse_shape _ _ _ L P) U) in NX. discriminate (NX E).
  - intros E. destruct (uses_y op) eqn:U; [|reflexivity].
    rewrite (proj1 (proj2 (parse_shape _ _ _ L P)) U) in NY. discriminate (NY E).
  - intros E. exact (YY E op P).
  - exists op, c'. split; [|exact R']. rewrite <- P. apply parse_operand_mnem; assumption.
Qed.

Lemma kill_if_some (p : string -> bool) (a : option string) (o : string) :
  kill_if p a = Some o -> a = Some o /\ p o = false.
Proof.
  unfold kill_if. destruct a as [v|]; [|discriminate].
  destruct (p v) eqn:E; [discriminate|]. intros H. inversion H. subst. auto.
Qed.

Definition know_off_stack (cfg : config) (k : know) (s : mstate) : Prop :=
  (forall o, k_acc k = Some o -> off_stack cfg LDA s o) /\
  (forall o, k_x k = Some o -> off_stack cfg LDX s o) /\
  (forall o, k_y k = Some o -> off_stack cfg LDY s o).

(** the instruction uses "(p),Y" only if the 6502 has that form (the semantics does not check) *)
Definition ind_legal (i : instr) : Prop :=
  forall y k, parse_operand (i_mn i) (i_op i) = Some (OInd y k) -> legal (i_mn i) IndY = true.

(** TAX / TXA copy the knowledge about one register to the other; this is wrong when the known
    operand is "zp,Y" because LDA has no zp,Y mode (abs,Y does not wrap, zp,Y does) *)
Definition xfer_no_zp_y (cfg : config) (k : know) (i : instr) : Prop :=
  (i_mn i = TAX -> forall o op, k_acc k = Some o -> parse_operand LDA o = Some op -> ~ zp_y_op cfg op) /\
  (i_mn i = TXA -> forall o op, k_x k = Some o -> parse_operand LDX o = Some op -> ~ zp_y_op cfg op).

Lemma write_operand_inv (cfg : config) (m : mnem) (s : mstate) (op : operand) (v : Z) (s' : mstate) (c : N) :
  write_operand cfg m s op v = Some (s', c) ->
  exists a md cr a', eff_addr cfg m s op = Some (a, md, cr) /\ write_addr (ports cfg) a = Some a' /\
                     s' = set_mem s (mset (mem s) a' v).
Proof.
  unfold write_operand. destruct (eff_addr cfg m s op) as [[[a md] cr]|]; [|discriminate].
  destruct (write_addr (ports cfg) a) as [a'|] eqn:W; [|discriminate].
  intros H. inversion H. eauto 8.
Qed.

Definition get_reg (m : mnem) (s : mstate) : Z :=
  match m with LDA => rA s | LDX => rX s | _ => rY s end.

Lemma get_set_reg (m : mnem) (s : mstate) (v : Z) :
  is_ld m -> get_reg m (rd_sem m s v) = v.
Proof. intros [-> | [-> | ->]]; reflexivity. Qed.

(** a load does not depend on the register it loads: what an operand it accepts (in either
    state) reads is the same before and after *)
Lemma own_reg_frame (cfg : config) (m : mnem) (s : mstate) (op : operand) (w : Z) (r : Z * N) :
  is_ld m -> (m = LDY -> forall y k, op <> OInd y k) ->
  read_operand cfg m s op = Some r \/ read_operand cfg m (rd_sem m s w) op = Some r ->
  (uses_x op = true -> rX (rd_sem m s w) = rX s) /\
  (uses_y op = true -> rY (rd_sem m s w) = rY s) /\
  mem (rd_sem m s w) = mem s.
Proof.
  intros Hm NI R. destruct Hm as [-> | [-> | ->]]; repeat split; try reflexivity; intros U; exfalso.
  - destruct R as [R|R]; rewrite (ldx_not_x _ _ _ _ R) in U; discriminate U.
  - destruct R as [R|R]; rewrite (ldy_not_y _ _ _ _ R (NI eq_refl)) in U; discriminate U.
Qed.

Lemma read_operand_own_reg (cfg : config) (m : mnem) (s : mstate) (op : operand) (w : Z) (r : Z * N) :
  is_ld m -> (m = LDY -> forall y k, op <> OInd y k) ->
  read_operand cfg m s op = Some r \/ read_operand cfg m (rd_sem m s w) op = Some r ->
  read_operand cfg m (rd_sem m s w) op = read_operand cfg m s op.
Proof.
  intros Hm NI R. destruct (own_reg_frame cfg m s op w r Hm NI R) as (HX & HY & HM).
  apply read_operand_frame; [exact HX|exact HY|]. intros _ a. rewrite HM. reflexivity.
Qed.

Lemma ind_legal_ldy (i : instr) (op : operand) :
  ind_legal i -> parse_operand (i_mn i) (i_op i) = Some op ->
  i_mn i = LDY -> forall y k, op <> OInd y k.
Proof.
  intros IL P M y k ->. specialize (IL y k P). rewrite M in IL. discriminate.
Qed.

Lemma load_holds (cfg : config) (i : instr) (op : operand) (c : N) (s s' : mstate) :
  is_ld (i_mn i) -> ind_legal i ->
  parse_operand (i_mn i) (i_op i) = Some op -> exec cfg (i_mn i) op s = XOk s' c FNext ->
  holds_in cfg (i_mn i) s' (i_op i) (get_reg (i_mn i) s') /\
  fZ s' = (get_reg (i_mn i) s' =? 0) /\ fN s' = bit7 (get_reg (i_mn i) s').
Proof.
  intros L IL P E. pose proof (ind_legal_ldy _ _ IL P) as NI.
  apply exec_rd_inv in E; [|apply is_ld_rd, L]. destruct E as (v & R & ->).
  rewrite get_set_reg by exact L. split.
  - exists op, c. split; [exact P|].
    rewrite read_operand_own_reg with (r := (v, c)); auto.
  - destruct L as [L|[L|L]]; rewrite L; split; reflexivity.
Qed.

(** The registers and the memory an instruction that falls through may write; [acc] says that a
    shift works on the accumulator. *)
Definition wr_a (m : mnem) (acc : bool) : bool :=
  match m with
  | LDA | TXA | TYA | ADC | SBC | EOR | AND | ORA | PLA => true
  | LSR | ASL | ROL | ROR => acc
  | _ => false
  end.
Definition wr_x (m : mnem) : bool :=
  match m with LDX | TAX | INX | DEX => true | _ => false end.
Definition wr_y (m : mnem) : bool :=
  match m with LDY | TAY | INY | DEY => true | _ => false end.
Definition wr_mem (m : mnem) (acc : bool) : bool :=
  match m with
  | STA | STX | STY | INC | DEC | PHA | PHP => true
  | LSR | ASL | ROL | ROR => negb acc
  | _ => false
  end.
Definition wr_nz (m : mnem) : bool := defines_nz m || mnem_eqb m PLP.

Definition only_writes (m : mnem) (acc : bool) (s s' : mstate) : Prop :=
  (if wr_a m acc then fZ s' = (rA s' =? 0) /\ fN s' = bit7 (rA s') else rA s' = rA s) /\
  (if wr_x m then True else rX s' = rX s) /\
  (if wr_y m then True else rY s' = rY s) /\
  (if wr_mem m acc then True else mem s' = mem s) /\
  (if wr_nz m then True else fZ s' = fZ s /\ fN s' = fN s).

(** to use an execution that succeeded, evaluate it in the goal (inverting the equation would
    put the state through [simpl]) *)
Lemma xok_inv (P : mstate -> Prop) (r : xres) (s' : mstate) (c : N) (f : flow) :
  r = XOk s' c f -> match r with XOk t _ _ => P t | XFault _ => True end -> P s'.
Proof. intros ->. exact (fun H => H). Qed.

Lemma exec_frame (cfg : config) (m : mnem) (op : operand) (s s' : mstate) (c : N) (f : flow) :
  exec cfg m op s = XOk s' c f -> only_writes m (is_acc op) s s'.
Proof.
  intros E. apply (xok_inv _ _ _ _ _ E). clear E.
  destruct m; cbv beta iota zeta delta [exec pull push write_operand Fault];
    (* case analysis on what [exec] inspects, innermost first *)
    repeat match goal with
           | |- context [match ?x with _ => _ end] =>
               lazymatch x with
               | context [match _ with _ => _ end] => fail
               | _ => destruct x; cbv beta iota
               end
           end;
    try exact I; cbv beta iota zeta delta [only_writes]; cbn; repeat split; reflexivity.
Qed.

(** The transfer function one would write from [wr_a] .. [wr_nz] alone: forget a register that is
    written and every operand that reads something written; N and Z describe A after a write to A
    and are unknown after any other change.  It is sound for EVERY instruction that falls through
    ([killgen_sound]); [transfer] is compared with it below. *)

Definition kill_written (m : mnem) (acc : bool) (a : option string) : option string :=
  let a := if wr_x m then kill_if ends_x a else a in
  let a := if wr_y m then kill_if ends_y a else a in
  if wr_mem m acc then kill_if (fun v => negb (is_imm v)) a else a.

Definition killgen (k : know) (m : mnem) (acc : bool) : know :=
  mkK (if wr_a m acc then None else kill_written m acc (k_acc k))
      (if wr_x m then None else kill_written m acc (k_x k))
      (if wr_y m then None else kill_written m acc (k_y k))
      (if wr_a m acc then FA
       else if wr_x m || wr_y m || wr_nz m then FUnknown else k_flags k).

Lemma kill_written_some (m : mnem) (acc : bool) (a : option string) (o : string) :
  kill_written m acc a = Some o ->
  a = Some o /\ (if wr_x m then ends_x o = false else True) /\
  (if wr_y m then ends_y o = false else True) /\
  (if wr_mem m acc then is_imm o = true else True).
Proof.
  unfold kill_written. intros H.
  destruct (wr_x m), (wr_y m), (wr_mem m acc);
    repeat (apply kill_if_some in H; destruct H as [H ?]);
    repeat split; try assumption; apply negb_false_iff; assumption.
Qed.

Lemma holds_kill_written (cfg : config) (m : mnem) (op : operand) (s s' : mstate) (c : N)
      (ld : mnem) (a : option string) (o : string) (v : Z) :
  exec cfg m op s = XOk s' c FNext -> takes_label ld = false ->
  (forall o, a = Some o -> holds_in cfg ld s o v) ->
  kill_written m (is_acc op) a = Some o -> holds_in cfg ld s' o v.
Proof.
  intros E L K H. destruct (exec_frame _ _ _ _ _ _ _ E) as (_ & FX & FY & FM & _).
  apply kill_written_some in H. destruct H as (H & SX & SY & SM).
  apply (holds_frame cfg ld s); [exact L|exact (K o H)| | |].
  - destruct (wr_x m); [left; exact SX|right; exact FX].
  - destruct (wr_y m); [left; exact SY|right; exact FY].
  - destruct (wr_mem m (is_acc op)); [left; exact SM|right].
    rewrite FM. reflexivity.
Qed.

Lemma killgen_sound (cfg : config) (k : know) (m : mnem) (op : operand) (s s' : mstate) (c : N) :
  exec cfg m op s = XOk s' c FNext -> know_sound cfg k s ->
  know_sound cfg (killgen k m (is_acc op)) s'.
Proof.
  intros E (KA & KX & KY & KF & KFX & KFY).
  pose proof (holds_kill_written cfg m op s s' c) as HK.
  destruct (exec_frame _ _ _ _ _ _ _ E) as (FA' & FX' & FY' & _ & FNZ).
  unfold know_sound, killgen. cbn [k_acc k_x k_y k_flags].
  split; [|split; [|split]].
  - destruct (wr_a m (is_acc op)); [intros o H; discriminate H|].
    rewrite FA'. intros o. apply HK; [exact E|reflexivity|exact KA].
  - destruct (wr_x m); [intros o H; discriminate H|].
    rewrite FX'. intros o. apply HK; [exact E|reflexivity|exact KX].
  - destruct (wr_y m); [intros o H; discriminate H|].
    rewrite FY'. intros o. apply HK; [exact E|reflexivity|exact KY].
  - destruct (wr_a m (is_acc op)).
    + split; [intros _; exact FA'|split; discriminate].
    + destruct (wr_x m), (wr_y m), (wr_nz m); cbn [orb]; try (repeat split; discriminate).
      rewrite FA', FX', FY'. destruct FNZ as [-> ->]. exact (conj KF (conj KFX KFY)).
Qed.

Definition know_le (k' k : know) : Prop :=
  (k_acc k' = None \/ k_acc k' = k_acc k) /\ (k_x k' = None \/ k_x k' = k_x k) /\
  (k_y k' = None \/ k_y k' = k_y k) /\ (k_flags k' = FUnknown \/ k_flags k' = k_flags k).

Lemma know_sound_le (cfg : config) (k' k : know) (s : mstate) :
  know_le k' k -> know_sound cfg k s -> know_sound cfg k' s.
Proof.
  intros (LA & LX & LY & LF) (KA & KX & KY & KF). unfold know_sound.
  split; [|split; [|split]].
  - destruct LA as [-> | ->]; [discriminate|exact KA].
  - destruct LX as [-> | ->]; [discriminate|exact KX].
  - destruct LY as [-> | ->]; [discriminate|exact KY].
  - destruct LF as [-> | ->]; [repeat split; discriminate|exact KF].
Qed.

Lemma push_sound (cfg : config) (k : know) (s : mstate) (w : Z) :
  ports cfg = [] -> bytes_ok s -> know_off_stack cfg k s -> know_sound cfg k s ->
  know_sound cfg k (push s w).
Proof.
  intros HP (_ & _ & _ & HS & _) (OA & OX & OY) (KA & KX & KY & KF).
  split; [|split; [|split; [|exact KF]]]; intros o Ho; apply holds_push; auto.
Qed.

(** the loads and transfers add knowledge; the pushes rely on [know_off_stack] *)
Definition own_rule (m : mnem) : bool :=
  match m with LDA | LDX | LDY | TAX | TAY | TXA | TYA | PHA | PHP => true | _ => false end.

Lemma transfer_le (k : know) (i : instr) (ahead : list line) :
  own_rule (i_mn i) = false ->
  know_le (fst (transfer k i ahead)) (killgen k (i_mn i) (String.eqb (i_op i) "")).
Proof.
  destruct i as [m o cy alt nb pr]. cbn [i_mn i_op].
  destruct m; try discriminate; intros _;
    cbv beta iota zeta delta [transfer killgen kill_written know_le i_mn i_op fst wr_a wr_x wr_y wr_mem
                              wr_nz defines_nz mnem_eqb orb negb k_acc k_x k_y k_flags];
    try destruct (String.eqb o ""); cbv beta iota; auto.
Qed.

(** the instruction is kept ([snd (transfer k i ahead) = false]) and executed: the new knowledge
    is sound for the state it leads to.  (When [transfer] asks for the removal of a load, the
    knowledge it returns describes the state in which the load is NOT executed:
    [transfer_removed_sound] below.) *)
Theorem transfer_sound : forall cfg k i ahead s s',
  ports cfg = [] -> bytes_ok s ->
  (i_mn i = PHA \/ i_mn i = PHP -> know_off_stack cfg k s) ->
  ind_legal i -> xfer_no_zp_y cfg k i ->
  know_sound cfg k s -> steps_to cfg i s s' ->
  snd (transfer k i ahead) = false ->
  know_sound cfg (fst (transfer k i ahead)) s'.
Proof.
  intros cfg k i ahead s s' HP HB HOFF HIND HXF KS (op & c & P & E) HR.
  pose proof (killgen_sound cfg k _ _ _ _ _ E KS) as G.
  rewrite (parse_acc _ _ _ P) in G.
  destruct (own_rule (i_mn i)) eqn:OR.
  2: { eapply know_sound_le; [apply transfer_le; exact OR|exact G]. }
  assert (L : is_load (i_mn i) = true -> is_ld (i_mn i))
    by (unfold is_ld; destruct (i_mn i); try discriminate; auto).
  pose proof (fun L' => load_holds cfg i op c s s' (L L') HIND P E) as LH.
  destruct i as [mn o cy alt nb pr]. cbn [i_mn i_op] in *.
  unfold killgen, kill_written in G.
  destruct mn; try discriminate OR;
    cbn [wr_a wr_x wr_y wr_mem wr_nz defines_nz mnem_eqb orb negb] in G;
    destruct G as (GA & GX & GY & GF); cbn [k_acc k_x k_y k_flags] in GA, GX, GY, GF.
  1-3: cbv beta iota zeta delta [transfer i_mn i_op i_prot snd fst] in HR |- *; rewrite HR;
    cbn [negb orb]; destruct (LH eq_refl) as [HL HF].
  - (* LDA *)
    split; [intros o' [= <-]; exact HL|]. split; [exact GX|]. split; [exact GY|exact GF].
  - (* LDX *)
    split; [exact GA|]. split; [intros o' [= <-]; exact HL|]. split; [exact GY|].
    split; [discriminate|]. split; [intros _; exact HF|discriminate].
  - (* LDY *)
    split; [exact GA|]. split; [exact GX|]. split; [intros o' [= <-]; exact HL|].
    split; [discriminate|]. split; [discriminate|intros _; exact HF].
  - (* TAX *) injection E as <- _. unfold transfer, know_sound; cbn [i_mn i_op fst].
    destruct (k_acc k) as [va|] eqn:EA; [destruct (ends_x va) eqn:EX|]; cbn [k_acc k_x k_y k_flags];
      (split; [|split; [|split; [exact GY|split; [intros _; split; reflexivity|split; discriminate]]]]);
      try discriminate.
    all: assert (HA : holds_in cfg LDA (set_nz (set_x s (rA s)) (rA s)) va (rA s))
      by (apply GA; unfold kill_if; rewrite EX; reflexivity).
    + intros o' [= <-]. exact HA.
    + intros o' [= <-].
      apply (holds_conv cfg LDA LDX); [left; reflexivity|right; left; reflexivity|exact HA| | |].
      * intros _. exact EX.
      * discriminate.
      * intros _ op' P'. exact (proj1 HXF eq_refl va op' EA P').
  - (* TAY *) injection E as <- _. unfold transfer, know_sound; cbn [i_mn i_op fst].
    destruct (k_acc k) as [va|] eqn:EA; [destruct (ends_y va) eqn:EY|]; cbn [k_acc k_x k_y k_flags];
      (split; [|split; [exact GX|split; [|split; [intros _; split; reflexivity|split; discriminate]]]]);
      try discriminate.
    all: assert (HA : holds_in cfg LDA (set_nz (set_y s (rA s)) (rA s)) va (rA s))
      by (apply GA; unfold kill_if; rewrite EY; reflexivity).
    + intros o' [= <-]. exact HA.
    + intros o' [= <-].
      apply (holds_conv cfg LDA LDY); [left; reflexivity|right; right; reflexivity|exact HA| | |].
      * discriminate.
      * intros _. exact EY.
      * intros [H|H]; discriminate H.
  - (* TXA *) injection E as <- _. split; [|exact (conj GX (conj GY GF))].
    intros o' Ho'.
    apply (holds_conv cfg LDX LDA); [right; left; reflexivity|left; reflexivity|exact (GX o' Ho')| | |].
    + discriminate.
    + discriminate.
    + intros _ op' P'. exact (proj2 HXF eq_refl o' op' Ho' P').
  - (* TYA *) injection E as <- _. split; [|exact (conj GX (conj GY GF))].
    intros o' Ho'.
    apply (holds_conv cfg LDY LDA); [right; right; reflexivity|left; reflexivity|exact (GY o' Ho')| | |].
    + discriminate.
    + discriminate.
    + intros [H|H]; discriminate H.
  - (* PHA *) injection E as <- _. apply know_sound_le with (k := k); [unfold know_le; cbn; auto|].
    apply push_sound; auto.
  - (* PHP *) injection E as <- _. apply push_sound; auto.
Qed.
Print Assumptions transfer_sound.

Lemma reload_same (cfg : config) (i : instr) (s s' : mstate) :
  is_ld (i_mn i) -> holds_in cfg (i_mn i) s (i_op i) (get_reg (i_mn i) s) -> steps_to cfg i s s' ->
  eq_mod_nz s' s /\
  (fZ s = (get_reg (i_mn i) s =? 0) /\ fN s = bit7 (get_reg (i_mn i) s) -> eq_state s' s).
Proof.
  intros L (op' & c' & P' & R') (op & c & P & E).
  rewrite P in P'. injection P' as <-.
  apply exec_rd_inv in E; [|apply is_ld_rd, L]. destruct E as (v & R & ->).
  rewrite R' in R. injection R as <- _.
  assert (NZ : eq_mod_nz (rd_sem (i_mn i) s (get_reg (i_mn i) s)) s)
    by (destruct L as [-> | [-> | ->]]; repeat split; reflexivity).
  split; [exact NZ|]. intros [FZ FN]. split; [exact NZ|]. rewrite FZ, FN.
  destruct L as [-> | [-> | ->]]; split; reflexivity.
Qed.

Theorem redundant_load_sound : forall cfg k i s s',
  ports cfg = [] -> know_sound cfg k s -> steps_to cfg i s s' ->
  (i_mn i = LDA /\ k_acc k = Some (i_op i)) \/ (i_mn i = LDX /\ k_x k = Some (i_op i)) \/
  (i_mn i = LDY /\ k_y k = Some (i_op i)) ->
  eq_mod_nz s' s /\
  ((i_mn i = LDA /\ k_flags k = FA) \/ (i_mn i = LDX /\ k_flags k = FX) \/
   (i_mn i = LDY /\ k_flags k = FY) -> eq_state s' s).
Proof.
  intros cfg k i s s' HP (KA & KX & KY & KF & KFX & KFY) ST H.
  pose proof (reload_same cfg i s s') as RS.
  destruct H as [[M HK]|[[M HK]|[M HK]]]; rewrite M in RS.
  - destruct RS as [NZ ES]; [left; reflexivity|exact (KA _ HK)|exact ST|].
    split; [exact NZ|]. intros [[_ F]|[[M' _]|[M' _]]]; [|congruence|congruence].
    apply ES. exact (KF F).
  - destruct RS as [NZ ES]; [right; left; reflexivity|exact (KX _ HK)|exact ST|].
    split; [exact NZ|]. intros [[M' _]|[[_ F]|[M' _]]]; [congruence| |congruence].
    apply ES. exact (KFX F).
  - destruct RS as [NZ ES]; [right; right; reflexivity|exact (KY _ HK)|exact ST|].
    split; [exact NZ|]. intros [[M' _]|[[M' _]|[_ F]]]; [congruence|congruence|].
    apply ES. exact (KFY F).
Qed.
Print Assumptions redundant_load_sound.

Lemma opt_eqb_true (a : option string) (o : string) : opt_eqb a o = true -> a = Some o.
Proof.
  unfold opt_eqb. destruct a as [v|]; [|discriminate]. intros H. apply String.eqb_eq in H.
  rewrite H. reflexivity.
Qed.

(** when [transfer] asks for a removal: the instruction is a load of what the register is known
    to hold, N and Z describe that register or are redefined next, and nothing is learnt *)
Lemma transfer_removes (k : know) (i : instr) (ahead : list line) :
  snd (transfer k i ahead) = true ->
  (i_mn i = LDA /\ k_acc k = Some (i_op i) /\ (k_flags k = FA \/ lda_lookahead ahead = true) /\
   fst (transfer k i ahead) = mkK (Some (i_op i)) (k_x k) (k_y k) (k_flags k)) \/
  (i_mn i = LDX /\ k_x k = Some (i_op i) /\ (k_flags k = FX \/ ldxy_lookahead ahead = true) /\
   fst (transfer k i ahead) =
   mkK (kill_if ends_x (k_acc k)) (Some (i_op i)) (kill_if ends_x (k_y k)) (k_flags k)) \/
  (i_mn i = LDY /\ k_y k = Some (i_op i) /\ (k_flags k = FY \/ ldxy_lookahead ahead = true) /\
   fst (transfer k i ahead) =
   mkK (kill_if ends_y (k_acc k)) (kill_if ends_y (k_x k)) (Some (i_op i)) (k_flags k)).
Proof.
  intros R. unfold transfer in *.
  destruct (i_mn i); cbn [snd] in R; try discriminate R;
    try (destruct (String.eqb (i_op i) ""); discriminate R);
    try (destruct (k_acc k) as [va|]; [destruct (ends_x va)|]; discriminate R);
    try (destruct (k_acc k) as [va|]; [destruct (ends_y va)|]; discriminate R);
    cbv zeta; cbn [fst]; rewrite R; cbn [negb orb];
    match type of R with (if opt_eqb ?a _ then _ else _) = _ =>
      destruct (opt_eqb a (i_op i)) eqn:EQ; [apply opt_eqb_true in EQ|discriminate R] end;
    [left|right; left|right; right]; (split; [reflexivity|split; [exact EQ|]]).
  (* N and Z describe the register, or the look-ahead says that they are dead *)
  all: destruct (k_flags k); cbn [flags_is_A] in R |- *; auto; (split; [right|reflexivity]);
    match type of R with (if ?l then _ else _) = _ => destruct l; [reflexivity|discriminate R] end.
Qed.

(** the same, stated on the removal bit the model computes: a load [transfer] marks for removal
    leaves the machine state as it was, N and Z included, unless the removal rests on a
    look-ahead (whose soundness is [lda_lookahead_dead] / [ldxy_lookahead_dead] below) *)
Theorem removal_sound : forall cfg k i ahead s s',
  ports cfg = [] -> know_sound cfg k s -> steps_to cfg i s s' ->
  snd (transfer k i ahead) = true ->
  eq_mod_nz s' s /\
  (eq_state s' s \/ (i_mn i = LDA /\ lda_lookahead ahead = true) \/
   ((i_mn i = LDX \/ i_mn i = LDY) /\ ldxy_lookahead ahead = true)).
Proof.
  intros cfg k i ahead s s' HP KS ST R. apply transfer_removes in R.
  destruct (redundant_load_sound cfg k i s s' HP KS ST) as [NZ ES].
  { destruct R as [(M & K & _)|[(M & K & _)|(M & K & _)]]; auto. }
  split; [exact NZ|].
  destruct R as [(M & _ & [F|L] & _)|[(M & _ & [F|L] & _)|(M & _ & [F|L] & _)]]; auto 6.
Qed.
Print Assumptions removal_sound.

Lemma kill_if_le (p : string -> bool) (a : option string) : kill_if p a = None \/ kill_if p a = a.
Proof. unfold kill_if. destruct a as [v|]; [destruct (p v)|]; auto. Qed.

(** the instruction is a load that [transfer] asks to remove: the knowledge returned with the
    removal bit is sound for the SAME state, the one in which the load is not executed (the
    register already holds the operand; the flags component is left as it was unless N/Z describe
    that register already) *)
Theorem transfer_removed_sound : forall cfg k i ahead s,
  know_sound cfg k s -> snd (transfer k i ahead) = true ->
  know_sound cfg (fst (transfer k i ahead)) s.
Proof.
  intros cfg k i ahead s KS R. apply know_sound_le with (k := k); [|exact KS].
  apply transfer_removes in R.
  destruct R as [(_ & K & _ & ->)|[(_ & K & _ & ->)|(_ & K & _ & ->)]];
    unfold know_le; cbn [k_acc k_x k_y k_flags]; rewrite K; auto using kill_if_le.
Qed.
Print Assumptions transfer_removed_sound.

Lemma imm_value_range (cfg : config) (v : immv) (x : Z) : imm_value cfg v = Some x -> 0 <= x < 256.
Proof.
  destruct v as [n|y k|y k]; simpl.
  - intros H. inversion H. apply byte_range.
  - destruct (layout cfg y); [|discriminate]. intros H. inversion H. apply byte_range.
  - destruct (layout cfg y); [|discriminate]. intros H. inversion H. apply byte_range.
Qed.

Lemma read_imm_inv (cfg : config) (m : mnem) (s : mstate) (v : immv) (x : Z) (c : N) :
  read_operand cfg m s (OImm v) = Some (x, c) -> imm_value cfg v = Some x.
Proof.
  unfold read_operand. destruct (imm_value cfg v) as [x'|]; [|discriminate].
  destruct (legal m Imm); [|discriminate]. intros H. inversion H. reflexivity.
Qed.

(** textually different immediates among the known register operands and the operand of the
    compare denote different values *)
Definition imm_text_injective (cfg : config) (k : know) (i1 : instr) : Prop :=
  forall r v1 v2,
    k_acc k = Some r \/ k_x k = Some r \/ k_y k = Some r ->
    r <> i_op i1 ->
    parse_operand LDA r = Some (OImm v1) -> parse_operand LDA (i_op i1) = Some (OImm v2) ->
    imm_value cfg v1 <> imm_value cfg v2.

Definition is_cmp (m : mnem) : Prop := m = CMP \/ m = CPX \/ m = CPY.

Lemma is_cmp_no_label (m : mnem) : is_cmp m -> takes_label m = false.
Proof. intros [-> | [-> | ->]]; reflexivity. Qed.

Definition cmp_reg (m : mnem) (s : mstate) : Z :=
  match m with CMP => rA s | CPX => rX s | _ => rY s end.

Lemma eq_mod_anzc_cmp (s : mstate) (a v : Z) : eq_mod_anzc (cmp s a v) s.
Proof. unfold eq_mod_anzc, cmp. cbn. repeat split; reflexivity. Qed.

(** the register compared is known to hold the immediate [r]: the branch after the compare with an
    immediate is decided *)
Lemma cmp_known_gen (cfg : config) (ld cm : mnem) (r : string) (i1 i2 : instr)
      (s s1 : mstate) (op : operand) (c : N) :
  is_ld ld -> is_cmp cm ->
  holds_in cfg ld s r (cmp_reg cm s) ->
  cmp_rule (Some r) cm i1 i2 = true ->
  (forall v1 v2, r <> i_op i1 ->
     parse_operand LDA r = Some (OImm v1) -> parse_operand LDA (i_op i1) = Some (OImm v2) ->
     imm_value cfg v1 <> imm_value cfg v2) ->
  parse_operand (i_mn i1) (i_op i1) = Some op ->
  exec cfg (i_mn i1) op s = XOk s1 c FNext ->
  branch_taken (i_mn i2) s1 = false /\ eq_mod_anzc s1 s.
Proof.
  intros Hld Hcm (op' & c' & P' & R') CR INJ P E.
  pose proof (is_ld_no_label _ Hld) as Lld. pose proof (is_cmp_no_label _ Hcm) as Lcm.
  unfold cmp_rule in CR.
  destruct (is_imm r) eqn:IR; [|discriminate].
  destruct (mnem_eqb (i_mn i1) cm) eqn:EM; [|discriminate].
  destruct (is_imm (i_op i1)) eqn:I1; [|discriminate].
  cbn [andb] in CR. apply mnem_eqb_eq in EM. rewrite EM in P, E.
  apply exec_rd_inv in E; [|destruct Hcm as [-> | [-> | ->]]; reflexivity]. destruct E as (x2 & R & ->).
  replace (rd_sem cm s x2) with (cmp s (cmp_reg cm s) x2) by (destruct Hcm as [-> | [-> | ->]]; reflexivity).
  split; [|apply eq_mod_anzc_cmp].
  destruct (parse_shape _ _ _ Lld P') as (_ & _ & IO' & _). rewrite IR in IO'.
  destruct (parse_shape _ _ _ Lcm P) as (_ & _ & IO & _). rewrite I1 in IO.
  destruct op' as [|v1| | |]; try discriminate. destruct op as [|v2| | |]; try discriminate.
  apply read_imm_inv in R'. apply read_imm_inv in R.
  pose proof (imm_value_range _ _ _ R') as B1. pose proof (imm_value_range _ _ _ R) as B2.
  rewrite (parse_operand_mnem ld LDA) in P' by (assumption || reflexivity).
  rewrite (parse_operand_mnem cm LDA) in P by (assumption || reflexivity).
  destruct (i_mn i2); try discriminate.
  - (* BEQ *) apply andb_true_iff in CR. destruct CR as [CR _].
    apply andb_true_iff in CR. destruct CR as [CR _]. apply andb_true_iff in CR. destruct CR as [CR _].
    apply negb_true_iff in CR.
    apply String.eqb_neq in CR.
    pose proof (INJ v1 v2 CR P' P) as NE. rewrite R', R in NE.
    assert (cmp_reg cm s <> x2) by congruence.
    unfold cmp. cbn. rewrite byte_sub_eq0 by assumption. apply Z.eqb_neq. assumption.
  - (* BNE *) apply andb_true_iff in CR. destruct CR as [CR _]. apply String.eqb_eq in CR.
    subst r. rewrite P in P'. inversion P'; subst v1. rewrite R in R'. inversion R'; subst x2.
    unfold cmp. cbn. rewrite Z.sub_diag. reflexivity.
Qed.

Theorem rule_cmp_known : forall cfg k i1 i2 s op c s1,
  know_sound cfg k s -> bytes_ok s -> imm_text_injective cfg k i1 ->
  cmp_rule (k_acc k) CMP i1 i2 = true \/ cmp_rule (k_x k) CPX i1 i2 = true \/
  cmp_rule (k_y k) CPY i1 i2 = true ->
  parse_operand (i_mn i1) (i_op i1) = Some op -> exec cfg (i_mn i1) op s = XOk s1 c FNext ->
  branch_taken (i_mn i2) s1 = false /\ eq_mod_anzc s1 s.
Proof.
  intros cfg k i1 i2 s op c s1 (KA & KX & KY & _) _ INJ H P E.
  destruct H as [H|[H|H]].
  - destruct (k_acc k) as [r|] eqn:EK; [|discriminate H].
    apply (cmp_known_gen cfg LDA CMP r i1 i2 s s1 op c); auto; try (left; reflexivity).
    intros v1 v2. apply INJ. left. exact EK.
  - destruct (k_x k) as [r|] eqn:EK; [|discriminate H].
    apply (cmp_known_gen cfg LDX CPX r i1 i2 s s1 op c); auto; try (right; left; reflexivity).
    intros v1 v2. apply INJ. right. left. exact EK.
  - destruct (k_y k) as [r|] eqn:EK; [|discriminate H].
    apply (cmp_known_gen cfg LDY CPY r i1 i2 s s1 op c); auto; try (right; right; reflexivity).
    intros v1 v2. apply INJ. right. right. exact EK.
Qed.
Print Assumptions rule_cmp_known.

(** The statement without [imm_text_injective] is false.  The BEQ form of [cmp_rule] compares
    texts, and two plain numbers can be two texts of one value: "#00" and "#256" both denote 0,
    and [cmp_rule (Some "#00") CMP (cx_ins CMP "#0") (cx_ins BEQ "l")] (the same with "#256") is
    [true], so after "LDA #00" the optimiser deletes "CMP #0; BEQ l" although the branch is
    taken.  Symbolic immediates no longer need the hypothesis (the Example below). *)
Definition cx_cfg (sym : string) (addr : Z) : config :=
  mkCfg (fun y => if String.eqb y sym then Some addr else None) [].
Definition cx_state (a x y sp : Z) (m : memory) : mstate := mkS a x y sp false false false false m.
Definition cx_ins (m : mnem) (o : string) : instr := mkI m o 2%N None 2%N false.

Lemma bytes_ok_cx (a x y sp : Z) (m : memory) :
  0 <= a < 256 -> 0 <= x < 256 -> 0 <= y < 256 -> 0 <= sp < 256 ->
  (forall b, 0 <= mget m b < 256) -> bytes_ok (cx_state a x y sp m).
Proof. intros. unfold bytes_ok, cx_state. cbn. auto. Qed.

Lemma bytes_empty : forall b, 0 <= mget mem_empty b < 256.
Proof. intros b. rewrite mget_empty. lia. Qed.

(** the BEQ form of [cmp_rule] (different texts) fires on plain numbers only: "#<sym" and "#0" are
    different texts with equal values when sym is at $200, and the compiler once deleted
    "CMP #0; BEQ l" after "LDA #<sym"; now the rule answers [false] there.  The BNE form (same
    text) also fires on symbolic immediates. *)
Example rule_cmp_known_symbolic_not_folded :
  cmp_rule (Some "#<sym"%string) CMP (cx_ins CMP "#0") (cx_ins BEQ "l") = false /\
  cmp_rule (Some "#5"%string) CMP (cx_ins CMP "#<sym") (cx_ins BEQ "l") = false /\
  cmp_rule (Some "#5"%string) CMP (cx_ins CMP "#0") (cx_ins BEQ "l") = true /\
  cmp_rule (Some "#<sym"%string) CMP (cx_ins CMP "#<sym") (cx_ins BNE "l") = true.
Proof. repeat split; vm_compute; reflexivity. Qed.
Print Assumptions rule_cmp_known_symbolic_not_folded.

Theorem rule_transfer_pair : forall cfg i1 i2 s s1 s2,
  (i_mn i1 = TAX /\ i_mn i2 = TXA) \/ (i_mn i1 = TXA /\ i_mn i2 = TAX) \/
  (i_mn i1 = TAY /\ i_mn i2 = TYA) \/ (i_mn i1 = TYA /\ i_mn i2 = TAY) ->
  steps_to cfg i1 s s1 -> steps_to cfg i2 s1 s2 -> eq_state s2 s1.
Proof.
  intros cfg i1 i2 s s1 s2 H (op1 & c1 & P1 & E1) (op2 & c2 & P2 & E2).
  destruct H as [[M1 M2]|[[M1 M2]|[[M1 M2]|[M1 M2]]]]; rewrite M1 in E1; rewrite M2 in E2;
    injection E1 as <- _; injection E2 as <- _; unfold eq_state, eq_mod_nz; cbn; repeat split; reflexivity.
Qed.
Print Assumptions rule_transfer_pair.

Theorem rule_ora_zero : forall cfg i s s',
  bytes_ok s -> i_mn i = ORA -> i_op i = "#0"%string -> steps_to cfg i s s' -> eq_mod_nz s' s.
Proof.
  intros cfg i s s' _ M O (op & c & P & E).
  rewrite M, O in P. vm_compute in P. inversion P; subst op. rewrite M in E.
  apply exec_rd_inv in E; [|reflexivity]. destruct E as (v & R & ->).
  apply read_imm_inv in R. cbn [imm_value] in R. rewrite byte_id in R by lia. injection R as <-.
  unfold eq_mod_nz. cbn. rewrite Z.lor_0_r. repeat split; reflexivity.
Qed.
Print Assumptions rule_ora_zero.

Lemma exec_carry (cfg : config) (m : mnem) (op : operand) (s s' : mstate) (c : N) :
  m = SEC \/ m = CLC -> exec cfg m op s = XOk s' c FNext ->
  exists b, s' = set_c s b /\ forall t, exec cfg m op t = XOk (set_c t b) c FNext.
Proof. intros [-> | ->] [= <- <-]; eexists; split; reflexivity. Qed.

Theorem rule_swap_lda_carry : forall cfg i1 i2 s s1 s2,
  i_mn i1 = LDA -> (i_mn i2 = SEC \/ i_mn i2 = CLC) ->
  steps_to cfg i1 s s1 -> steps_to cfg i2 s1 s2 ->
  exists t1 t2, steps_to cfg i2 s t1 /\ steps_to cfg i1 t1 t2 /\ eq_state t2 s2.
Proof.
  intros cfg i1 i2 s s1 s2 M1 M2 (op1 & c1 & P1 & E1) (op2 & c2 & P2 & E2).
  rewrite M1 in E1. apply exec_rd_inv in E1; [|reflexivity]. destruct E1 as (v & R & ->).
  apply exec_carry in E2; [|exact M2]. destruct E2 as (b & -> & EC).
  exists (set_c s b), (set_nz (set_a (set_c s b) v) v). split; [|split].
  - exists op2, c2. split; [exact P2|apply EC].
  - exists op1, c1. split; [exact P1|]. rewrite M1.
    apply (exec_rd_intro cfg LDA); [reflexivity|].
    rewrite (read_operand_frame cfg LDA s); [exact R| | |]; intros; reflexivity.
  - unfold eq_state, eq_mod_nz. cbn. repeat split; reflexivity.
Qed.
Print Assumptions rule_swap_lda_carry.

(** the first of two loads of the same register is dead ([ind_legal i2] excludes "LDY (p),Y",
    which the semantics executes although the 6502 has no such instruction) *)
Theorem rule_load_load : forall cfg i1 i2 s s1 s2,
  (i_mn i1 = LDA /\ i_mn i2 = LDA) \/ (i_mn i1 = LDX /\ i_mn i2 = LDX) \/
  (i_mn i1 = LDY /\ i_mn i2 = LDY) ->
  ind_legal i2 ->
  steps_to cfg i1 s s1 -> steps_to cfg i2 s1 s2 ->
  exists s2', steps_to cfg i2 s s2' /\ eq_state s2' s2.
Proof.
  intros cfg i1 i2 s s1 s2 H IL (op1 & c1 & P1 & E1) (op2 & c2 & P2 & E2).
  assert (HH : exists m, is_ld m /\ i_mn i1 = m /\ i_mn i2 = m)
    by (unfold is_ld; destruct H as [[-> ->]|[[-> ->]|[-> ->]]]; eauto 6).
  destruct HH as (m & Hm & M1 & M2).
  pose proof (ind_legal_ldy _ _ IL P2) as NI.
  rewrite M1 in E1. rewrite M2 in E2, NI.
  apply exec_rd_inv in E1; [|apply is_ld_rd, Hm]. destruct E1 as (v1 & R1 & ->).
  apply exec_rd_inv in E2; [|apply is_ld_rd, Hm]. destruct E2 as (v2 & R2 & ->).
  rewrite read_operand_own_reg with (r := (v2, c2)) in R2 by auto.
  exists (rd_sem m s v2). split.
  - exists op2, c2. split; [exact P2|]. rewrite M2. apply exec_rd_intro; [apply is_ld_rd, Hm|exact R2].
  - destruct Hm as [-> | [-> | ->]]; unfold eq_state, eq_mod_nz; cbn; repeat split; reflexivity.
Qed.
Print Assumptions rule_load_load.

Definition st_ld (st ld : mnem) : Prop :=
  (ld = LDA /\ st = STA) \/ (ld = LDX /\ st = STX) \/ (ld = LDY /\ st = STY).

Lemma st_ld_is_ld (st ld : mnem) : st_ld st ld -> is_ld ld.
Proof. intros [[-> _]|[[-> _]|[-> _]]]; [left|right; left|right; right]; reflexivity. Qed.

Lemma st_ld_no_label (st ld : mnem) : st_ld st ld -> takes_label st = false.
Proof. intros [[_ ->]|[[_ ->]|[_ ->]]]; reflexivity. Qed.

(** wherever the store form exists the load form exists, with the same mode and address *)
Lemma eff_addr_st_ld (cfg : config) (st ld : mnem) (s : mstate) (op : operand) (r : Z * mode * bool) :
  st_ld st ld -> eff_addr cfg st s op = Some r -> eff_addr cfg ld s op = Some r.
Proof.
  intros H E. apply (eff_addr_conv cfg st ld s op r E). intros y k ix a0 md -> _.
  destruct H as [[-> ->]|[[-> ->]|[-> ->]]]; destruct ix, (a0 + k <? 256); intros R;
    first [discriminate R|exact R].
Qed.

Lemma exec_store_inv (cfg : config) (st ld : mnem) (op : operand) (s s' : mstate) (c : N) :
  st_ld st ld -> exec cfg st op s = XOk s' c FNext ->
  write_operand cfg st s op (get_reg ld s) = Some (s', c).
Proof.
  intros [[-> ->]|[[-> ->]|[-> ->]]] E; cbv beta iota zeta delta [exec] in E; cbn [get_reg];
    match type of E with match ?x with _ => _ end = _ => destruct x as [[s0 c0]|] end;
    try discriminate; inversion E; reflexivity.
Qed.

Lemma read_operand_mem_inv (cfg : config) (m : mnem) (s : mstate) (op : operand) (v : Z) (c : N)
      (r : Z * mode * bool) :
  ports cfg = [] -> read_operand cfg m s op = Some (v, c) -> eff_addr cfg m s op = Some r ->
  v = mget (mem s) (fst (fst r)).
Proof.
  intros HP R E. rewrite read_operand_mem, E in R by (destruct op; try discriminate E; reflexivity).
  destruct r as [[a md] cr]. rewrite HP in R. simpl read_addr in R. inversion R. reflexivity.
Qed.

(** a load followed by a store of the same register to the same operand: the store is dead.
    ([ind_legal i1] excludes "LDY (p),Y; STY (p),Y", executable in the semantics only.) *)
Theorem rule_ld_st : forall cfg i1 i2 s s1 s2,
  ports cfg = [] -> bytes_ok s ->
  (i_mn i1 = LDA /\ i_mn i2 = STA) \/ (i_mn i1 = LDX /\ i_mn i2 = STX) \/
  (i_mn i1 = LDY /\ i_mn i2 = STY) ->
  ind_legal i1 ->
  i_op i1 = i_op i2 -> steps_to cfg i1 s s1 -> steps_to cfg i2 s1 s2 -> eq_state s2 s1.
Proof.
  intros cfg i1 i2 s s1 s2 HP _ SL IL EO (op1 & c1 & P1 & E1) (op2 & c2 & P2 & E2).
  change (st_ld (i_mn i2) (i_mn i1)) in SL. set (ld := i_mn i1) in *. set (st := i_mn i2) in *.
  pose proof (st_ld_is_ld _ _ SL) as Hld.
  pose proof (ind_legal_ldy _ _ IL P1) as NI.
  rewrite <- EO in P2.
  rewrite (parse_operand_mnem st ld) in P2
    by (first [exact (st_ld_no_label _ _ SL) | exact (is_ld_no_label _ Hld)]).
  rewrite P1 in P2. inversion P2; subst op2.
  apply exec_rd_inv in E1; [|apply is_ld_rd, Hld]. destruct E1 as (v & R1 & ->).
  apply (exec_store_inv cfg st ld) in E2; [|exact SL].
  rewrite get_set_reg in E2 by exact Hld.
  apply write_operand_inv in E2. destruct E2 as (a & md & cr & a' & EA & W & ->).
  rewrite HP in W. injection W as <-.
  apply (eff_addr_st_ld cfg st ld) in EA; [|exact SL].
  assert (EA' : eff_addr cfg ld s op1 = Some (a, md, cr)).
  { rewrite <- EA. symmetry.
    destruct (own_reg_frame cfg ld s op1 v _ Hld NI (or_introl R1)) as (HX & HY & HM).
    apply eff_addr_same; [exact HX|exact HY|]. intros b _. rewrite HM. reflexivity. }
  pose proof (read_operand_mem_inv _ _ _ _ _ _ _ HP R1 EA') as V. cbn [fst] in V. subst v.
  assert (MM : mem (rd_sem ld s (mget (mem s) a)) = mem s)
    by (destruct Hld as [-> | [-> | ->]]; reflexivity).
  unfold eq_state, eq_mod_nz. cbn [rA rX rY rS fN fV fZ fC mem set_mem].
  rewrite MM. repeat split; try reflexivity.
  intros b. apply mget_mset_id.
Qed.
Print Assumptions rule_ld_st.

(** "STA (p),Y" must not hit the pointer p itself, else the reload goes through a changed
    pointer *)
Definition ptr_not_hit (cfg : config) (i : instr) (s : mstate) : Prop :=
  forall y k a0 a md cr,
    parse_operand (i_mn i) (i_op i) = Some (OInd y k) -> layout cfg y = Some a0 ->
    eff_addr cfg (i_mn i) s (OInd y k) = Some (a, md, cr) ->
    0 <= a0 + k /\ a <> a0 + k /\ a <> a0 + k + 1.

Lemma eff_addr_after_store (cfg : config) (m : mnem) (s : mstate) (op : operand) (a w : Z) :
  ports cfg = [] -> 0 <= a ->
  (forall y k a0, op = OInd y k -> layout cfg y = Some a0 ->
                  0 <= a0 + k /\ a <> a0 + k /\ a <> a0 + k + 1) ->
  eff_addr cfg m (set_mem s (mset (mem s) a w)) op = eff_addr cfg m s op.
Proof.
  intros HP Ha H. apply eff_addr_same; try reflexivity.
  intros b (y & k & p & E & L & _ & C). destruct (H y k p E L) as (H0 & H1 & H2).
  rewrite HP in C. apply mget_mset_other; destruct C as [[= <-]|[= <-]]; lia.
Qed.

Theorem rule_sta_lda : forall cfg i1 i2 s s1 s2,
  ports cfg = [] -> i_mn i1 = STA -> i_mn i2 = LDA -> i_op i1 = i_op i2 ->
  ptr_not_hit cfg i1 s ->
  steps_to cfg i1 s s1 -> steps_to cfg i2 s1 s2 -> eq_mod_nz s2 s1.
Proof.
  intros cfg i1 i2 s s1 s2 HP M1 M2 EO PNH (op1 & c1 & P1 & E1) (op2 & c2 & P2 & E2).
  assert (SL : st_ld STA LDA) by (left; split; reflexivity).
  unfold ptr_not_hit in PNH.
  rewrite M1 in P1, E1, PNH. rewrite M2 in P2, E2. rewrite <- EO in P2.
  rewrite (parse_operand_mnem LDA STA) in P2 by reflexivity.
  rewrite P1 in P2. inversion P2; subst op2.
  apply (exec_store_inv cfg STA LDA) in E1; [|exact SL]. cbn [get_reg] in E1.
  apply write_operand_inv in E1. destruct E1 as (a & md & cr & a' & EA & W & ->).
  rewrite HP in W. injection W as <-.
  apply exec_rd_inv in E2; [|reflexivity]. destruct E2 as (v & R & ->).
  pose proof (eff_addr_range _ _ _ _ _ _ _ EA) as RA.
  assert (EA' : eff_addr cfg LDA (set_mem s (mset (mem s) a (rA s))) op1 = Some (a, md, cr)).
  { rewrite eff_addr_after_store; [apply (eff_addr_st_ld cfg STA LDA); assumption|exact HP|lia|].
    intros y k a0 -> EL. exact (PNH y k a0 a md cr P1 EL EA). }
  pose proof (read_operand_mem_inv _ _ _ _ _ _ _ HP R EA') as V. cbn [fst mem set_mem] in V.
  rewrite mget_mset_same in V. subst v.
  unfold eq_mod_nz. cbn. repeat split; reflexivity.
Qed.
Print Assumptions rule_sta_lda.

Lemma a_flags (cfg : config) (i : instr) (s s' : mstate) :
  i_mn i = LDA \/ i_mn i = ORA -> steps_to cfg i s s' ->
  fZ s' = (rA s' =? 0) /\ fN s' = bit7 (rA s').
Proof.
  intros [M|M] (op & c & P & E); rewrite M in E; exact (proj1 (exec_frame _ _ _ _ _ _ _ E)).
Qed.

Lemma nz_a_eq_state (s s' : mstate) :
  eq_mod_nz s' s -> fZ s = (rA s =? 0) /\ fN s = bit7 (rA s) ->
  fZ s' = (rA s' =? 0) /\ fN s' = bit7 (rA s') -> eq_state s' s.
Proof.
  intros NZ [Z1 N1] [Z2 N2]. pose proof NZ as (HA & _).
  split; [exact NZ|]. rewrite Z2, N2, Z1, N1, HA. split; reflexivity.
Qed.

(** the rule as the optimiser applies it, only when N/Z describe A: nothing changes at all *)
Theorem rule_sta_lda_exact : forall cfg k i1 i2 s s1 s2,
  ports cfg = [] -> i_mn i1 = STA -> i_mn i2 = LDA -> i_op i1 = i_op i2 ->
  ptr_not_hit cfg i1 s ->
  know_sound cfg k s1 -> k_flags k = FA ->
  steps_to cfg i1 s s1 -> steps_to cfg i2 s1 s2 -> eq_state s2 s1.
Proof.
  intros cfg k i1 i2 s s1 s2 HP M1 M2 EO PNH (_ & _ & _ & KF & _) FA ST1 ST2.
  exact (nz_a_eq_state _ _ (rule_sta_lda cfg i1 i2 s s1 s2 HP M1 M2 EO PNH ST1 ST2) (KF FA)
                       (a_flags cfg i2 s1 s2 (or_introl M2) ST2)).
Qed.
Print Assumptions rule_sta_lda_exact.

Theorem rule_ora_zero_exact : forall cfg k i s s',
  bytes_ok s -> i_mn i = ORA -> i_op i = "#0"%string ->
  know_sound cfg k s -> k_flags k = FA ->
  steps_to cfg i s s' -> eq_state s' s.
Proof.
  intros cfg k i s s' HB M O (_ & _ & _ & KF & _) FA ST.
  exact (nz_a_eq_state _ _ (rule_ora_zero cfg i s s' HB M O ST) (KF FA)
                       (a_flags cfg i s s' (or_intror M) ST)).
Qed.
Print Assumptions rule_ora_zero_exact.

Theorem rule_pla_pha : forall cfg i1 i2 s s1 s2,
  bytes_ok s -> i_mn i1 = PLA -> i_mn i2 = PHA ->
  steps_to cfg i1 s s1 -> steps_to cfg i2 s1 s2 -> eq_mod_anzc s2 s.
Proof.
  intros cfg i1 i2 s s1 s2 (_ & _ & _ & HS & _) M1 M2 (op1 & c1 & P1 & E1) (op2 & c2 & P2 & E2).
  rewrite M1, exec_eq_nf in E1. injection E1 as <- _. rewrite M2, exec_eq_nf in E2. injection E2 as <- _.
  unfold eq_mod_anzc, push, pull_sem, pull. cbn [push_val rA rX rY rS fV mem set_sp set_mem set_nz set_a]. repeat split.
  - rewrite byte_sub_l, Z.add_simpl_r. apply byte_id, HS.
  - intros b. apply mget_mset_id.
Qed.
Print Assumptions rule_pla_pha.

Lemma eq_mod_nz_sym (s1 s2 : mstate) : eq_mod_nz s1 s2 -> eq_mod_nz s2 s1.
Proof.
  intros (HA & HX & HY & HS & HV & HC & HM). unfold eq_mod_nz.
  repeat split; try (symmetry; assumption). intros a. symmetry. apply HM.
Qed.

(** [eq_state] and [eq_mod_nz] are [agree] on all cells, with and without N and Z *)
Definition all_cells (a : Z) : Prop := True.

Lemma eq_mod_nz_agree (s t : mstate) : eq_mod_nz s t <-> agree false true all_cells s t.
Proof.
  unfold eq_mod_nz, agree. split.
  - intros (HA & HX & HY & HS & HV & HC & HM). repeat split; auto; discriminate.
  - intros (HA & HX & HY & HV & HC & _ & HS & HM). repeat split; auto. intros a. apply HM. exact I.
Qed.

Lemma eq_state_agree (s t : mstate) : eq_state s t <-> agree true true all_cells s t.
Proof.
  unfold eq_state. rewrite eq_mod_nz_agree. unfold agree. split.
  - intros ((HA & HX & HY & HV & HC & _ & HS & HM) & HN & HZ). auto 10.
  - intros (HA & HX & HY & HV & HC & HNZ & HS & HM). destruct (HNZ eq_refl).
    repeat split; auto; discriminate.
Qed.

Lemma outcome_eq_xagree (r r' : xres) : outcome_eq r r' <-> xagree true true all_cells r r'.
Proof. destruct r, r'; cbn [outcome_eq xagree]; rewrite ?eq_state_agree; reflexivity. Qed.

Lemma outcome_eq_mod_nz_xagree (r r' : xres) :
  outcome_eq_mod_nz r r' <-> xagree false true all_cells r r'.
Proof. destruct r, r'; cbn [outcome_eq_mod_nz xagree]; rewrite ?eq_mod_nz_agree; reflexivity. Qed.

(** every instruction respects [eq_state]; one that does not read N and Z respects [eq_mod_nz], and
    leaves equal states if it defines N and Z *)
Lemma exec_eq_state (cfg : config) (m : mnem) (op : operand) (s1 s2 : mstate) :
  eq_state s1 s2 -> outcome_eq (exec cfg m op s1) (exec cfg m op s2).
Proof.
  intros H. apply outcome_eq_xagree. apply eq_state_agree in H.
  apply (exec_agree true true all_cells cfg m op s1 s2 H); repeat split.
Qed.

Lemma exec_eq_mod_nz (cfg : config) (m : mnem) (op : operand) (s1 s2 : mstate) :
  reads_nz m = false -> eq_mod_nz s1 s2 ->
  xagree (defines_nz m) true all_cells (exec cfg m op s1) (exec cfg m op s2).
Proof.
  intros N H. apply eq_mod_nz_agree in H.
  apply (exec_agree false true all_cells cfg m op s1 s2 H); repeat split. congruence.
Qed.

Theorem defines_nz_dead : forall cfg m op s1 s2,
  defines_nz m = true -> eq_mod_nz s1 s2 ->
  outcome_eq (exec cfg m op s1) (exec cfg m op s2).
Proof.
  intros cfg m op s1 s2 D H. apply outcome_eq_xagree.
  rewrite <- D at 1. apply exec_eq_mod_nz; [|exact H]. destruct m; try discriminate D; reflexivity.
Qed.
Print Assumptions defines_nz_dead.

Definition is_store (m : mnem) : Prop := m = STA \/ m = STX \/ m = STY.

Theorem store_keeps_eq_mod_nz : forall cfg m op s1 s2,
  is_store m -> eq_mod_nz s1 s2 ->
  outcome_eq_mod_nz (exec cfg m op s1) (exec cfg m op s2).
Proof.
  intros cfg m op s1 s2 Hm H. apply outcome_eq_mod_nz_xagree.
  destruct Hm as [-> | [-> | ->]];
    [apply (exec_eq_mod_nz cfg STA)|apply (exec_eq_mod_nz cfg STX)|apply (exec_eq_mod_nz cfg STY)];
    first [reflexivity|exact H].
Qed.
Print Assumptions store_keeps_eq_mod_nz.

Lemma store_falls_through (cfg : config) (m : mnem) (op : operand) (s s' : mstate) (c : N) (f : flow) :
  is_store m -> exec cfg m op s = XOk s' c f -> f = FNext.
Proof.
  intros [-> | [-> | ->]] E; cbv beta iota zeta delta [exec] in E;
    match type of E with match ?x with _ => _ end = _ => destruct x as [[s0 c0]|] end;
    try discriminate; inversion E; reflexivity.
Qed.

Theorem store_then_defines_nz_dead : forall cfg m1 op1 m2 op2 s1 s2,
  is_store m1 -> defines_nz m2 = true -> eq_mod_nz s1 s2 ->
  outcome_eq (then_exec cfg (exec cfg m1 op1 s1) m2 op2) (then_exec cfg (exec cfg m1 op1 s2) m2 op2).
Proof.
  intros cfg m1 op1 m2 op2 s1 s2 Hm D H.
  pose proof (store_keeps_eq_mod_nz cfg m1 op1 s1 s2 Hm H) as K.
  destruct (exec cfg m1 op1 s1) as [t1 c1 f1|w1] eqn:E1;
    destruct (exec cfg m1 op1 s2) as [t2 c2 f2|w2] eqn:E2; cbn [outcome_eq_mod_nz] in K;
    try contradiction.
  - destruct K as (-> & -> & NZ).
    apply store_falls_through in E2; [|exact Hm]. subst f2.
    unfold then_exec.
    pose proof (defines_nz_dead cfg m2 op2 t1 t2 D NZ) as K2.
    destruct (exec cfg m2 op2 t1) as [u1 d1 g1|x1]; destruct (exec cfg m2 op2 t2) as [u2 d2 g2|x2];
      cbn [outcome_eq] in K2 |- *; try contradiction.
    + destruct K2 as (-> & -> & ES). auto.
    + exact K2.
  - subst w2. cbn [then_exec outcome_eq]. reflexivity.
Qed.
Print Assumptions store_then_defines_nz_dead.

Lemma is_load_defines_nz (m : mnem) : is_load m = true -> defines_nz m = true.
Proof. destruct m; try discriminate; reflexivity. Qed.

(** the LDX/LDY look-ahead: the next instruction executed behaves the same whatever N and Z are *)
Theorem ldxy_lookahead_dead : forall cfg ahead s1 s2,
  ldxy_lookahead ahead = true -> eq_mod_nz s1 s2 ->
  exists j, next_ins ahead = Some j /\ defines_nz (i_mn j) = true /\
            forall op, outcome_eq (exec cfg (i_mn j) op s1) (exec cfg (i_mn j) op s2).
Proof.
  intros cfg ahead s1 s2 L H.
  induction ahead as [|x t IH]; [discriminate L|].
  destruct x as [l|j|tx sz|cm|]; cbn [ldxy_lookahead next_ins] in L |- *; try discriminate L.
  - exists j. split; [reflexivity|]. split; [exact L|]. intros op. apply defines_nz_dead; assumption.
  - apply IH. exact L.
  - apply IH. exact L.
Qed.
Print Assumptions ldxy_lookahead_dead.

(** the LDA look-ahead: either the next instruction is a CMP, or it is a STA followed by a load *)
Theorem lda_lookahead_dead : forall cfg ahead s1 s2,
  lda_lookahead ahead = true -> eq_mod_nz s1 s2 ->
  exists j1 t, ahead = Ins j1 :: t /\
    ((i_mn j1 = CMP /\
      forall op, outcome_eq (exec cfg (i_mn j1) op s1) (exec cfg (i_mn j1) op s2)) \/
     (i_mn j1 = STA /\ exists j2, next_ins t = Some j2 /\ is_load (i_mn j2) = true /\
      forall op1 op2,
        outcome_eq (then_exec cfg (exec cfg (i_mn j1) op1 s1) (i_mn j2) op2)
                   (then_exec cfg (exec cfg (i_mn j1) op1 s2) (i_mn j2) op2))).
Proof.
  intros cfg ahead s1 s2 L H.
  unfold lda_lookahead in L.
  destruct ahead as [|[l|j1|tx sz|cm|] t]; try discriminate L.
  exists j1, t. split; [reflexivity|].
  destruct (i_mn j1) eqn:M; try discriminate L.
  - (* STA *) right. split; [reflexivity|].
    assert (HH : exists j2, next_ins t = Some j2 /\ is_load (i_mn j2) = true).
    { destruct t as [|[l|j2|tx sz|cm|] t']; try discriminate L.
      - exists j2. split; [reflexivity|exact L].
      - destruct t' as [|[l|j3|tx sz|cm|] t'']; try discriminate L.
        exists j3. split; [reflexivity|exact L]. }
    destruct HH as (j2 & N2 & L2). exists j2. split; [exact N2|]. split; [exact L2|].
    intros op1 op2. apply store_then_defines_nz_dead.
    + left. reflexivity.
    + apply is_load_defines_nz. exact L2.
    + exact H.
  - (* CMP *) left. split; [reflexivity|]. intros op. apply defines_nz_dead; [reflexivity|exact H].
Qed.
Print Assumptions lda_lookahead_dead.

(** [removal_sound] and the two look-ahead theorems put together: a load the model removes either
    leaves the state as it was, or changes N and Z only and what is executed next cannot tell *)
Theorem removal_dead : forall cfg k i ahead s s',
  ports cfg = [] -> know_sound cfg k s -> steps_to cfg i s s' ->
  snd (transfer k i ahead) = true ->
  eq_mod_nz s' s /\
  (eq_state s' s \/
   (exists j, next_ins ahead = Some j /\ defines_nz (i_mn j) = true /\
      forall op, outcome_eq (exec cfg (i_mn j) op s') (exec cfg (i_mn j) op s)) \/
   (exists j1 j2 t, ahead = Ins j1 :: t /\ i_mn j1 = STA /\ next_ins t = Some j2 /\
      is_load (i_mn j2) = true /\
      forall op1 op2,
        outcome_eq (then_exec cfg (exec cfg (i_mn j1) op1 s') (i_mn j2) op2)
                   (then_exec cfg (exec cfg (i_mn j1) op1 s) (i_mn j2) op2))).
Proof.
  intros cfg k i ahead s s' HP KS ST R.
  destruct (removal_sound cfg k i ahead s s' HP KS ST R) as [NZ [ES|[[_ L]|[_ L]]]].
  - split; [exact NZ|]. left. exact ES.
  - split; [exact NZ|].
    destruct (lda_lookahead_dead cfg ahead s' s L NZ) as (j1 & t & EA & [[M D]|[M (j2 & N2 & L2 & D)]]).
    + right. left. exists j1. split; [rewrite EA; reflexivity|]. split; [rewrite M; reflexivity|exact D].
    + right. right. exists j1, j2, t. auto.
  - split; [exact NZ|]. right. left. exact (ldxy_lookahead_dead cfg ahead s' s L NZ).
Qed.
Print Assumptions removal_dead.

(** closes [bytes_ok (cx_state ..)] on numerals and a memory of [mset]s over [mem_empty] *)
Ltac cx_bytes :=
  apply bytes_ok_cx; try lia;
  repeat (apply mget_mset_bytes; [|lia]); apply bytes_empty.

(** closes [steps_to] on closed terms, the final state an evar or not *)
Ltac cx_steps :=
  eexists; eexists; split; [vm_compute; reflexivity|vm_compute; reflexivity].

(** closes a clause [forall o, Some o' = Some o -> holds_in ..] of [know_sound] on closed terms *)
Ltac cx_holds :=
  let o := fresh "o" in let Ho := fresh "Ho" in
  intros o Ho; inversion Ho; subst o; cx_steps.

(** closes the remaining clauses of [know_sound] when each has a premise [None = Some _] or
    [FUnknown = _] *)
Ltac cx_rest := repeat (split; [discriminate|]); discriminate.

(** "A rule removes PLA; PHA": the stack, X, Y, V and memory are as before but A is not *)
Example rule_pla_pha_changes_a :
  exists cfg i1 i2 s s1 s2,
    bytes_ok s /\ i_mn i1 = PLA /\ i_mn i2 = PHA /\
    steps_to cfg i1 s s1 /\ steps_to cfg i2 s1 s2 /\ rA s2 <> rA s.
Proof.
  exists (cx_cfg "v" 128), (cx_ins PLA ""), (cx_ins PHA ""),
         (cx_state 0 0 0 254 (mset mem_empty 511 7)).
  eexists. eexists.
  split; [cx_bytes|]. split; [reflexivity|]. split; [reflexivity|].
  split; [cx_steps|]. split; [cx_steps|].
  vm_compute. discriminate.
Qed.
Print Assumptions rule_pla_pha_changes_a.

(** [transfer_sound] without [xfer_no_zp_y]: "LDX v,Y" (zp,Y: wraps) then TXA; the optimiser
    believes that A holds what "LDA v,Y" (abs,Y: does not wrap) would load.  v = $80, Y = $90. *)
Example transfer_sound_refuted_txa :
  exists cfg k i ahead s s',
    ports cfg = [] /\ bytes_ok s /\
    (i_mn i = PHA \/ i_mn i = PHP -> know_off_stack cfg k s) /\ ind_legal i /\
    know_sound cfg k s /\ steps_to cfg i s s' /\ snd (transfer k i ahead) = false /\
    ~ know_sound cfg (fst (transfer k i ahead)) s'.
Proof.
  exists (cx_cfg "v" 128), (mkK None (Some "v,Y"%string) None FUnknown), (cx_ins TXA ""), [],
         (cx_state 0 1 144 255 (mset (mset mem_empty 16 1) 272 2)).
  eexists.
  split; [reflexivity|]. split; [cx_bytes|].
  split; [intros [H|H]; discriminate H|].
  split; [intros y k H; vm_compute in H; discriminate H|].
  split.
  { unfold know_sound. cbn [k_acc k_x k_y k_flags].
    split; [discriminate|]. split; [cx_holds|]. cx_rest. }
  split; [cx_steps|]. split; [vm_compute; reflexivity|].
  intros (KA & _). specialize (KA "v,Y"%string eq_refl). destruct KA as (op & c & P & R).
  vm_compute in P. inversion P; subst op. vm_compute in R. discriminate R.
Qed.
Print Assumptions transfer_sound_refuted_txa.

(** the same with "LDA v,Y" then TAX *)
Example transfer_sound_refuted_tax :
  exists cfg k i ahead s s',
    ports cfg = [] /\ bytes_ok s /\
    (i_mn i = PHA \/ i_mn i = PHP -> know_off_stack cfg k s) /\ ind_legal i /\
    know_sound cfg k s /\ steps_to cfg i s s' /\ snd (transfer k i ahead) = false /\
    ~ know_sound cfg (fst (transfer k i ahead)) s'.
Proof.
  exists (cx_cfg "v" 128), (mkK (Some "v,Y"%string) None None FUnknown), (cx_ins TAX ""), [],
         (cx_state 2 0 144 255 (mset (mset mem_empty 16 1) 272 2)).
  eexists.
  split; [reflexivity|]. split; [cx_bytes|].
  split; [intros [H|H]; discriminate H|].
  split; [intros y k H; vm_compute in H; discriminate H|].
  split.
  { unfold know_sound. cbn [k_acc k_x k_y k_flags].
    split; [cx_holds|]. split; [discriminate|]. cx_rest. }
  split; [cx_steps|]. split; [vm_compute; reflexivity|].
  intros (_ & KX & _). specialize (KX "v,Y"%string eq_refl). destruct KX as (op & c & P & R).
  vm_compute in P. inversion P; subst op. vm_compute in R. discriminate R.
Qed.
Print Assumptions transfer_sound_refuted_tax.

(** [transfer_sound] without [ind_legal]: the semantics executes "LDY (p),Y" (not a 6502
    instruction); the new Y is not what "LDY (p),Y" would load next *)
Example transfer_sound_refuted_ldy_ind :
  exists cfg k i ahead s s',
    ports cfg = [] /\ bytes_ok s /\
    (i_mn i = PHA \/ i_mn i = PHP -> know_off_stack cfg k s) /\ xfer_no_zp_y cfg k i /\
    know_sound cfg k s /\ steps_to cfg i s s' /\ snd (transfer k i ahead) = false /\
    ~ know_sound cfg (fst (transfer k i ahead)) s'.
Proof.
  exists (cx_cfg "p" 16), (mkK None None None FUnknown), (cx_ins LDY "(p),Y"), [],
         (cx_state 0 0 1 255 (mset (mset (mset (mset mem_empty 16 0) 17 2) 513 5) 517 9)).
  eexists.
  split; [reflexivity|]. split; [cx_bytes|].
  split; [intros [H|H]; discriminate H|].
  split; [split; discriminate|].
  split.
  { unfold know_sound. cbn [k_acc k_x k_y k_flags]. repeat split; discriminate. }
  split; [cx_steps|]. split; [vm_compute; reflexivity|].
  intros (_ & _ & KY & _). specialize (KY "(p),Y"%string eq_refl). destruct KY as (op & c & P & R).
  vm_compute in P. inversion P; subst op. vm_compute in R. discriminate R.
Qed.
Print Assumptions transfer_sound_refuted_ldy_ind.

(** [transfer_sound] without the stack-page hypothesis: PHA overwrites the cell X is known to mirror *)
Example transfer_sound_refuted_pha :
  exists cfg k i ahead s s',
    ports cfg = [] /\ bytes_ok s /\ ind_legal i /\ xfer_no_zp_y cfg k i /\
    know_sound cfg k s /\ steps_to cfg i s s' /\ snd (transfer k i ahead) = false /\
    ~ know_sound cfg (fst (transfer k i ahead)) s'.
Proof.
  exists (cx_cfg "stk" 511), (mkK None (Some "stk"%string) None FUnknown), (cx_ins PHA ""), [],
         (cx_state 9 3 0 255 (mset mem_empty 511 3)).
  eexists.
  split; [reflexivity|]. split; [cx_bytes|].
  split; [intros y k H; vm_compute in H; discriminate H|].
  split; [split; discriminate|].
  split.
  { unfold know_sound. cbn [k_acc k_x k_y k_flags].
    split; [discriminate|]. split; [cx_holds|]. cx_rest. }
  split; [cx_steps|]. split; [vm_compute; reflexivity|].
  intros (_ & KX & _). specialize (KX "stk"%string eq_refl). destruct KX as (op & c & P & R).
  vm_compute in P. inversion P; subst op. vm_compute in R. discriminate R.
Qed.
Print Assumptions transfer_sound_refuted_pha.

(** STA (p),Y that hits p itself (p at $10 holds $0010, Y = 0): the reload reads through the
    new pointer *)
Example rule_sta_lda_refuted :
  exists cfg i1 i2 s s1 s2,
    ports cfg = [] /\ bytes_ok s /\ i_mn i1 = STA /\ i_mn i2 = LDA /\ i_op i1 = i_op i2 /\
    steps_to cfg i1 s s1 /\ steps_to cfg i2 s1 s2 /\ ~ eq_mod_nz s2 s1.
Proof.
  exists (cx_cfg "p" 16), (cx_ins STA "(p),Y"), (cx_ins LDA "(p),Y"),
         (cx_state 32 0 0 255 (mset (mset mem_empty 16 16) 32 7)).
  eexists. eexists.
  split; [reflexivity|]. split; [cx_bytes|]. split; [reflexivity|]. split; [reflexivity|].
  split; [reflexivity|]. split; [cx_steps|]. split; [cx_steps|].
  intros (HA & _). vm_compute in HA. discriminate HA.
Qed.
Print Assumptions rule_sta_lda_refuted.

(** "LDY (p),Y; STY (p),Y" (executable in the semantics only): the store goes elsewhere *)
Example rule_ld_st_refuted :
  exists cfg i1 i2 s s1 s2,
    ports cfg = [] /\ bytes_ok s /\ i_mn i1 = LDY /\ i_mn i2 = STY /\ i_op i1 = i_op i2 /\
    steps_to cfg i1 s s1 /\ steps_to cfg i2 s1 s2 /\ ~ eq_state s2 s1.
Proof.
  exists (cx_cfg "p" 16), (cx_ins LDY "(p),Y"), (cx_ins STY "(p),Y"),
         (cx_state 0 0 1 255 (mset (mset (mset (mset mem_empty 16 0) 17 2) 513 5) 517 9)).
  eexists. eexists.
  split; [reflexivity|]. split; [cx_bytes|]. split; [reflexivity|]. split; [reflexivity|].
  split; [reflexivity|]. split; [cx_steps|]. split; [cx_steps|].
  intros ((_ & _ & _ & _ & _ & _ & HM) & _). specialize (HM 517). vm_compute in HM. discriminate HM.
Qed.
Print Assumptions rule_ld_st_refuted.

(** "LDY #4; LDY (p),Y": the second load depends on the first *)
Example rule_load_load_refuted :
  exists cfg i1 i2 s s1 s2,
    i_mn i1 = LDY /\ i_mn i2 = LDY /\ steps_to cfg i1 s s1 /\ steps_to cfg i2 s1 s2 /\
    ~ exists s2', steps_to cfg i2 s s2' /\ eq_state s2' s2.
Proof.
  exists (cx_cfg "p" 16), (cx_ins LDY "#4"), (cx_ins LDY "(p),Y"),
         (cx_state 0 0 1 255 (mset (mset (mset (mset mem_empty 16 0) 17 2) 513 5) 516 9)).
  eexists. eexists.
  split; [reflexivity|]. split; [reflexivity|]. split; [cx_steps|]. split; [cx_steps|].
  intros (s2' & (op & c & P & E) & EQ).
  vm_compute in P. inversion P; subst op. vm_compute in E. inversion E; subst s2'.
  destruct EQ as ((_ & _ & HY & _) & _). vm_compute in HY. discriminate HY.
Qed.
Print Assumptions rule_load_load_refuted.

(** Why the removal of a repeated LDX asks that N and Z describe X (or are dead): X is known to
    hold "#5", N and Z describe A = 0 (knowledge [FA], e.g. after "LDX #5; LDA #0"); "LDX #5"
    clears Z, so removing it changes what a following BEQ does *)
Definition cx_ldx_state : mstate := mkS 0 5 0 255 false false true false mem_empty.

Lemma cx_ldx_know_sound :
  know_sound (cx_cfg "v" 128) (mkK None (Some "#5"%string) None FA) cx_ldx_state.
Proof.
  unfold know_sound. cbn [k_acc k_x k_y k_flags].
  split; [discriminate|]. split; [cx_holds|]. split; [discriminate|].
  split; [intros _; split; reflexivity|]. split; discriminate.
Qed.

Example ldx_removal_needs_flags :
  exists cfg k i s s',
    know_sound cfg k s /\ steps_to cfg i s s' /\ i_mn i = LDX /\ k_x k = Some (i_op i) /\
    ~ eq_state s' s.
Proof.
  exists (cx_cfg "v" 128), (mkK None (Some "#5"%string) None FA), (cx_ins LDX "#5"), cx_ldx_state.
  eexists.
  split; [exact cx_ldx_know_sound|]. split; [cx_steps|]. split; [reflexivity|]. split; [reflexivity|].
  intros (_ & _ & HZ). vm_compute in HZ. discriminate HZ.
Qed.
Print Assumptions ldx_removal_needs_flags.

(** the same situation, spelt out: the BEQ that follows is taken without the LDX and not taken
    with it; the model keeps the LDX *)
Example ldx_removal_changes_beq :
  exists cfg k i s s',
    know_sound cfg k s /\ k_flags k = FA /\ steps_to cfg i s s' /\ i_mn i = LDX /\
    k_x k = Some (i_op i) /\
    exec cfg BEQ (OLbl "l") s = XOk s 3%N (FGoto "l") /\
    exec cfg BEQ (OLbl "l") s' = XOk s' 2%N FNext /\
    snd (transfer k i [Ins (cx_ins BEQ "l")]) = false.
Proof.
  exists (cx_cfg "v" 128), (mkK None (Some "#5"%string) None FA), (cx_ins LDX "#5"), cx_ldx_state.
  eexists.
  split; [exact cx_ldx_know_sound|]. split; [reflexivity|]. split; [cx_steps|].
  split; [reflexivity|]. split; [reflexivity|].
  split; [vm_compute; reflexivity|]. split; [vm_compute; reflexivity|].
  vm_compute. reflexivity.
Qed.
Print Assumptions ldx_removal_changes_beq.
