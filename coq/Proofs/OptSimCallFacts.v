(** GLOBAL simulation theorems on whole PROGRAMS, with calls and returns (C02, C03).

    One function body.  [grun Or] (Model/OptSimCall.v) executes a body in which [JSR f] is a step
    answered by an oracle [Or] and [RTS] ends the body.  Runs from related states under related
    oracles are related: one induction, [grun_sim], over any relation that each instruction
    respects ([exec_keeps]; for blocks [gbexec_sim]); the relations used are equality
    ([grun_mono]) and equality of byte-valued states ([eq_bytes], [grun_eq]; of a state with
    itself it says byte-valuedness, [gbexec_bytes]).

    Windows.  [shift_sim]: in [A ++ D ++ T] the window [D], without label (so entered only at its
    top, since branches go to labels), is replaced by [M], whose labels are fresh; the two runs
    are in states related by a relation that one step of the new code respects, and from the top
    of [D] every run that ends leaves [D] at a place and in a state that [M] reaches too.  By
    induction on the length of the run, which may cross the window any number of times and make
    any calls outside it; positions outside the window shift.  Its two instances:
    - [window_run] / [window]: windows of the same length, without label and without call, that
      from every byte-valued state leave by the same exit (fall through, jump to the same place,
      return) in equal states; the relation is [eq_bytes], for every oracle that respects it
      ([oracle_ok]); the exit of the old window is matched block by block ([window_entry]:
      [grun_block_inv], [grun_block]);
    - [gwindow_gen_sim] / [gwindow_gen]: windows of different lengths, the same states, any oracle.

    The optimiser.  As in Proofs/OptSimFacts.v the walk of [optimize] is a sequence of rewritings
    of the whole code; each touches a window without label and without call, after a common
    prefix: [rewrite_equiv], from a simulation of the old window by the new one ([bsim]) in every
    state in which the lines since the last label or call can leave that prefix.  The knowledge
    is sound after the first instruction for EVERY state in which that block can be entered
    ([KInvC]): it is reset at labels and at calls, so it only depends on the lines since the last
    of them ([kinv_start], [kinv_advance], [kinv_removed], [kinv_rf], [kinv_sw]); a JSR is a
    barrier exactly like a label, and no rewriting touches one.  The phases of [step]
    (labelled (J), (S), (P)+(T)+(A) in Model/Optimize.v) are treated by [step_jmp_cf],
    [step_second_cf] and [step_pair_cf]; remove_both (the known-compare rule) is EXCLUDED by
    hypothesis.  Result: [optimize_call_equiv].

    The long-branch repair.  The window is one block, the branch (and the BEQ after it):
    [genters_block] reduces the condition of [gwindow_gen] to the exits of that block, which the
    three-line and the five-line repair reach line by line ([genters_mid3], [genters_mid5]);
    the iteration by [cb_loop_invariant]: [check_branches_call_sound].
    Proofs/OptSimCFFacts.v and Proofs/CbSimFacts.v read these theorems on code without calls.

    Whole programs.  [call cfg P K d] (Model/OptSimCall.v) is the effect of a JSR at call depth [d]:
    the two marker bytes pushed, the callee's body run under the oracle [call cfg P K' (S d)], the
    markers checked and pulled, as in [Sem.run]; [phalts]: main ends.  [prog_sim]: a per-function
    transformation that is sound for every good oracle ([sound_pass]) is sound on whole programs,
    by induction on the nesting bound (a body of the transformed program runs under the oracle of
    the transformed program: [grun_sim] with the calls of the transformed program, of growing
    bound, as the family of oracles); passes compose ([pass_comp]).  Adequacy: [phalts] is
    [Sem.run_function] with its explicit stack of frames, in both directions ([phalts_run_halts],
    [run_halts_phalts]: [body_runs] / [call_runs_all], [halt_body]).  Theorems, each on [phalts]
    and on [Sem.run_function] ([run_halts]):
      [optimize_program_sound] / [optimize_program_run]            every function optimised
      [check_branches_program_sound] / [check_branches_program_run]  every function repaired
      [pipeline_program_sound] / [pipeline_program_run]            optimised, then repaired (-O1)
    Calls may nest to any depth and be recursive. *)
From Coq Require Import String Ascii List Bool NArith ZArith Lia Arith.
From CC Require Import Base.Str Asm.Lines M6502.Isa Asm.Operand M6502.Sem
     Model.Optimize Model.OptSpec Model.OptSem Model.OptSim Model.OptSimCF Model.CheckBranches
     Model.CbSpec Model.CbSim Model.OptSimCall Proofs.ExecFacts Proofs.OptSemFacts Proofs.OptSimFacts Proofs.CbFacts.
From CC Require Proofs.OptFacts Proofs.GenTemplatesFacts.
Import ListNotations.
Open Scope Z_scope.
Open Scope list_scope.

#[local] Opaque mget mset byte.
#[local] Arguments mget : simpl never.
#[local] Arguments mset : simpl never.
#[local] Arguments byte : simpl never.

(** a window ([nobarc]) holds no label, no inline assembly and no JSR: it is entered only at
    its top and asks the oracle nothing.  [nobar] of Proofs/OptSimCFFacts.v is the same but for
    the JSR, which [crun] does not execute anyway. *)
Definition wline (x : line) : bool :=
  match x with
  | Ins i => negb (mnem_eqb (i_mn i) JSR)
  | Cmt _ | Dummy => true
  | _ => false
  end.
Definition nobarc (w : code) : bool := forallb wline w.

Lemma nobarc_cons (x : line) (w : code) :
  nobarc (x :: w) = true -> wline x = true /\ nobarc w = true.
Proof. unfold nobarc. cbn [forallb]. intros H. apply andb_true_iff in H. exact H. Qed.

Lemma nobarc_app (a b : code) : nobarc (a ++ b) = nobarc a && nobarc b.
Proof. unfold nobarc. apply forallb_app. Qed.

Lemma forallb_lbls (p : line -> bool) (w : code) :
  (forall l, p (Lbl l) = false) -> forallb p w = true -> lbls w = [].
Proof.
  intros NL. induction w as [|x w IH]; intros H; [reflexivity|].
  cbn [forallb] in H. apply andb_true_iff in H. destruct H as [H1 H2].
  destruct x; try exact (IH H2). rewrite NL in H1. discriminate H1.
Qed.

Lemma nobarc_lbls (w : code) : nobarc w = true -> lbls w = [].
Proof. exact (forallb_lbls wline w (fun _ => eq_refl)). Qed.

Lemma nobarc_no_call (w : code) (i : instr) : nobarc w = true -> In (Ins i) w -> i_mn i <> JSR.
Proof.
  intros N I J. pose proof (proj1 (forallb_forall _ w) N _ I) as X.
  cbn [wline] in X. rewrite J in X. discriminate X.
Qed.

Lemma lbls_app (a b : code) : lbls (a ++ b) = lbls a ++ lbls b.
Proof.
  induction a as [|x a IH]; [reflexivity|].
  destruct x; cbn [app lbls]; rewrite IH; reflexivity.
Qed.

Lemma find_lbl_app (l : string) (a b : code) :
  find_lbl l (a ++ b) =
  match find_lbl l a with
  | Some k => Some k
  | None => option_map (fun k => (length a + k)%nat) (find_lbl l b)
  end.
Proof.
  induction a as [|x a IH]; cbn [app length].
  - cbn [find_lbl]. destruct (find_lbl l b); reflexivity.
  - destruct x as [y|i|t sz|cm|]; cbn [find_lbl]; try destruct (String.eqb y l); try reflexivity;
      rewrite IH; destruct (find_lbl l a); cbn [option_map]; try reflexivity;
      destruct (find_lbl l b); reflexivity.
Qed.

Lemma find_lbl_nth (l : string) (c : code) : forall k,
  find_lbl l c = Some k -> nth_error c k = Some (Lbl l).
Proof.
  induction c as [|x c IH]; intros k H; [discriminate H|].
  assert (G : option_map S (find_lbl l c) = Some k -> nth_error (x :: c) k = Some (Lbl l)).
  { destruct (find_lbl l c) as [j|]; [|discriminate]. intros E. inversion E; subst. apply IH. reflexivity. }
  destruct x as [y|i|t sz|cm|]; cbn [find_lbl] in H; try (apply G; exact H).
  destruct (String.eqb_spec y l) as [->|NE]; [inversion H; reflexivity|apply G; exact H].
Qed.

Lemma find_lbl_lt (l : string) (c : code) (k : nat) : find_lbl l c = Some k -> (k < length c)%nat.
Proof. intros H. apply find_lbl_nth in H. apply nth_error_Some. rewrite H. discriminate. Qed.

Lemma lbls_all_labels (c : code) : lbls c = all_labels c.
Proof.
  induction c as [|x c IH]; [reflexivity|].
  destruct x; cbn [lbls]; unfold all_labels; cbn [flat_map app]; fold (all_labels c); rewrite IH; reflexivity.
Qed.

Lemma find_lbl_in (l : string) (a : code) (k : nat) : find_lbl l a = Some k -> In l (all_labels a).
Proof.
  intros H. apply find_lbl_nth in H. apply nth_error_In in H.
  unfold all_labels. apply in_flat_map. exists (Lbl l). split; [exact H|left; reflexivity].
Qed.

Lemma find_lbl_not_in (l : string) (a : code) : ~ In l (all_labels a) -> find_lbl l a = None.
Proof. intros H. destruct (find_lbl l a) as [k|] eqn:F; [destruct (H (find_lbl_in l a k F))|reflexivity]. Qed.

Lemma find_lbl_none (l : string) (a : code) : ~ In l (lbls a) -> find_lbl l a = None.
Proof. rewrite lbls_all_labels. apply find_lbl_not_in. Qed.

Lemma find_lbl_nolbl (l : string) (w : code) : lbls w = [] -> find_lbl l w = None.
Proof. intros E. apply find_lbl_none. rewrite E. intros []. Qed.

Lemma find_lbl_swap (l : string) (L W W' R : code) :
  lbls W = [] -> lbls W' = [] -> length W = length W' ->
  find_lbl l (L ++ W ++ R) = find_lbl l (L ++ W' ++ R).
Proof.
  intros N N' E. rewrite !find_lbl_app, (find_lbl_nolbl l W N), (find_lbl_nolbl l W' N'), E.
  reflexivity.
Qed.

Lemma find_lbl_around (l : string) (L W R : code) (k : nat) :
  lbls W = [] -> find_lbl l (L ++ W ++ R) = Some k ->
  (k < length L \/ length L + length W <= k)%nat.
Proof.
  intros N H. rewrite !find_lbl_app, (find_lbl_nolbl l W N) in H.
  destruct (find_lbl l L) as [j|] eqn:F.
  - inversion H; subst j. left. exact (find_lbl_lt l L k F).
  - destruct (find_lbl l R) as [j|]; cbn [option_map] in H; [|discriminate H].
    inversion H. right. lia.
Qed.

Lemma find_lbl_window (l : string) (L W W' R : code) :
  nobarc W = true -> nobarc W' = true -> length W = length W' ->
  find_lbl l (L ++ W ++ R) = find_lbl l (L ++ W' ++ R).
Proof. intros N N'. exact (find_lbl_swap l L W W' R (nobarc_lbls W N) (nobarc_lbls W' N')). Qed.

Lemma find_lbl_outside (l : string) (L W R : code) (k : nat) :
  nobarc W = true -> find_lbl l (L ++ W ++ R) = Some k ->
  (k < length L \/ length L + length W <= k)%nat.
Proof. intros N. exact (find_lbl_around l L W R k (nobarc_lbls W N)). Qed.

Lemma nth_mid (A M T : code) (i : nat) (x : line) :
  nth_error M i = Some x -> nth_error (A ++ M ++ T) (i + length A) = Some x.
Proof.
  intros H. rewrite Nat.add_comm, nth_embed; [exact H|]. apply nth_error_Some. rewrite H. discriminate.
Qed.

Lemma cfc_ok_cons (cfg : config) (x : line) (c : code) :
  cfc_ok cfg (x :: c) = true -> cfc_line_ok cfg x = true /\ cfc_ok cfg c = true.
Proof. unfold cfc_ok. cbn [forallb]. intros H. apply andb_true_iff in H. exact H. Qed.

Lemma cfc_ok_app (cfg : config) (a b : code) :
  cfc_ok cfg (a ++ b) = true <-> cfc_ok cfg a = true /\ cfc_ok cfg b = true.
Proof. unfold cfc_ok. rewrite forallb_app. apply andb_true_iff. Qed.

Lemma cfc_ins_mnem (cfg : config) (i : instr) : cfc_ins_ok cfg i = true -> cfc_mnem (i_mn i) = true.
Proof.
  unfold cfc_ins_ok. intros H. apply andb_true_iff in H. destruct H as [H _].
  apply andb_true_iff in H. exact (proj1 H).
Qed.

Lemma grun_add (Or : oracle) (cfg : config) (c : code) (a b : nat) : forall pc s,
  grun Or cfg c (a + b) pc s =
  match grun Or cfg c a pc s with Some (pc1, s1) => grun Or cfg c b pc1 s1 | None => None end.
Proof.
  induction a as [|a IH]; intros pc s; [reflexivity|].
  cbn [Nat.add grun].
  destruct (nth_error c pc) as [[l|i|t sz|cm|]|]; try reflexivity; try apply IH.
  destruct (parse_operand (i_mn i) (i_op i)) as [op|]; [|reflexivity].
  destruct (exec cfg (i_mn i) op s) as [s1 k f|w]; [|reflexivity].
  destruct f as [|l|g| |]; try reflexivity; try apply IH.
  - destruct (find_lbl l c); [apply IH|reflexivity].
  - destruct (Or g s1); [apply IH|reflexivity].
Qed.

Lemma grun_end_stuck (Or : oracle) (cfg : config) (c : code) (n : nat) (pc : nat) (s : mstate) :
  (length c <= pc)%nat -> grun Or cfg c (S n) pc s = None.
Proof. intros H. cbn [grun]. rewrite (proj2 (nth_error_None c pc) H). reflexivity. Qed.

Lemma grun_pos (Or : oracle) (cfg : config) (c : code) (n pc e : nat) (s fin : mstate) :
  grun Or cfg c n pc s = Some (e, fin) -> (pc < length c \/ pc = e)%nat.
Proof.
  intros H. destruct (Nat.lt_ge_cases pc (length c)) as [A|A]; [left; exact A|right].
  destruct n as [|n]; [cbn [grun] in H; inversion H; reflexivity|].
  rewrite grun_end_stuck in H by exact A. discriminate H.
Qed.

Definition exec_keeps (cfg : config) (R : mstate -> mstate -> Prop) (i : instr) : Prop :=
  forall op s t s1 k f, R s t -> exec cfg (i_mn i) op s = XOk s1 k f ->
    exists t1, exec cfg (i_mn i) op t = XOk t1 k f /\ R s1 t1.

Definition eq_bytes (s t : mstate) : Prop := eq_state s t /\ bytes_ok s /\ bytes_ok t.

Lemma keeps_eq (cfg : config) (i : instr) : exec_keeps cfg eq i.
Proof. intros op s t s1 k f <- X. eauto. Qed.

Lemma keeps_eq_bytes (cfg : config) (i : instr) : exec_keeps cfg eq_bytes i.
Proof.
  intros op s t s1 k f (E & HBs & HBt) X1.
  pose proof (exec_eq_state cfg (i_mn i) op s t E) as X. rewrite X1 in X.
  destruct (exec cfg (i_mn i) op t) as [t1 k2 f2|w2] eqn:X2; cbn [outcome_eq] in X; [|contradiction].
  destruct X as (<- & <- & X). exists t1. split; [reflexivity|]. split; [exact X|].
  split; [exact (GenTemplatesFacts.exec_bytes_ok _ _ _ _ _ _ _ X1 HBs)
         |exact (GenTemplatesFacts.exec_bytes_ok _ _ _ _ _ _ _ X2 HBt)].
Qed.

Definition oracle_le (O1 O2 : oracle) : Prop := forall f s s1, O1 f s = Some s1 -> O2 f s = Some s1.

(** The second run is under a family of oracles growing with its index (in [body_sim]: the calls
    of the transformed program, by nesting bound).  Each call of [Oc] is answered from some index
    on, and a run makes finitely many calls: the run is matched from the largest of these on. *)
Lemma grun_sim (R : mstate -> mstate -> Prop) (Oc : oracle) (Fam : nat -> oracle) (cfg : config) (c : code) :
  (forall i, In (Ins i) c -> exec_keeps cfg R i) ->
  (forall K K', (K <= K')%nat -> oracle_le (Fam K) (Fam K')) ->
  (forall f s t s1, R s t -> Oc f s = Some s1 -> exists K t1, Fam K f t = Some t1 /\ R s1 t1) ->
  forall n pc s t p s1, R s t -> grun Oc cfg c n pc s = Some (p, s1) ->
    exists K0, forall K, (K0 <= K)%nat ->
      exists t1, grun (Fam K) cfg c n pc t = Some (p, t1) /\ R s1 t1.
Proof.
  intros KE MONO REL. induction n as [|n IH]; intros pc s t p s1 E H.
  - cbn [grun] in H. inversion H; subst. exists O. intros K _. exists t. auto.
  - (* one line, the same for every member of the family from [K1] on, then the rest *)
    assert (GO : forall pc1 v1 v2 K1, R v1 v2 -> grun Oc cfg c n pc1 v1 = Some (p, s1) ->
              (forall K, (K1 <= K)%nat -> grun (Fam K) cfg c (S n) pc t = grun (Fam K) cfg c n pc1 v2) ->
              exists K0, forall K, (K0 <= K)%nat ->
                exists t1, grun (Fam K) cfg c (S n) pc t = Some (p, t1) /\ R s1 t1).
    { intros pc1 v1 v2 K1 RV G HX. destruct (IH _ _ _ _ _ RV G) as [K2 HK]. exists (Nat.max K1 K2).
      intros K LE. rewrite (HX K) by lia. apply HK. lia. }
    cbn [grun] in H.
    destruct (nth_error c pc) as [[l|i|tx sz|cm|]|] eqn:NC; try discriminate H.
    1, 3, 4: (apply (GO (S pc) s t O E H); intros K _; cbn [grun]; rewrite NC; reflexivity).
    destruct (parse_operand (i_mn i) (i_op i)) as [op|] eqn:PO; [|discriminate H].
    destruct (exec cfg (i_mn i) op s) as [u1 c1 f1|w1] eqn:X1; [|discriminate H].
    destruct (KE i (nth_error_In _ _ NC) op s t u1 c1 f1 E X1) as (u2 & X2 & X).
    destruct f1 as [|l|g| |]; try discriminate H.
    + apply (GO (S pc) u1 u2 O X H). intros K _. cbn [grun]. rewrite NC, PO, X2. reflexivity.
    + destruct (find_lbl l c) as [j|] eqn:F; [|discriminate H].
      apply (GO j u1 u2 O X H). intros K _. cbn [grun]. rewrite NC, PO, X2, F. reflexivity.
    + destruct (Oc g u1) as [v1|] eqn:OG; [|discriminate H].
      destruct (REL g u1 u2 v1 X OG) as (K1 & v2 & FG & RV).
      apply (GO (S pc) v1 v2 K1 RV H). intros K LE. cbn [grun].
      rewrite NC, PO, X2, (MONO K1 K LE g u2 v2 FG). reflexivity.
    + apply (GO (S (length c)) u1 u2 O X H). intros K _. cbn [grun]. rewrite NC, PO, X2. reflexivity.
Qed.

Lemma grun_sim1 (R : mstate -> mstate -> Prop) (O1 O2 : oracle) (cfg : config) (c : code) :
  (forall i, In (Ins i) c -> exec_keeps cfg R i) ->
  (forall f s t s1, R s t -> O1 f s = Some s1 -> exists t1, O2 f t = Some t1 /\ R s1 t1) ->
  forall n pc s t p s1, R s t -> grun O1 cfg c n pc s = Some (p, s1) ->
    exists t1, grun O2 cfg c n pc t = Some (p, t1) /\ R s1 t1.
Proof.
  intros KE REL n pc s t p s1 E H.
  destruct (grun_sim R O1 (fun _ => O2) cfg c KE (fun _ _ _ f x x1 X => X)
              (fun f x y x1 RX HX => ex_intro _ O (REL f x y x1 RX HX)) n pc s t p s1 E H) as [K0 HK].
  exact (HK K0 (le_n _)).
Qed.

Lemma grun_mono (O1 O2 : oracle) (cfg : config) (c : code) :
  oracle_le O1 O2 -> forall n pc s r, grun O1 cfg c n pc s = Some r -> grun O2 cfg c n pc s = Some r.
Proof.
  intros LE n pc s [p s1] H.
  assert (REL : forall f x y x1, x = y -> O1 f x = Some x1 -> exists y1, O2 f y = Some y1 /\ x1 = y1).
  { intros f x y x1 <- HX. exists x1. split; [exact (LE f x x1 HX)|reflexivity]. }
  destruct (grun_sim1 eq O1 O2 cfg c (fun i _ => keeps_eq cfg i) REL n pc s s p s1 eq_refl H) as (t1 & G & <-).
  exact G.
Qed.

(** [A ++ D ++ T] becomes [A ++ M ++ T]; [D] contains no label (so it is entered only at its top);
    the labels of [M] are fresh (so no branch of the old run can target them, and every old label
    is found again where [shift] sends it, [gfind_lbl_shift]). *)

Section Shift.
  Variables (A D M T : code).
  Open Scope nat_scope.

  Let c := A ++ D ++ T.
  Let c' := A ++ M ++ T.
  Let sh := shift (length A) (length D) (length M).

  Lemma sh_lo (p : nat) : p < length A + length D -> sh p = p.
  Proof. intros H. unfold sh, shift. apply Nat.ltb_lt in H. rewrite H. reflexivity. Qed.

  Lemma sh_hi (p : nat) : length A + length D <= p -> sh p = p - length D + length M.
  Proof. intros H. unfold sh, shift. apply Nat.ltb_ge in H. rewrite H. reflexivity. Qed.

  Lemma sh_same (p : nat) : length D = length M -> sh p = p.
  Proof. intros E. destruct (Nat.lt_ge_cases p (length A + length D)); [apply sh_lo|rewrite sh_hi]; lia. Qed.

  Lemma sh_len : sh (length c) = length c'.
  Proof. unfold c, c'. rewrite sh_hi; rewrite !app_length; lia. Qed.

  Lemma sh_S (p : nat) : p < length A \/ length A + length D <= p -> D <> [] -> sh (S p) = S (sh p).
  Proof.
    intros [H|H] NE.
    - assert (0 < length D) by (destruct D; [congruence|cbn; lia]).
      rewrite !sh_lo by lia. reflexivity.
    - rewrite !sh_hi by lia. lia.
  Qed.

  Lemma sh_endpos (r : bool) : D <> [] -> sh (endpos c r) = endpos c' r.
  Proof.
    intros NE. assert (LC : length A + length D <= length c) by (unfold c; rewrite !app_length; lia).
    unfold endpos. destruct r; [|exact sh_len].
    rewrite (sh_S (length c)); [rewrite sh_len; reflexivity|right; lia|exact NE].
  Qed.

  Lemma gnth_shift (p : nat) :
    p < length A \/ length A + length D <= p -> nth_error c' (sh p) = nth_error c p.
  Proof.
    unfold c, c'. intros [H|H].
    - rewrite sh_lo by lia. rewrite !nth_error_app1 by lia. reflexivity.
    - rewrite sh_hi by lia. rewrite !(nth_error_app2 A) by lia. rewrite !nth_error_app2 by lia.
      f_equal. lia.
  Qed.

  Hypothesis HD : all_labels D = [].
  Hypothesis FRESH : forall l, In l (all_labels M) -> ~ In l (all_labels (A ++ D ++ T)).

  Lemma gfind_lbl_shift (l : string) (k : nat) :
    find_lbl l c = Some k ->
    find_lbl l c' = Some (sh k) /\ (k < length A \/ length A + length D <= k).
  Proof.
    intros H. assert (NM : find_lbl l M = None).
    { apply find_lbl_not_in. intros I. exact (FRESH l I (find_lbl_in l c k H)). }
    unfold c, c' in H |- *. rewrite find_lbl_app in H |- *.
    destruct (find_lbl l A) as [j|] eqn:FA.
    - inversion H; subst j. pose proof (find_lbl_lt l A k FA) as L.
      split; [|left; exact L]. rewrite sh_lo by lia. reflexivity.
    - rewrite find_lbl_app in H |- *. rewrite (find_lbl_not_in l D) in H by (rewrite HD; intros []). rewrite NM.
      destruct (find_lbl l T) as [j|]; cbn [option_map] in H |- *; [|discriminate H].
      inversion H; subst k. split; [|right; lia]. rewrite sh_hi by lia. f_equal. lia.
  Qed.

  Variable Or : oracle.
  Variable cfg : config.
  Hypothesis NE : D <> [].

  Lemma grun_one_shift (p p1 : nat) (s s1 : mstate) :
    p < length A \/ length A + length D <= p -> grun Or cfg c 1 p s = Some (p1, s1) ->
    grun Or cfg c' 1 (sh p) s = Some (sh p1, s1) /\ (p1 <= length A \/ length A + length D <= p1).
  Proof.
    intros OUT. cbn [grun]. rewrite (gnth_shift p OUT).
    assert (LD : 0 < length D) by (destruct D; [congruence|cbn; lia]).
    assert (NXT : forall t : mstate, Some (S (sh p), t) = Some (sh (S p), t) /\
                            (S p <= length A \/ length A + length D <= S p)).
    { intros t. rewrite (sh_S p OUT NE). split; [reflexivity|lia]. }
    destruct (nth_error c p) as [[l|i|tx sz|cm|]|]; try discriminate;
      try solve [intros H; inversion H; subst; apply NXT].
    destruct (parse_operand (i_mn i) (i_op i)) as [op|]; [|discriminate].
    destruct (exec cfg (i_mn i) op s) as [s2 k f|w]; [|discriminate].
    destruct f as [|l|g| |]; try discriminate.
    - intros H. inversion H; subst. apply NXT.
    - destruct (find_lbl l c) as [j|] eqn:F; [|discriminate].
      destruct (gfind_lbl_shift l j F) as [F' OK]. rewrite F'. intros H. inversion H; subst.
      split; [reflexivity|lia].
    - destruct (Or g s2); [|discriminate]. intros H. inversion H; subst. apply NXT.
    - assert (LC : length A + length D <= length c) by (unfold c; rewrite !app_length; lia).
      intros H. inversion H; subst. rewrite (sh_S (length c)), sh_len by (auto; lia).
      split; [reflexivity|lia].
  Qed.

  (** the two runs are in states related by [Rel], which one step of the new code respects; the
      runs that end at [e] are followed; from the top of [D] every such run leaves [D] at a
      position and in a state that [M] reaches too, from every related state *)
  Variable Rel : mstate -> mstate -> Prop.
  Variable e : nat.
  Hypothesis LE : length c <= e.
  Hypothesis STEP : forall p s t p1 s1, Rel s t -> grun Or cfg c' 1 p s = Some (p1, s1) ->
    exists t1, grun Or cfg c' 1 p t = Some (p1, t1) /\ Rel s1 t1.
  Hypothesis ENTRY : forall n s t fin, Rel s t ->
    grun Or cfg c n (length A) s = Some (e, fin) ->
    exists m k s1 t1 j,
      m < n /\ (k <= length A \/ length A + length D <= k) /\
      grun Or cfg c m k s1 = Some (e, fin) /\
      grun Or cfg c' j (length A) t = Some (sh k, t1) /\ Rel s1 t1.

  (** by induction on the length of the run, which may cross the window any number of times *)
  Lemma shift_sim : forall n p s t fin,
    grun Or cfg c n p s = Some (e, fin) ->
    p <= length A \/ length A + length D <= p -> Rel s t ->
    exists n' fin', grun Or cfg c' n' (sh p) t = Some (sh e, fin') /\ Rel fin fin'.
  Proof.
    induction n as [n IHn] using lt_wf_ind. intros p s t fin H OUT R.
    assert (LD : 0 < length D) by (destruct D; [congruence|cbn; lia]).
    destruct (Nat.eq_dec p (length A)) as [->|NEQ].
    - destruct (ENTRY n s t fin R H) as (m & k & s1 & t1 & j & LT & OK & C & C' & R1).
      destruct (IHn m LT k s1 t1 fin C OK R1) as (n' & fin' & Hn' & RF).
      exists (j + n'), fin'. split; [|exact RF]. rewrite grun_add, sh_lo by lia. rewrite C'. exact Hn'.
    - assert (OUT' : p < length A \/ length A + length D <= p) by lia.
      destruct n as [|n].
      { cbn [grun] in H. inversion H; subst. exists 0, t. split; [reflexivity|exact R]. }
      change (S n) with (1 + n) in H. rewrite grun_add in H.
      destruct (grun Or cfg c 1 p s) as [[p1 s1]|] eqn:G1; [|discriminate H].
      destruct (grun_one_shift p p1 s s1 OUT' G1) as [G1' O1].
      destruct (STEP (sh p) s t (sh p1) s1 R G1') as (t1 & G2 & R1).
      destruct (IHn n (Nat.lt_succ_diag_r n) p1 s1 t1 fin H O1 R1) as (n' & fin' & Hn' & RF).
      exists (1 + n'), fin'. split; [|exact RF]. rewrite grun_add, G2. exact Hn'.
  Qed.
End Shift.

Definition gst (r : gbres) : mstate := match r with GFall s | GJump _ s | GRet s => s end.

(** where a block exit leads, the block being [W] in [L ++ W ++ R] *)
Definition gdest (c : code) (after : nat) (r : gbres) : option nat :=
  match r with
  | GFall _ => Some after
  | GJump l _ => find_lbl l c
  | GRet _ => Some (S (length c))
  end.

Lemma gdest_outside (L W R : code) (r : gbres) (k : nat) :
  lbls W = [] -> gdest (L ++ W ++ R) (length L + length W) r = Some k ->
  (k <= length L \/ length L + length W <= k)%nat.
Proof.
  intros NL D. destruct r as [s1|l s1|s1]; cbn [gdest] in D.
  - inversion D. right. lia.
  - destruct (find_lbl_around l L W R k NL D) as [X|X]; [left; lia|right; exact X].
  - inversion D. right. rewrite !app_length. lia.
Qed.

Section Blocks.
  Variable Or : oracle.

(** a run that ends (at [e], at or past the end of the code) and enters a block at its top
    traverses it; the block has no label, and a call in it, if any, does not come back *)
Lemma grun_block_inv (cfg : config) (W : code) : forall L R n s e fin,
  lbls W = [] -> (forall i f t, In (Ins i) W -> i_mn i = JSR -> Or f t = None) ->
  (length (L ++ W ++ R) <= e)%nat ->
  grun Or cfg (L ++ W ++ R) n (length L) s = Some (e, fin) ->
  exists r m k, gbexec cfg W s = Some r /\ (m <= n)%nat /\ (W <> [] -> (m < n)%nat) /\
                gdest (L ++ W ++ R) (length L + length W) r = Some k /\
                grun Or cfg (L ++ W ++ R) m k (gst r) = Some (e, fin).
Proof.
  induction W as [|x W IH]; intros L R n s e fin NL NC LE H.
  - exists (GFall s), n, (length L + 0)%nat. cbn [gbexec gdest gst length].
    repeat split; try reflexivity; try lia; [congruence|]. rewrite Nat.add_0_r. exact H.
  - assert (EQ : L ++ (x :: W) ++ R = (L ++ [x]) ++ W ++ R) by (rewrite <- app_assoc; reflexivity).
    assert (LEN : length (L ++ [x]) = S (length L)) by (rewrite app_length; cbn; lia).
    destruct n as [|n].
    { cbn [grun] in H. inversion H as [[H1 H2]]. rewrite !app_length in LE. cbn [length] in LE. lia. }
    cbn [grun] in H. rewrite (nth_mid L (x :: W) R 0 x eq_refl : nth_error _ (length L) = _) in H.
    assert (REC : forall s1, lbls W = [] ->
                  grun Or cfg (L ++ (x :: W) ++ R) n (S (length L)) s1 = Some (e, fin) ->
                  exists r m k, gbexec cfg W s1 = Some r /\ (m <= S n)%nat /\ (x :: W <> [] -> (m < S n)%nat) /\
                    gdest (L ++ (x :: W) ++ R) (length L + length (x :: W)) r = Some k /\
                    grun Or cfg (L ++ (x :: W) ++ R) m k (gst r) = Some (e, fin)).
    { intros s1 NL2 H1. rewrite EQ in H1, LE |- *. rewrite <- LEN in H1.
      destruct (IH (L ++ [x]) R n s1 e fin NL2 (fun i f t I => NC i f t (or_intror I)) LE H1)
        as (r & m & k & B & M1 & _ & D & C).
      exists r, m, k. split; [exact B|]. split; [lia|]. split; [intros _; lia|]. split; [|exact C].
      rewrite <- D. rewrite LEN. cbn [length]. destruct r; cbn [gdest]; [f_equal; lia|reflexivity|reflexivity]. }
    destruct x as [l|i|t sz|cm|]; cbn [lbls] in NL; try discriminate NL; try discriminate H; cbn [gbexec].
    + destruct (parse_operand (i_mn i) (i_op i)) as [op|]; [|discriminate H].
      destruct (exec cfg (i_mn i) op s) as [s1 c1 f|w] eqn:X; [|discriminate H].
      destruct f as [|l|g| |]; try discriminate H.
      * exact (REC s1 NL H).
      * destruct (find_lbl l (L ++ (Ins i :: W) ++ R)) as [k|] eqn:F; [|discriminate H].
        exists (GJump l s1), n, k. cbn [gdest gst]. repeat split; try assumption; try lia; try reflexivity.
      * rewrite (NC i g s1 (or_introl eq_refl) (exec_flow _ _ _ _ _ _ _ X)) in H. discriminate H.
      * exists (GRet s1), n, (S (length (L ++ (Ins i :: W) ++ R))). cbn [gdest gst].
        repeat split; try assumption; try lia; try reflexivity.
    + exact (REC s NL H).
    + exact (REC s NL H).
Qed.

Lemma grun_block (cfg : config) (W : code) : forall L R s r k,
  nobarc W = true -> gbexec cfg W s = Some r ->
  gdest (L ++ W ++ R) (length L + length W) r = Some k ->
  exists j, grun Or cfg (L ++ W ++ R) j (length L) s = Some (k, gst r).
Proof.
  induction W as [|x W IH]; intros L R s r k N B D.
  - cbn [gbexec] in B. inversion B; subst r. cbn [gdest] in D. inversion D; subst k.
    exists O. cbn [grun gst length]. rewrite Nat.add_0_r. reflexivity.
  - apply nobarc_cons in N. destruct N as [N1 N2].
    assert (EQ : L ++ (x :: W) ++ R = (L ++ [x]) ++ W ++ R) by (rewrite <- app_assoc; reflexivity).
    assert (LEN : length (L ++ [x]) = S (length L)) by (rewrite app_length; cbn; lia).
    assert (REC : forall s1, gbexec cfg W s1 = Some r ->
                  exists j, grun Or cfg (L ++ (x :: W) ++ R) j (S (length L)) s1 = Some (k, gst r)).
    { intros s1 B1. rewrite EQ. rewrite <- LEN. apply (IH (L ++ [x]) R s1 r k N2 B1).
      rewrite <- EQ. rewrite <- D. rewrite LEN. cbn [length].
      destruct r; cbn [gdest]; [f_equal; lia|reflexivity|reflexivity]. }
    assert (NTH : nth_error (L ++ (x :: W) ++ R) (length L) = Some x) by exact (nth_mid L (x :: W) R 0 x eq_refl).
    destruct x as [l|i|t sz|cm|]; try discriminate N1; cbn [gbexec] in B.
    + destruct (parse_operand (i_mn i) (i_op i)) as [op|] eqn:P; [|discriminate B].
      destruct (exec cfg (i_mn i) op s) as [s1 c1 f|w] eqn:X; [|discriminate B].
      destruct f as [|l|g| |]; try discriminate B.
      * destruct (REC s1 B) as [j C]. exists (S j). cbn [grun]. rewrite NTH, P, X. exact C.
      * inversion B; subst r. cbn [gdest] in D. exists 1%nat. cbn [grun]. rewrite NTH, P, X, D. reflexivity.
      * inversion B; subst r. cbn [gdest] in D. inversion D; subst k.
        exists 1%nat. cbn [grun]. rewrite NTH, P, X. reflexivity.
    + destruct (REC s B) as [j C]. exists (S j). cbn [grun]. rewrite NTH. exact C.
    + destruct (REC s B) as [j C]. exists (S j). cbn [grun]. rewrite NTH. exact C.
Qed.
End Blocks.

Definition gbres_eq (r r' : gbres) : Prop :=
  match r, r' with
  | GFall a, GFall b => eq_state a b
  | GJump l a, GJump l' b => l = l' /\ eq_state a b
  | GRet a, GRet b => eq_state a b
  | _, _ => False
  end.

Lemma gbres_eq_dest (c : code) (after : nat) (r r' : gbres) :
  gbres_eq r r' -> gdest c after r = gdest c after r' /\ eq_state (gst r) (gst r').
Proof.
  destruct r, r'; cbn [gbres_eq gdest gst]; try contradiction; [auto| |auto].
  intros [-> E]. auto.
Qed.

Lemma gbexec_sim (R : mstate -> mstate -> Prop) (cfg : config) (w : code) :
  (forall i, In (Ins i) w -> exec_keeps cfg R i) ->
  forall s t r, R s t -> gbexec cfg w s = Some r ->
  exists r', gbexec cfg w t = Some r' /\ R (gst r) (gst r') /\
             forall c after, gdest c after r' = gdest c after r.
Proof.
  induction w as [|x w IH]; intros KE s t r E B.
  - cbn [gbexec] in *. inversion B; subst. exists (GFall t). auto.
  - specialize (IH (fun i I => KE i (or_intror I))).
    destruct x as [l|i|tx sz|cm|]; cbn [gbexec] in B |- *; try discriminate B;
      try (exact (IH s t r E B)).
    destruct (parse_operand (i_mn i) (i_op i)) as [op|]; [|discriminate B].
    destruct (exec cfg (i_mn i) op s) as [s1 c1 f1|w1] eqn:X1; [|discriminate B].
    destruct (KE i (or_introl eq_refl) op s t s1 c1 f1 E X1) as (t1 & -> & X).
    destruct f1; try discriminate B; [exact (IH s1 t1 r X B)| |]; inversion B; subst; eauto.
Qed.

Lemma gbexec_bytes (cfg : config) (w : code) (s : mstate) (r : gbres) :
  bytes_ok s -> gbexec cfg w s = Some r -> bytes_ok (gst r).
Proof.
  intros HB B.
  destruct (gbexec_sim eq_bytes cfg w (fun i _ => keeps_eq_bytes cfg i) s s r
              (conj (eq_state_refl s) (conj HB HB)) B) as (_ & _ & (_ & HB1 & _) & _).
  exact HB1.
Qed.

Definition oracle_ok (Or : oracle) : Prop :=
  (forall f s t s1, eq_state s t -> bytes_ok s -> bytes_ok t -> Or f s = Some s1 ->
     exists t1, Or f t = Some t1 /\ eq_state s1 t1) /\
  (forall f s s1, bytes_ok s -> Or f s = Some s1 -> bytes_ok s1).

Section WithOracle.
  Variable Or : oracle.
  (* [oracle_ok Or], in its two halves *)
  Hypothesis Or_eq : forall f s t s1, eq_state s t -> bytes_ok s -> bytes_ok t -> Or f s = Some s1 ->
    exists t1, Or f t = Some t1 /\ eq_state s1 t1.
  Hypothesis Or_bytes : forall f s s1, bytes_ok s -> Or f s = Some s1 -> bytes_ok s1.

  Lemma Or_eq_bytes (f : string) (s t s1 : mstate) :
    eq_bytes s t -> Or f s = Some s1 -> exists t1, Or f t = Some t1 /\ eq_bytes s1 t1.
  Proof.
    intros (E & HBs & HBt) H. destruct (Or_eq f s t s1 E HBs HBt H) as (t1 & HT & E1).
    exists t1. split; [exact HT|]. split; [exact E1|]. split; [exact (Or_bytes f s s1 HBs H)|exact (Or_bytes f t t1 HBt HT)].
  Qed.

  (** [cfc_ok] is the side condition that [window] states; the relation itself needs none *)
  Lemma grun_eq (cfg : config) (c : code) (n pc p : nat) (s t s1 : mstate) :
    cfc_ok cfg c = true -> eq_bytes s t -> grun Or cfg c n pc s = Some (p, s1) ->
    exists t1, grun Or cfg c n pc t = Some (p, t1) /\ eq_bytes s1 t1.
  Proof. intros _. exact (grun_sim1 eq_bytes Or Or cfg c (fun i _ => keeps_eq_bytes cfg i) Or_eq_bytes n pc s t p s1). Qed.

  Section WindowRun.
    Variables (cfg : config) (L W W' R : code) (e : nat).
    Hypothesis NL : lbls W = [].
    Hypothesis NC : forall i f t, In (Ins i) W -> i_mn i = JSR -> Or f t = None.
    Hypothesis NW' : nobarc W' = true.
    Hypothesis LEN : length W = length W'.
    Hypothesis OK' : cfc_ok cfg (L ++ W' ++ R) = true.

    Let c := L ++ W ++ R.
    Let c' := L ++ W' ++ R.
    Let after := (length L + length W)%nat.

    Hypothesis LE : (length c <= e)%nat.
    Hypothesis LS : forall s r k, bytes_ok s -> gbexec cfg W s = Some r -> gdest c after r = Some k ->
      (k < length c \/ k = e)%nat ->
      exists r', gbexec cfg W' s = Some r' /\ gdest c after r' = Some k /\ eq_state (gst r') (gst r).

    Lemma gdest_cc' (r : gbres) : gdest c' (length L + length W')%nat r = gdest c after r.
    Proof.
      unfold after, c, c'. destruct r; cbn [gdest]; [rewrite LEN; reflexivity| |rewrite !app_length, LEN; reflexivity].
      symmetry. exact (find_lbl_swap l L W W' R NL (nobarc_lbls W' NW') LEN).
    Qed.

    Lemma window_entry (n : nat) (s t fin : mstate) :
      eq_bytes s t -> grun Or cfg c n (length L) s = Some (e, fin) -> W <> [] ->
      exists m k s1 t1 j,
        (m < n)%nat /\ (k <= length L \/ length L + length W <= k)%nat /\
        grun Or cfg c m k s1 = Some (e, fin) /\ grun Or cfg c' j (length L) t = Some (k, t1) /\ eq_bytes s1 t1.
    Proof.
      intros ET H WNE. pose proof ET as (_ & HBs & _).
      destruct (grun_block_inv Or cfg W L R n s e fin NL NC LE H) as (r & m & k & B & M1 & M2 & D & C).
      destruct (LS s r k HBs B D (grun_pos Or cfg c m k e _ fin C)) as (r1 & B1 & D1 & E1).
      destruct (gbexec_sim eq_bytes cfg W' (fun i _ => keeps_eq_bytes cfg i) s t r1 ET B1) as (r2 & B2 & (ES & _ & HB2) & ED).
      assert (D2 : gdest c' (length L + length W')%nat r2 = Some k) by (rewrite gdest_cc', ED; exact D1).
      destruct (grun_block Or cfg W' L R t r2 k NW' B2 D2) as [j C2].
      exists m, k, (gst r), (gst r2), j. split; [exact (M2 WNE)|].
      split; [exact (gdest_outside L W R r k NL D)|split; [exact C|split; [exact C2|]]].
      split; [exact (eq_state_trans _ _ _ (eq_state_sym _ _ E1) ES)|].
      split; [exact (gbexec_bytes cfg W s r HBs B)|exact HB2].
    Qed.

    Lemma window_run (n : nat) (s fin : mstate) :
      bytes_ok s -> grun Or cfg c n 0%nat s = Some (e, fin) ->
      exists n' fin', grun Or cfg c' n' 0%nat s = Some (e, fin') /\ eq_state fin fin'.
    Proof.
      intros HB H. destruct (Nat.eq_dec (length W) 0) as [Z|NZ].
      - assert (E0 : W = []) by (apply length_zero_iff_nil; exact Z).
        assert (E1 : W' = []) by (apply length_zero_iff_nil; lia).
        exists n, fin. split; [|apply eq_state_refl]. unfold c, c' in *. rewrite E1. rewrite E0 in H. exact H.
      - assert (WNE : W <> []) by (intros E0; rewrite E0 in NZ; apply NZ; reflexivity).
        destruct (shift_sim L W W' R) with (Or := Or) (cfg := cfg) (Rel := eq_bytes) (e := e) (n := n) (p := 0%nat)
          (s := s) (t := s) (fin := fin) as (n' & fin' & H' & EF & _); try assumption.
        + rewrite <- lbls_all_labels. exact NL.
        + intros l I. rewrite <- lbls_all_labels, (nobarc_lbls W' NW') in I. destruct I.
        + intros p s0 t p1 s1. exact (grun_eq cfg c' 1 p p1 s0 t s1 OK').
        + intros m s0 t fin0 RL G.
          destruct (window_entry m s0 t fin0 RL G WNE) as (m' & k & s1 & t1 & j & X).
          exists m', k, s1, t1, j. rewrite sh_same by exact LEN. exact X.
        + left. lia.
        + split; [apply eq_state_refl|]. split; exact HB.
        + rewrite !sh_same in H' by exact LEN. exists n', fin'. split; assumption.
    Qed.
  End WindowRun.

  Section Window.
    Variables (cfg : config) (L W W' R : code).
    Hypothesis NW : nobarc W = true.
    Hypothesis NW' : nobarc W' = true.
    Hypothesis LEN : length W = length W'.
    Hypothesis OK' : cfc_ok cfg (L ++ W' ++ R) = true.

    Let c := L ++ W ++ R.
    Let c' := L ++ W' ++ R.
    Let after := (length L + length W)%nat.

    Hypothesis LS : forall s r k, bytes_ok s -> gbexec cfg W s = Some r -> gdest c after r = Some k ->
      exists r', gbexec cfg W' s = Some r' /\ gdest c after r' = Some k /\ eq_state (gst r') (gst r).

    Theorem window : cfc_equiv Or cfg c c'.
    Proof.
      intros s r s' HB (n & H).
      assert (EP : endpos c' r = endpos c r).
      { unfold endpos, c, c'. rewrite !app_length, LEN. reflexivity. }
      destruct (window_run cfg L W W' R (endpos c r) (nobarc_lbls W NW)
                  (fun i f t I J => match nobarc_no_call W i NW I J with end) NW' LEN OK'
                  ltac:(unfold endpos, c; destruct r; lia) (fun s0 r0 k HB0 B D _ => LS s0 r0 k HB0 B D)
                  n s s' HB H) as (n' & fin' & C' & EF).
      exists fin'. split; [exists n'; rewrite EP; exact C'|apply eq_state_sym; exact EF].
    Qed.
  End Window.
End WithOracle.

Lemma cfc_rts_or_plain (m : mnem) :
  cfc_mnem m = true -> takes_label m = false -> m = RTS \/ plain m = true.
Proof. destruct m; intros C T; try discriminate C; try discriminate T; tauto. Qed.

Lemma load_plain (m : mnem) : is_load m = true -> plain m = true /\ takes_label m = false.
Proof. destruct m; intros H; try discriminate H; split; reflexivity. Qed.

Lemma cfc_ins_parts (cfg : config) (i : instr) :
  cfc_ins_ok cfg i = true ->
  cfc_mnem (i_mn i) = true /\
  (takes_label (i_mn i) = false -> ins_ok cfg i = true) /\
  load_wf cfg i = true.
Proof.
  unfold cfc_ins_ok. intros H. apply andb_true_iff in H. destruct H as [H W].
  apply andb_true_iff in H. destruct H as [C O]. split; [exact C|]. split; [|exact W].
  intros T. rewrite T in O. exact O.
Qed.

Lemma cfc_no_ind (cfg : config) (i : instr) : cfc_ins_ok cfg i = true ->
  forall y k, parse_operand (i_mn i) (i_op i) <> Some (OInd y k).
Proof.
  intros H y k P. destruct (cfc_ins_parts cfg i H) as (_ & PO & _).
  destruct (takes_label (i_mn i)) eqn:T.
  - rewrite parse_operand_eq in P. rewrite T in P. destruct (String.eqb (i_op i) ""); discriminate P.
  - pose proof (PO eq_refl) as IO. unfold ins_ok in IO. rewrite P in IO. discriminate IO.
Qed.

Lemma cfc_ind_legal (cfg : config) (i : instr) : cfc_ins_ok cfg i = true -> ind_legal i.
Proof. intros H y k P. destruct (cfc_no_ind cfg i H y k P). Qed.

Lemma transfer_sound_cf (cfg : config) (k : know) (i : instr) (a : list line) (s s' : mstate) :
  ports cfg = [] -> bytes_ok s -> cfc_ins_ok cfg i = true ->
  know_ops_ok cfg k -> know_sound cfg k s -> steps_to cfg i s s' ->
  snd (transfer k i a) = false ->
  know_sound cfg (fst (transfer k i a)) s'.
Proof.
  intros HP HB OK KO KS ST R. destruct (cfc_ins_parts cfg i OK) as (C & _ & _).
  apply (transfer_sound cfg k i a s s'); auto.
  - intros [E|E]; rewrite E in C; discriminate C.
  - apply (cfc_ind_legal cfg); exact OK.
  - apply know_ops_ok_xfer; exact KO.
Qed.

Lemma know_ops_ok_transfer_cf (cfg : config) (k : know) (i : instr) (a : list line) :
  cfc_ins_ok cfg i = true -> know_ops_ok cfg k -> know_ops_ok cfg (fst (transfer k i a)).
Proof.
  intros OK KO. destruct (cfc_ins_parts cfg i OK) as (C & PO & _).
  destruct (takes_label (i_mn i)) eqn:T.
  - unfold transfer. destruct (i_mn i); try discriminate T; try discriminate C; cbn [fst];
      try exact KO; intros o op [H|[H|H]]; discriminate H.
  - pose proof (PO eq_refl) as IO. destruct (cfc_rts_or_plain _ C T) as [M|PL].
    + unfold transfer. rewrite M. exact KO.
    + apply know_ops_ok_transfer; assumption.
Qed.

(** whether a load executes does not depend on the state *)
Lemma load_defined (cfg : config) (i : instr) (s : mstate) :
  ports cfg = [] -> is_load (i_mn i) = true -> ins_ok cfg i = true -> load_wf cfg i = true ->
  exists s', steps_to cfg i s s'.
Proof.
  intros HP LD IO WF. unfold load_wf in WF. rewrite LD in WF. unfold ins_ok in IO.
  destruct (parse_operand (i_mn i) (i_op i)) as [op|] eqn:P; [|discriminate WF].
  destruct (exec cfg (i_mn i) op probe) as [sp cp fp|w] eqn:X; [|discriminate WF].
  assert (Hld : iclass_of (i_mn i) = CRd) by (destruct (i_mn i); try discriminate LD; reflexivity).
  assert (fp = FNext).
  { apply (plain_falls_through cfg (i_mn i) op probe sp cp fp); [|exact X].
    destruct (i_mn i); try discriminate LD; reflexivity. }
  subst fp. apply exec_rd_inv in X; [|exact Hld]. destruct X as (v & R & _).
  assert (R' : exists v' c', read_operand cfg (i_mn i) s op = Some (v', c')).
  { destruct op as [|iv|y k ix|y k|l]; try discriminate IO.
    - discriminate R.
    - unfold read_operand in *. destruct (imm_value cfg iv); [|discriminate R].
      destruct (legal (i_mn i) Imm); [eauto|discriminate R].
    - unfold read_operand, eff_addr in *. rewrite HP in *. cbn [read_addr] in *.
      destruct (layout cfg y) as [a0|]; [|discriminate R].
      destruct (resolve (i_mn i) (shape_of (OMem y k ix)) (a0 + k <? 256)) as [md|]; [|discriminate R].
      destruct md; eauto. }
  destruct R' as (v' & c' & R'). exists (rd_sem (i_mn i) s v'), op, c'. split; [exact P|].
  exact (exec_rd_intro cfg _ op s v' c' Hld R').
Qed.

Lemma steps_det (cfg : config) (i : instr) (s a b : mstate) :
  steps_to cfg i s a -> steps_to cfg i s b -> a = b.
Proof.
  intros (op & c & P & E) (op' & c' & P' & E'). rewrite P in P'. inversion P'; subst op'.
  rewrite E in E'. inversion E'. reflexivity.
Qed.

Lemma jmp_no_step (cfg : config) (i : instr) (s s' : mstate) :
  i_mn i = JMP -> steps_to cfg i s s' -> False.
Proof.
  intros M (op & c & P & E). rewrite M in E. cbv beta iota zeta delta [exec] in E.
  destruct op; discriminate E.
Qed.

Lemma gbexec_app (cfg : config) (a b : code) : forall s,
  gbexec cfg (a ++ b) s =
  match gbexec cfg a s with Some (GFall s1) => gbexec cfg b s1 | x => x end.
Proof.
  induction a as [|x a IH]; intros s; [reflexivity|].
  destruct x as [l|i|t sz|cm|]; cbn [app gbexec]; try reflexivity; try apply IH.
  destruct (parse_operand (i_mn i) (i_op i)) as [op|]; [|reflexivity].
  destruct (exec cfg (i_mn i) op s) as [s1 c f|w]; [|reflexivity].
  destruct f; try reflexivity. apply IH.
Qed.

Lemma gbexec_skip (cfg : config) (l : code) :
  forallb skip_line l = true -> forall s, gbexec cfg l s = Some (GFall s).
Proof.
  induction l as [|x l IH]; intros H s; [reflexivity|].
  cbn [forallb] in H. apply andb_true_iff in H. destruct H as [H1 H2].
  destruct x; try discriminate H1; cbn [gbexec]; apply IH; exact H2.
Qed.

Lemma gbexec_skip_app (cfg : config) (l r : code) (s : mstate) :
  forallb skip_line l = true -> gbexec cfg (l ++ r) s = gbexec cfg r s.
Proof. intros H. rewrite gbexec_app, (gbexec_skip cfg l H). reflexivity. Qed.

Lemma gbexec_ins_step (cfg : config) (i : instr) (r : code) (s s1 : mstate) :
  steps_to cfg i s s1 -> gbexec cfg (Ins i :: r) s = gbexec cfg r s1.
Proof. intros (op & c & P & E). cbn [gbexec]. rewrite P, E. reflexivity. Qed.

Lemma gbexec_plain_inv (cfg : config) (i : instr) (r : code) (s : mstate) (res : gbres) :
  plain (i_mn i) = true -> gbexec cfg (Ins i :: r) s = Some res ->
  exists s1, steps_to cfg i s s1 /\ gbexec cfg r s1 = Some res.
Proof.
  cbn [gbexec]. intros PL B.
  destruct (parse_operand (i_mn i) (i_op i)) as [op|] eqn:P; [|discriminate B].
  destruct (exec cfg (i_mn i) op s) as [s1 c f|w] eqn:E; [|discriminate B].
  pose proof (plain_falls_through _ _ _ _ _ _ _ PL E) as F. subst f.
  exists s1. split; [exists op, c; auto|exact B].
Qed.

Lemma gbexec_jmp (cfg : config) (f : instr) (r : code) (s : mstate) (res : gbres) :
  i_mn f = JMP -> gbexec cfg (Ins f :: r) s = Some res -> res = GJump (i_op f) s.
Proof.
  cbn [gbexec]. intros M. rewrite M, parse_operand_eq. cbn [takes_label].
  destruct (String.eqb (i_op f) ""); cbv beta iota zeta delta [exec]; intros B; inversion B. reflexivity.
Qed.

Lemma gbfall_snoc (cfg : config) (p : code) (i : instr) (t s2 : mstate) :
  gbfall cfg (p ++ [Ins i]) t = Some s2 <->
  exists s1, gbfall cfg p t = Some s1 /\ steps_to cfg i s1 s2.
Proof.
  unfold gbfall. rewrite gbexec_app. split.
  - destruct (gbexec cfg p t) as [[s1|l s1|s1]|]; try discriminate. intros H. exists s1. split; [reflexivity|].
    cbn [gbexec] in H.
    destruct (parse_operand (i_mn i) (i_op i)) as [op|] eqn:P; [|discriminate H].
    destruct (exec cfg (i_mn i) op s1) as [s' c f|w] eqn:E; [|discriminate H].
    destruct f; try discriminate H. inversion H; subst. exists op, c. auto.
  - intros (s1 & B & ST). destruct (gbexec cfg p t) as [[s1'|l s1'|s1']|]; try discriminate B.
    inversion B; subst. rewrite (gbexec_ins_step cfg i [] s1 s2 ST). reflexivity.
Qed.

Lemma gbfall_bytes (cfg : config) (p : code) (t s1 : mstate) :
  bytes_ok t -> gbfall cfg p t = Some s1 -> bytes_ok s1.
Proof.
  unfold gbfall. intros HB H. destruct (gbexec cfg p t) as [[s|l s|s]|] eqn:B; try discriminate H.
  inversion H; subst. exact (gbexec_bytes cfg p t (GFall s1) HB B).
Qed.

(** before the block, in program order: the lines up to and including the last label or call *)
Lemma cblk_suffix (pre : list line) : exists hd, rev pre = hd ++ cblk pre.
Proof.
  induction pre as [|x pre [hd IH]]; [exists []; reflexivity|].
  assert (CUT : exists hd', rev (x :: pre) = hd' ++ []) by (exists (rev (x :: pre)); symmetry; apply app_nil_r).
  assert (GO : exists hd', rev (x :: pre) = hd' ++ cblk pre ++ [x]).
  { exists hd. cbn [rev]. rewrite IH, <- app_assoc. reflexivity. }
  destruct x as [l|i|t sz|cm|]; cbn [cblk]; try exact GO; [exact CUT|].
  destruct (mnem_eqb (i_mn i) JSR); [exact CUT|exact GO].
Qed.

Lemma cblk_ins (i : instr) (pre : list line) :
  mnem_eqb (i_mn i) JSR = false -> cblk (Ins i :: pre) = cblk pre ++ [Ins i].
Proof. intros H. cbn [cblk]. rewrite H. reflexivity. Qed.

Lemma cblk_mid (mid p : list line) :
  forallb skip_line mid = true -> cblk (mid ++ p) = cblk p ++ rev mid.
Proof.
  induction mid as [|x mid IH]; intros H; [cbn; rewrite app_nil_r; reflexivity|].
  cbn [forallb] in H. apply andb_true_iff in H. destruct H as [H1 H2].
  destruct x; try discriminate H1; cbn [app cblk rev]; rewrite (IH H2), <- app_assoc; reflexivity.
Qed.

Lemma cfc_ok_rev (cfg : config) (c : code) : cfc_ok cfg (rev c) = cfc_ok cfg c.
Proof. apply OptFacts.forallb_rev. Qed.

(** [cfc_ok] rules out inline assembly, the one barrier that [cblk] does not stop at *)
Lemma nobarc_blk (cfg : config) (pre : list line) : cfc_ok cfg pre = true -> nobarc (cblk pre) = true.
Proof.
  induction pre as [|x pre IH]; intros H; [reflexivity|].
  apply cfc_ok_cons in H. destruct H as [H1 H2]. specialize (IH H2).
  destruct x as [l|i|t sz|cm|]; cbn [cblk]; try discriminate H1; try reflexivity;
    try (destruct (mnem_eqb (i_mn i) JSR) eqn:J; [reflexivity|]);
    rewrite nobarc_app, IH; unfold nobarc; cbn [forallb wline]; rewrite ?J; reflexivity.
Qed.

Lemma forallb_weaken (A : Type) (f g : A -> bool) (l : list A) :
  (forall x, f x = true -> g x = true) -> forallb f l = true -> forallb g l = true.
Proof. intros H. rewrite !forallb_forall. auto. Qed.

Lemma cfc_ok_skip (cfg : config) (l : code) : forallb skip_line l = true -> cfc_ok cfg l = true.
Proof. apply forallb_weaken. intros [] H; try discriminate H; reflexivity. Qed.

Lemma nobarc_skip (l : code) : forallb skip_line l = true -> nobarc l = true.
Proof. apply forallb_weaken. intros [] H; try discriminate H; reflexivity. Qed.

Lemma gbexec_straight (cfg : config) (x : code) : forall s,
  straight_ok cfg x = true ->
  gbexec cfg x s = match exec_straight cfg x s with Some s' => Some (GFall s') | None => None end.
Proof.
  induction x as [|l x IH]; intros s OK; [reflexivity|].
  apply straight_ok_cons in OK. destruct OK as [OK1 OK2].
  destruct l as [lb|i|t sz|cm|]; try discriminate OK1; cbn [gbexec exec_straight]; try (apply IH; exact OK2).
  apply line_ok_ins in OK1. destruct OK1 as [PL _].
  destruct (parse_operand (i_mn i) (i_op i)) as [op|]; [|reflexivity].
  destruct (exec cfg (i_mn i) op s) as [s1 c f|w] eqn:E; [|reflexivity].
  rewrite (plain_falls_through _ _ _ _ _ _ _ PL E). apply IH. exact OK2.
Qed.

Lemma straight_nobar (cfg : config) (x : code) : straight_ok cfg x = true -> nobarc x = true.
Proof.
  induction x as [|l x IH]; intros OK; [reflexivity|].
  apply straight_ok_cons in OK. destruct OK as [OK1 OK2].
  unfold nobarc. cbn [forallb]. fold (nobarc x). rewrite (IH OK2).
  destruct l as [lb|i|t sz|cm|]; try discriminate OK1; try reflexivity.
  apply line_ok_ins in OK1. destruct OK1 as [PL _]. cbn [wline].
  destruct (i_mn i); try discriminate PL; reflexivity.
Qed.

Lemma plain_not_jsr (m : mnem) : plain m = true -> mnem_eqb m JSR = false.
Proof. destruct m; intros H; try discriminate H; reflexivity. Qed.

Lemma defines_cf_plain (m : mnem) : defines_nz m = true -> cfc_mnem m = true -> plain m = true.
Proof. destruct m; intros D C; try discriminate D; try discriminate C; reflexivity. Qed.

Lemma plain_straight (cfg : config) (c : code) :
  cfc_ok cfg c = true -> Forall plain_line c -> straight_ok cfg c = true.
Proof.
  induction c as [|x c IH]; intros OK F; [reflexivity|].
  apply cfc_ok_cons in OK. destruct OK as [O1 O2]. inversion F as [|? ? P1 F2]; subst.
  unfold straight_ok. cbn [forallb]. fold (straight_ok cfg c). rewrite (IH O2 F2), andb_true_r.
  destruct x as [l|i|t sz|cm|]; try contradiction P1; try reflexivity.
  destruct (cfc_ins_parts cfg i O1) as (_ & PO & _). cbn [line_ok]. rewrite P1. exact (PO (plain_no_label _ P1)).
Qed.

(** what the optimiser has looked at is a plain stretch that redefines N and Z *)
Lemma lookahead_window (cfg : config) (ahead : list line) :
  cfc_ok cfg ahead = true -> lda_lookahead ahead = true \/ ldxy_lookahead ahead = true ->
  exists X R, ahead = X ++ R /\ straight_ok cfg X = true /\ nz_redefined X = true.
Proof.
  intros OK LK. destruct (lookahead_split ahead LK) as (P & j & R & -> & FP & D).
  exists (P ++ [Ins j]), R. split; [rewrite <- app_assoc; reflexivity|].
  split; [|exact (nz_redefined_mid P [] j D)].
  replace (P ++ Ins j :: R) with ((P ++ [Ins j]) ++ R) in OK by (rewrite <- app_assoc; reflexivity).
  apply cfc_ok_app in OK. destruct OK as [OK _]. apply plain_straight; [exact OK|].
  apply Forall_app. split; [exact FP|]. constructor; [|constructor].
  apply cfc_ok_app in OK. destruct OK as [_ OKj]. apply cfc_ok_cons in OKj. destruct OKj as [OKj _].
  exact (defines_cf_plain _ D (cfc_ins_mnem cfg j OKj)).
Qed.

Definition bsim (cfg : config) (A A' : code) (s : mstate) : Prop :=
  forall r, gbexec cfg A s = Some r -> exists r', gbexec cfg A' s = Some r' /\ gbres_eq r' r.

Lemma ls_prefix (cfg : config) (c : code) (after : nat) (P A A' : code) :
  (forall s s1, bytes_ok s -> gbfall cfg P s = Some s1 -> bsim cfg A A' s1) ->
  forall s r k, bytes_ok s -> gbexec cfg (P ++ A) s = Some r -> gdest c after r = Some k ->
    exists r', gbexec cfg (P ++ A') s = Some r' /\ gdest c after r' = Some k /\ eq_state (gst r') (gst r).
Proof.
  intros H s r k HB B D. rewrite gbexec_app in B |- *. unfold gbfall in H. specialize (H s).
  destruct (gbexec cfg P s) as [[s1|l s1|s1]|]; [|idtac|idtac|discriminate B].
  - destruct (H s1 HB eq_refl r B) as (r' & B' & E). exists r'. split; [exact B'|].
    destruct (gbres_eq_dest c after r' r E) as [D' E']. rewrite D'. auto.
  - exists r. split; [exact B|]. split; [exact D|apply eq_state_refl].
  - exists r. split; [exact B|]. split; [exact D|apply eq_state_refl].
Qed.

Lemma sim_remove (cfg : config) (i : instr) (X : code) (s : mstate) :
  plain (i_mn i) = true ->
  (forall s', steps_to cfg i s s' -> forall r, gbexec cfg X s' = Some r ->
     exists r', gbexec cfg X s = Some r' /\ gbres_eq r' r) ->
  bsim cfg (Ins i :: X) (Dummy :: X) s.
Proof.
  intros PL H r B. destruct (gbexec_plain_inv cfg i X s r PL B) as (s' & ST & B'). exact (H s' ST r B').
Qed.

Lemma gbexec_pair (cfg : config) (a b : instr) (mid : code) (s t1 t2 : mstate) :
  forallb skip_line mid = true -> steps_to cfg a s t1 -> steps_to cfg b t1 t2 ->
  gbexec cfg (Ins a :: rev mid ++ [Ins b]) s = Some (GFall t2).
Proof.
  intros M T1 T2. rewrite (gbexec_ins_step cfg a _ s t1 T1), (gbexec_skip_app cfg _ _ t1 (skip_rev _ M)).
  exact (gbexec_ins_step cfg b [] t1 t2 T2).
Qed.

Lemma gbexec_pair_inv (cfg : config) (a b : instr) (mid : code) (s : mstate) (r : gbres) :
  forallb skip_line mid = true -> plain (i_mn a) = true -> plain (i_mn b) = true ->
  gbexec cfg (Ins a :: rev mid ++ [Ins b]) s = Some r ->
  exists s2 s3, steps_to cfg a s s2 /\ steps_to cfg b s2 s3 /\ r = GFall s3.
Proof.
  intros M PA PB B.
  destruct (gbexec_plain_inv cfg a _ s r PA B) as (s2 & ST1 & B2).
  rewrite (gbexec_skip_app cfg _ _ s2 (skip_rev _ M)) in B2.
  destruct (gbexec_plain_inv cfg b _ s2 r PB B2) as (s3 & ST2 & B3).
  cbn [gbexec] in B3. inversion B3. eauto.
Qed.

Lemma sim_swap (cfg : config) (i1 i2 : instr) (mid : code) (s : mstate) :
  forallb skip_line mid = true -> i_mn i1 = LDA -> is_flag_setter (i_mn i2) = true ->
  bsim cfg (Ins i1 :: rev mid ++ [Ins i2]) (Ins i2 :: rev mid ++ [Ins i1]) s.
Proof.
  intros M M1 F2 r B. pose proof (flag_setter_cases _ F2) as F.
  destruct (gbexec_pair_inv cfg i1 i2 mid s r M) as (s2 & s3 & ST1 & ST2 & ->);
    [rewrite M1; reflexivity|destruct F as [F|F]; rewrite F; reflexivity|exact B|].
  destruct (rule_swap_lda_carry cfg i1 i2 s s2 s3 M1 F ST1 ST2) as (t1 & t2 & T1 & T2 & E).
  exists (GFall t2). split; [exact (gbexec_pair cfg i2 i1 mid s t1 t2 M T1 T2)|exact E].
Qed.

Lemma sim_rf (cfg : config) (i1 i2 : instr) (mid : code) (s : mstate) :
  forallb skip_line mid = true ->
  rf_shape i1 i2 -> ind_legal i2 ->
  bsim cfg (Ins i1 :: rev mid ++ [Ins i2]) (Dummy :: rev mid ++ [Ins i2]) s.
Proof.
  intros M RF IL r B.
  destruct (gbexec_pair_inv cfg i1 i2 mid s r M) as (s2 & s3 & ST1 & ST2 & ->);
    [destruct RF as [[H _]|[[H _]|[H _]]]; rewrite H; reflexivity
    |destruct RF as [[_ H]|[[_ H]|[_ H]]]; rewrite H; reflexivity|exact B|].
  destruct (rule_load_load cfg i1 i2 s s2 s3 RF IL ST1 ST2) as (s2' & ST' & E).
  exists (GFall s2'). split; [|exact E]. cbn [gbexec].
  rewrite (gbexec_skip_app cfg _ _ s (skip_rev _ M)). exact (gbexec_ins_step cfg i2 [] s s2' ST').
Qed.

Lemma lbls_skip (l : code) : forallb OptFacts.quiet l = true -> lbls l = [].
Proof. exact (forallb_lbls OptFacts.quiet l (fun _ => eq_refl)). Qed.

Lemma rw1_lbls (m : N) (a b : code) : OptFacts.rw1 m a b -> lbls b = lbls a.
Proof.
  intros H. destruct H as [l1 i l2 D|l1 i1 mm i2 l2 H1 H2 H3];
    rewrite !lbls_app; cbn [lbls]; rewrite ?lbls_app; cbn [lbls]; reflexivity.
Qed.

Lemma forallb_Forall (A : Type) (f : A -> bool) (l : list A) :
  forallb f l = true <-> Forall (fun x => f x = true) l.
Proof. rewrite forallb_forall, Forall_forall. reflexivity. Qed.

Lemma rw1_Forall (P : line -> Prop) (m : N) (a b : code) :
  P Dummy -> OptFacts.rw1 m a b -> Forall P a -> Forall P b.
Proof.
  intros PD H. destruct H as [l1 i l2 D|l1 i1 mm i2 l2 H1 H2 H3];
    rewrite !Forall_app, !Forall_cons_iff, ?Forall_app, ?Forall_cons_iff; tauto.
Qed.

Lemma rws_struct (n : N) (a b : code) :
  OptFacts.rws n a b ->
  (forall P : line -> Prop, P Dummy -> Forall P a -> Forall P b) /\ lbls b = lbls a.
Proof.
  apply (OptFacts.rws_invariant
           (fun a b => (forall P : line -> Prop, P Dummy -> Forall P a -> Forall P b) /\ lbls b = lbls a)).
  - intros c. split; [auto|reflexivity].
  - intros x y z m [H1 H2] R. split.
    + intros P PD OK. exact (rw1_Forall P m y z PD R (H1 P PD OK)).
    + rewrite (rw1_lbls m y z R). exact H2.
Qed.

Lemma rws_cfc_ok (cfg : config) (n : N) (a b : code) :
  OptFacts.rws n a b -> cfc_ok cfg a = true -> cfc_ok cfg b = true.
Proof.
  intros RW OK. apply forallb_Forall. apply (proj1 (rws_struct n a b RW)); [reflexivity|].
  apply forallb_Forall. exact OK.
Qed.

(** [KInvC cfg lev]: with [lev = true] (just after the swap, [pswap z]) only the register part
    [kregs k] of the knowledge is claimed, with [false] all of [k] *)
Lemma KInvC_weaken (cfg : config) (b : bool) (pre : list line) (f : instr) (k : know) :
  KInvC cfg false pre f k -> KInvC cfg b pre f k.
Proof.
  intros H t s2 HB B. specialize (H t s2 HB B). destruct b; [apply know_sound_kregs|]; exact H.
Qed.

Lemma gbfall_skip_r (cfg : config) (p m : code) (t : mstate) :
  forallb skip_line m = true -> gbfall cfg (p ++ m) t = gbfall cfg p t.
Proof.
  intros M. unfold gbfall. rewrite gbexec_app.
  destruct (gbexec cfg p t) as [[s|l s|s]|]; try reflexivity. rewrite (gbexec_skip cfg m M). reflexivity.
Qed.

Lemma gbfall_blk_next (cfg : config) (pre mid : list line) (i1 : instr) (t : mstate) :
  mnem_eqb (i_mn i1) JSR = false -> forallb skip_line mid = true ->
  gbfall cfg (cblk (mid ++ Ins i1 :: pre)) t = gbfall cfg (cblk pre ++ [Ins i1]) t.
Proof.
  intros J M. rewrite (cblk_mid mid _ M), (cblk_ins i1 pre J).
  exact (gbfall_skip_r cfg _ _ t (skip_rev _ M)).
Qed.

Lemma transfer_jmp_jsr (k : know) (i : instr) (a : list line) :
  i_mn i = JMP \/ i_mn i = JSR -> fst (transfer k i a) = k_none.
Proof. unfold transfer. intros [-> | ->]; reflexivity. Qed.

(** advance: the second instruction is kept and becomes the first *)
Lemma kinv_advance (cfg : config) (lev : bool) (pre mid : list line) (i1 i2 : instr) (k : know)
      (a : list line) :
  ports cfg = [] -> KInvC cfg lev pre i1 k ->
  (i_mn i1 = JSR -> k = k_none) ->
  (lev = true -> i_mn i2 = LDA /\ k_acc k = None) ->
  cfc_ins_ok cfg i2 = true -> know_ops_ok cfg k -> forallb skip_line mid = true ->
  snd (transfer k i2 a) = false ->
  KInvC cfg false (mid ++ Ins i1 :: pre) i2 (fst (transfer k i2 a)).
Proof.
  intros HP KI JS LV OK KO M R t s3 HB B.
  apply gbfall_snoc in B. destruct B as (s2 & B & ST).
  destruct (mnem_eqb (i_mn i1) JSR) eqn:J.
  - (* after a call nothing is known, whatever the state *)
    rewrite (cblk_mid mid _ M) in B. cbn [cblk] in B. rewrite J in B.
    unfold gbfall in B. rewrite (gbexec_skip cfg _ (skip_rev _ M)) in B. inversion B; subst s2.
    apply mnem_eqb_eq in J. specialize (JS J). subst k.
    exact (transfer_sound_cf cfg k_none i2 a t s3 HP HB OK KO (know_sound_init cfg t) ST R).
  - rewrite (gbfall_blk_next cfg pre mid i1 t J M) in B.
    pose proof (KI t s2 HB B) as KS.
    assert (HB2 : bytes_ok s2) by (exact (gbfall_bytes cfg _ t s2 HB B)).
    destruct lev.
    + destruct (LV eq_refl) as [ML A]. destruct (cfc_ins_parts cfg i2 OK) as (_ & PO & _).
      assert (T : takes_label (i_mn i2) = false) by (rewrite ML; reflexivity).
      assert (PL : plain (i_mn i2) = true) by (rewrite ML; reflexivity).
      exact (know_sound_lda_fresh cfg k i2 a s2 s3 HP HB2 PL (PO T) ML A KO KS ST).
    + exact (transfer_sound_cf cfg k i2 a s2 s3 HP HB2 OK KO KS ST R).
Qed.

(** remove_second by [transfer] *)
Lemma kinv_removed (cfg : config) (pre : list line) (i1 i2 : instr) (k : know) (a : list line) :
  KInvC cfg false pre i1 k -> snd (transfer k i2 a) = true ->
  KInvC cfg false pre i1 (fst (transfer k i2 a)).
Proof.
  intros KI R t s2 HB B. exact (transfer_removed_sound cfg k i2 a s2 (KI t s2 HB B) R).
Qed.

(** a load that the old code executes here and the new code does not: the state after it, in
    which the knowledge of the old code holds *)
Lemma kinv_load (cfg : config) (lev : bool) (pre : list line) (i1 : instr) (k : know) (t s1 : mstate) :
  ports cfg = [] -> KInvC cfg lev pre i1 k -> is_load (i_mn i1) = true -> cfc_ins_ok cfg i1 = true ->
  bytes_ok t -> gbfall cfg (cblk pre) t = Some s1 ->
  exists s2, steps_to cfg i1 s1 s2 /\ bytes_ok s2 /\ know_sound cfg (if lev then kregs k else k) s2.
Proof.
  intros HP KI L1 OK1 HB B.
  destruct (cfc_ins_parts cfg i1 OK1) as (_ & PO1 & W1).
  destruct (load_defined cfg i1 s1 HP L1 (PO1 (proj2 (load_plain _ L1))) W1) as (s2 & ST1).
  assert (B2 : gbfall cfg (cblk pre ++ [Ins i1]) t = Some s2) by (apply gbfall_snoc; eauto).
  exists s2. split; [exact ST1|]. split; [exact (gbfall_bytes cfg _ t s2 HB B2)|exact (KI t s2 HB B2)].
Qed.

(** remove_first: the new code does not execute the first load *)
Lemma kinv_rf (cfg : config) (pre mid : list line) (i1 i2 : instr) (k : know) (a : list line) :
  ports cfg = [] -> KInvC cfg false pre i1 k -> rf_shape i1 i2 ->
  cfc_ins_ok cfg i1 = true -> cfc_ins_ok cfg i2 = true -> know_ops_ok cfg k ->
  forallb skip_line mid = true -> snd (transfer k i2 a) = false ->
  KInvC cfg false (mid ++ Dummy :: pre) i2 (fst (transfer k i2 a)).
Proof.
  intros HP KI SH OK1 OK2 KO M R t s2' HB B.
  rewrite (cblk_mid mid _ M) in B. cbn [cblk] in B.
  apply gbfall_snoc in B. destruct B as (s1 & B & ST').
  rewrite (gbfall_skip_r cfg _ _ t (skip_rev _ M)) in B.
  rewrite (gbfall_skip_r cfg _ [Dummy] t eq_refl) in B.
  assert (L1 : is_load (i_mn i1) = true) by (destruct SH as [[H _]|[[H _]|[H _]]]; rewrite H; reflexivity).
  assert (L2 : is_load (i_mn i2) = true) by (destruct SH as [[_ H]|[[_ H]|[_ H]]]; rewrite H; reflexivity).
  destruct (kinv_load cfg false pre i1 k t s1 HP KI L1 OK1 HB B) as (s2 & ST1 & HB2 & KS).
  destruct (cfc_ins_parts cfg i2 OK2) as (_ & PO2 & W2).
  pose proof (PO2 (proj2 (load_plain _ L2))) as IO2.
  destruct (load_defined cfg i2 s2 HP L2 IO2 W2) as (s3 & ST2).
  destruct (rule_load_load cfg i1 i2 s1 s2 s3 SH (ins_ok_ind_legal cfg i2 IO2) ST1 ST2) as (x & STx & EQ).
  rewrite (steps_det cfg i2 s1 s2' x ST' STx).
  apply (know_sound_eq cfg _ s3 x (eq_state_sym _ _ EQ)).
  exact (transfer_sound_cf cfg k i2 a s2 s3 HP HB2 OK2 KO KS ST2 R).
Qed.

(** swap: only the register part, and nothing about A *)
Lemma kinv_sw (cfg : config) (lev : bool) (pre : list line) (i1 i2 : instr) (k : know) :
  ports cfg = [] -> KInvC cfg lev pre i1 k ->
  i_mn i1 = LDA -> is_flag_setter (i_mn i2) = true -> cfc_ins_ok cfg i1 = true ->
  KInvC cfg true pre i2 (mkK None (k_x k) (k_y k) (k_flags k)).
Proof.
  intros HP KI M1 F2 OK1 t t1 HB B.
  apply gbfall_snoc in B. destruct B as (s1 & B & T1).
  destruct (flag_setter_inv cfg i2 s1 t1 F2 T1) as (b & ->).
  destruct (kinv_load cfg lev pre i1 k t s1 HP KI ltac:(rewrite M1; reflexivity) OK1 HB B)
    as (s2 & ST1 & _ & KS).
  apply (swap_know cfg k i1 s1 s2 b M1 ST1).
  destruct lev; [exact KS|apply know_sound_kregs; exact KS].
Qed.

(** a block restarted after a label: whatever the state *)
Lemma analyse_label (k : know) (i : instr) :
  analyse_load AlLabel (reset_regs k) i = analyse_load AlStart k_init i.
Proof. unfold analyse_load, reset_regs, k_init. destruct (i_mn i); reflexivity. Qed.

Lemma kinv_start (cfg : config) (p : list line) (i : instr) :
  ports cfg = [] -> forallb skip_line (cblk p) = true -> cfc_ins_ok cfg i = true ->
  KInvC cfg false p i (analyse_load AlStart k_init i).
Proof.
  intros HP Q OK t s2 HB B.
  apply gbfall_snoc in B. destruct B as (s1 & B & ST).
  unfold gbfall in B. rewrite (gbexec_skip cfg _ Q) in B. inversion B; subst s1.
  destruct (analyse_start i []) as [AS AR]. rewrite AS.
  destruct (is_load (i_mn i)); [|apply know_sound_init].
  apply (transfer_sound_cf cfg k_init i [] t s2 HP HB OK (know_ops_ok_init cfg) (know_sound_init cfg t) ST AR).
Qed.

Lemma know_ops_ok_start (cfg : config) (i : instr) :
  cfc_ins_ok cfg i = true -> know_ops_ok cfg (analyse_load AlStart k_init i).
Proof.
  intros OK. destruct (analyse_start i []) as [AS _]. rewrite AS.
  destruct (is_load (i_mn i)); [|apply know_ops_ok_init].
  apply know_ops_ok_transfer_cf; [exact OK|apply know_ops_ok_init].
Qed.

Lemma analyse_start_jmp (i : instr) :
  i_mn i = JMP \/ i_mn i = JSR -> analyse_load AlStart k_init i = k_none.
Proof. unfold analyse_load. intros [-> | ->]; reflexivity. Qed.

Lemma kinv_none (cfg : config) (b : bool) (p : list line) (i : instr) : KInvC cfg b p i k_none.
Proof.
  intros t s2 _ _. destruct b; [apply know_sound_kregs|]; apply know_sound_init.
Qed.

Lemma cfc_ptr_not_hit (cfg : config) (i : instr) (s : mstate) : cfc_ins_ok cfg i = true -> ptr_not_hit cfg i s.
Proof. intros H y k a0 a md cr P. destruct (cfc_no_ind cfg i H y k P). Qed.

(** remove_second by [transfer]: the stretch the optimiser has looked at cannot tell *)
Lemma removal_window (cfg : config) (k : know) (i2 : instr) (ahead : list line) :
  ports cfg = [] -> cfc_ok cfg ahead = true -> snd (transfer k i2 ahead) = true ->
  exists X R, ahead = X ++ R /\ nobarc X = true /\
    forall s2 s3, know_sound cfg k s2 -> steps_to cfg i2 s2 s3 ->
    forall r, gbexec cfg X s3 = Some r -> exists r', gbexec cfg X s2 = Some r' /\ gbres_eq r' r.
Proof.
  intros HP OK R.
  destruct (lda_lookahead ahead || ldxy_lookahead ahead) eqn:LK.
  - apply orb_true_iff in LK.
    destruct (lookahead_window cfg ahead OK LK) as (X & R' & EA & SX & NR).
    exists X, R'. split; [exact EA|]. split; [exact (straight_nobar cfg X SX)|].
    intros s2 s3 KS ST r B.
    destruct (removal_sound cfg k i2 ahead s2 s3 HP KS ST R) as [NZ _].
    rewrite (gbexec_straight cfg X s3 SX) in B. rewrite (gbexec_straight cfg X s2 SX).
    destruct (exec_straight cfg X s3) as [t|] eqn:E; [|discriminate B]. inversion B; subst r.
    destruct (exec_straight_redefined cfg X SX NR s3 s2 t NZ E) as (t2 & E2 & Q).
    rewrite E2. eexists. split; [reflexivity|]. cbn [gbres_eq]. apply eq_state_sym. exact Q.
  - apply orb_false_iff in LK. destruct LK as [LK1 LK2].
    exists [], ahead. split; [reflexivity|]. split; [reflexivity|].
    intros s2 s3 KS ST r B. cbn [gbexec] in B |- *. inversion B; subst r.
    eexists. split; [reflexivity|]. cbn [gbres_eq]. apply eq_state_sym.
    destruct (removal_sound cfg k i2 ahead s2 s3 HP KS ST R) as [_ [H|[[_ H]|[_ H]]]];
      [exact H|congruence|congruence].
Qed.

Lemma cfc_equiv_eq (Or : oracle) (cfg : config) (a b : code) : a = b -> cfc_equiv Or cfg a b.
Proof. intros -> s r s' _ H. exists s'. split; [exact H|apply eq_state_refl]. Qed.

Lemma cfc_equiv_trans (Or : oracle) (cfg : config) (a b c : code) :
  cfc_equiv Or cfg a b -> cfc_equiv Or cfg b c -> cfc_equiv Or cfg a c.
Proof.
  intros H1 H2 s r s' HB H. destruct (H1 s r s' HB H) as (s1 & A & E1).
  destruct (H2 s r s1 HB A) as (s2 & B & E2). exists s2. split; [exact B|].
  exact (eq_state_trans _ _ _ E2 E1).
Qed.

(** closes an equation between [z_code] of an explicit zipper ([mkZ ..]) and a code written
    with [rev], [++] and [::] *)
Ltac zcode := unfold z_code; cbn [z_pre z_f z_mid z_rest]; OptFacts.norm; reflexivity.

Lemma nobarc_mid (x : line) (mid tl : code) :
  forallb skip_line mid = true -> nobarc (x :: rev mid ++ tl) = wline x && nobarc tl.
Proof.
  intros M. unfold nobarc. cbn [forallb]. rewrite forallb_app.
  fold (nobarc (rev mid)). rewrite (nobarc_skip _ (skip_rev _ M)). reflexivity.
Qed.

Lemma cblk_quiet_cons (x : line) (p : list line) :
  match x with Inl _ _ | Ins _ => false | _ => true end = true ->
  forallb skip_line (cblk p) = true -> forallb skip_line (cblk (x :: p)) = true.
Proof.
  intros X H. destruct x; try discriminate X; cbn [cblk]; try reflexivity;
    rewrite forallb_app, H; reflexivity.
Qed.

Lemma skip_to_ins_blk (cfg : config) (l : list line) : forall p p' i r,
  skip_to_ins p l = Some (p', i, r) -> cfc_ok cfg l = true ->
  forallb skip_line (cblk p) = true -> forallb skip_line (cblk p') = true.
Proof.
  induction l as [|x l IH]; intros p p' i r H OK Q; [discriminate H|].
  apply cfc_ok_cons in OK. destruct OK as [O1 O2].
  destruct x as [y|j|t sz|cm|]; cbn [skip_to_ins] in H; try discriminate O1.
  - apply (IH _ _ _ _ H O2). apply cblk_quiet_cons; [reflexivity|exact Q].
  - inversion H; subst. exact Q.
  - apply (IH _ _ _ _ H O2). apply cblk_quiet_cons; [reflexivity|exact Q].
  - apply (IH _ _ _ _ H O2). apply cblk_quiet_cons; [reflexivity|exact Q].
Qed.

Section CF.
  Variables (Or : oracle) (cfg : config) (c0 : code).
  Hypothesis OrOK : oracle_ok Or.
  Hypothesis HP : ports cfg = [].
  Hypothesis OK0 : cfc_ok cfg c0 = true.
  Hypothesis ND0 : NoDup (lbls c0).

  (** the invariant, and the fact that the code is a rewriting of [c0] in the sense of
      Proofs/OptFacts.v (which gives its structural properties) *)
  Definition InvS (z : zst) : Prop :=
    InvCall Or cfg c0 z /\ exists m, OptFacts.rws m c0 (z_code z).

  Definition ResCF (r : step_result) : Prop :=
    match r with
    | Done c _ => cfc_equiv Or cfg c0 c
    | Next z' => InvS z'
    end.

  Lemma InvS_intro (z : zst) :
    (exists m, OptFacts.rws m c0 (z_code z)) -> forallb skip_line (z_mid z) = true ->
    know_ops_ok cfg (z_k z) -> (i_mn (z_f z) = JMP \/ i_mn (z_f z) = JSR -> z_k z = k_none) ->
    cfc_equiv Or cfg c0 (z_code z) -> KInvC cfg (pswap z) (z_pre z) (z_f z) (z_k z) ->
    InvS z.
  Proof.
    intros (m & RW) M KO JK EQ KI. split; [|exists m; exact RW].
    unfold InvCall. split; [exact (rws_cfc_ok cfg m c0 _ RW OK0)|]. split; [exact M|].
    split; [rewrite (proj2 (rws_struct m c0 _ RW)); exact ND0|].
    repeat (split; [assumption|]). exact KI.
  Qed.

  Lemma equiv_next (c c' : code) (m m1 : N) :
    OptFacts.rws m c0 c -> OptFacts.rws m1 c c' -> cfc_equiv Or cfg c0 c ->
    (cfc_ok cfg c' = true -> cfc_equiv Or cfg c c') ->
    (exists m', OptFacts.rws m' c0 c') /\ cfc_equiv Or cfg c0 c'.
  Proof.
    intros RW RW1 EQV EQ. pose proof (OptFacts.rws_trans _ _ _ _ _ RW RW1) as RW2.
    split; [exists (m + m1)%N; exact RW2|].
    exact (cfc_equiv_trans Or cfg _ _ _ EQV (EQ (rws_cfc_ok cfg _ _ _ RW2 OK0))).
  Qed.

  (** [A] is rewritten into [A']; the simulation is asked only in the states in which the lines
      since the last label or call ([cblk pre]) can leave the common prefix *)
  Lemma rewrite_equiv (pre : list line) (A A' tail c c' : code) :
    c = rev pre ++ A ++ tail -> c' = rev pre ++ A' ++ tail ->
    nobarc A = true -> nobarc A' = true -> length A = length A' ->
    (forall s s1, bytes_ok s -> gbfall cfg (cblk pre) s = Some s1 -> bsim cfg A A' s1) ->
    cfc_ok cfg c' = true -> cfc_equiv Or cfg c c'.
  Proof.
    intros -> -> NA NA' LEN H OK.
    assert (OKP : cfc_ok cfg pre = true).
    { apply cfc_ok_app in OK. rewrite <- cfc_ok_rev. exact (proj1 OK). }
    pose proof (nobarc_blk cfg pre OKP) as NB.
    destruct (cblk_suffix pre) as [hd E0]. rewrite E0 in OK |- *.
    assert (E : forall Y, (hd ++ cblk pre) ++ Y ++ tail = hd ++ (cblk pre ++ Y) ++ tail).
    { intros Y. rewrite <- !app_assoc. reflexivity. }
    rewrite !E in *.
    apply (window Or (proj1 OrOK) (proj2 OrOK)).
    - rewrite nobarc_app, NB, NA. reflexivity.
    - rewrite nobarc_app, NB, NA'. reflexivity.
    - rewrite !app_length, LEN. reflexivity.
    - exact OK.
    - apply ls_prefix. exact H.
  Qed.

  Lemma z_code_parts (z : zst) :
    cfc_ok cfg (z_code z) = true ->
    cfc_ok cfg (z_pre z) = true /\ cfc_ins_ok cfg (z_f z) = true /\ cfc_ok cfg (z_rest z) = true.
  Proof.
    unfold z_code. intros H. apply cfc_ok_app in H. destruct H as [H1 H2].
    rewrite cfc_ok_rev in H1. apply cfc_ok_cons in H2. destruct H2 as [H2 H3].
    apply cfc_ok_app in H3. tauto.
  Qed.

  Lemma rs0_shape_plain2 (k : know) (i1 i2 : instr) : rs0_shape k i1 i2 -> plain (i_mn i2) = true.
  Proof.
    unfold rs0_shape. intros H.
    destruct H as [(_ & M & _)|[([[_ M]|[[_ M]|[_ M]]] & _)|[[[_ M]|[[_ M]|[[_ M]|[_ M]]]]|(M & _)]]];
      rewrite M; reflexivity.
  Qed.

  Lemma equiv_swap (pre mid : list line) (i1 i2 : instr) (ahead : list line) (k k' : know) (n n' : N) :
    forallb skip_line mid = true -> i_mn i1 = LDA -> is_flag_setter (i_mn i2) = true ->
    cfc_ok cfg (z_code (mkZ pre i2 mid (Ins i1 :: ahead) k' n')) = true ->
    cfc_equiv Or cfg (z_code (mkZ pre i1 mid (Ins i2 :: ahead) k n))
                     (z_code (mkZ pre i2 mid (Ins i1 :: ahead) k' n')).
  Proof.
    intros MID M1 F2.
    assert (J2 : mnem_eqb (i_mn i2) JSR = false)
      by (destruct (flag_setter_cases _ F2) as [F|F]; rewrite F; reflexivity).
    apply (rewrite_equiv pre (Ins i1 :: rev mid ++ [Ins i2]) (Ins i2 :: rev mid ++ [Ins i1]) ahead);
      [zcode|zcode| | | | ].
    - rewrite (nobarc_mid _ _ _ MID). cbn [wline nobarc forallb]. rewrite M1, J2. reflexivity.
    - rewrite (nobarc_mid _ _ _ MID). cbn [wline nobarc forallb]. rewrite M1, J2. reflexivity.
    - cbn [length]. rewrite !app_length. reflexivity.
    - intros s s1 _ _. exact (sim_swap cfg i1 i2 mid s1 MID M1 F2).
  Qed.

  Lemma equiv_rs (pre mid : list line) (i1 i2 : instr) (X R0 : list line) (k k' : know) (n n' : N) :
    mnem_eqb (i_mn i2) JSR = false -> nobarc X = true ->
    (forall s s2, bytes_ok s -> gbfall cfg (cblk (mid ++ Ins i1 :: pre)) s = Some s2 ->
       bsim cfg (Ins i2 :: X) (Dummy :: X) s2) ->
    cfc_ok cfg (z_code (mkZ pre i1 (Dummy :: mid) (X ++ R0) k' n')) = true ->
    cfc_equiv Or cfg (z_code (mkZ pre i1 mid (Ins i2 :: X ++ R0) k n))
                     (z_code (mkZ pre i1 (Dummy :: mid) (X ++ R0) k' n')).
  Proof.
    intros J2 NX H.
    apply (rewrite_equiv (mid ++ Ins i1 :: pre) (Ins i2 :: X) (Dummy :: X) R0);
      [zcode|zcode| | | | ].
    - unfold nobarc. cbn [forallb wline]. rewrite J2. exact NX.
    - exact NX.
    - reflexivity.
    - exact H.
  Qed.

  Lemma equiv_rf (pre mid : list line) (i1 i2 : instr) (ahead : list line) (k k' : know) (n n' : N) :
    forallb skip_line mid = true -> rf_shape i1 i2 -> cfc_ins_ok cfg i2 = true ->
    cfc_ok cfg (z_code (mkZ (mid ++ Dummy :: pre) i2 [] ahead k' n')) = true ->
    cfc_equiv Or cfg (z_code (mkZ pre i1 mid (Ins i2 :: ahead) k n))
                     (z_code (mkZ (mid ++ Dummy :: pre) i2 [] ahead k' n')).
  Proof.
    intros MID RF OK2.
    assert (J : mnem_eqb (i_mn i1) JSR = false /\ mnem_eqb (i_mn i2) JSR = false)
      by (destruct RF as [[H1 H2]|[[H1 H2]|[H1 H2]]]; rewrite H1, H2; split; reflexivity).
    destruct J as [J1 J2].
    apply (rewrite_equiv pre (Ins i1 :: rev mid ++ [Ins i2]) (Dummy :: rev mid ++ [Ins i2]) ahead);
      [zcode|zcode| | | | ].
    - rewrite (nobarc_mid _ _ _ MID). cbn [wline nobarc forallb]. rewrite J1, J2. reflexivity.
    - rewrite (nobarc_mid _ _ _ MID). cbn [wline nobarc forallb]. rewrite J2. reflexivity.
    - reflexivity.
    - intros s s1 _ _. exact (sim_rf cfg i1 i2 mid s1 MID RF (cfc_ind_legal cfg i2 OK2)).
  Qed.

  (** (P)+(T)+(A): every branch of [step_pair] but remove_both *)
  Lemma step_pair_cf (z : zst) (i2 : instr) (ahead : list line) :
    InvS z -> z_rest z = Ins i2 :: ahead ->
    fst (fst (fst (pair_rules (z_k z) (z_f z) i2))) = false ->
    ResCF (step_pair z i2 ahead).
  Proof.
    intros [(OKC & MID & ND & KOK & JK & EQV & KI) (m0 & RW)] ER RB.
    destruct (OptFacts.step_pair_spec z i2 ahead ER MID) as [GOOD MU].
    pose proof (pswap_true z i2 ahead ER) as PSW.
    destruct (z_code_parts z OKC) as (OKP & OK1 & OKR). rewrite ER in OKR.
    apply cfc_ok_cons in OKR. destruct OKR as [OK2 OKA]. cbn [cfc_line_ok] in OK2.
    destruct z as [pre i1 mid rest k n]. cbn [z_pre z_f z_mid z_rest z_k z_removed] in *. subst rest.
    set (z0 := mkZ pre i1 mid (Ins i2 :: ahead) k n) in *.
    (* what the new state must satisfy, the structural part coming from [step_pair_spec] *)
    assert (FIN : forall z', OptFacts.good (z_code z0) n (Next z') -> OptFacts.mid_ok z' ->
              know_ops_ok cfg (z_k z') -> (i_mn (z_f z') = JMP \/ i_mn (z_f z') = JSR -> z_k z' = k_none) ->
              (cfc_ok cfg (z_code z') = true -> cfc_equiv Or cfg (z_code z0) (z_code z')) ->
              KInvC cfg (pswap z') (z_pre z') (z_f z') (z_k z') -> InvS z').
    { intros z' G MQ' KO' JK' EQ' KI'. cbn [OptFacts.good] in G. destruct G as (m1 & RW1 & _).
      destruct (equiv_next _ _ m0 m1 RW RW1 EQV EQ') as [RW' EQN]. apply InvS_intro; assumption. }
    assert (KI' : pswap z0 = false -> KInvC cfg false pre i1 k).
    { intros E. rewrite E in KI. exact KI. }
    pose proof (know_ops_ok_transfer_cf cfg k i2 ahead OK2 KOK) as KOK1.
    pose proof (transfer_rs_known k i2 ahead) as TK.
    pose proof (transfer_jmp_jsr k i2 ahead) as TJ.
    (* after a call nothing is known: no removal rests on it *)
    assert (J1 : rs0_shape k i1 i2 \/ snd (transfer k i2 ahead) = true -> mnem_eqb (i_mn i1) JSR = false).
    { intros X. destruct (mnem_eqb (i_mn i1) JSR) eqn:J; [exfalso|reflexivity]. apply mnem_eqb_eq in J.
      specialize (JK (or_intror J)). subst k. destruct X as [S|R].
      - unfold rs0_shape in S. rewrite J in S. cbn [k_none k_flags] in S. intuition congruence.
      - destruct (TK R) as [[_ H]|[[_ H]|[_ H]]]; discriminate H. }
    (* the state after the first instruction, when a removal of the second looks at it *)
    assert (AT : pswap z0 = false -> mnem_eqb (i_mn i1) JSR = false ->
              forall s s2, bytes_ok s -> gbfall cfg (cblk (mid ++ Ins i1 :: pre)) s = Some s2 ->
              know_sound cfg k s2 /\ exists s1, bytes_ok s1 /\ steps_to cfg i1 s1 s2).
    { intros PS J s s2 HB B. rewrite (gbfall_blk_next cfg pre mid i1 s J MID) in B.
      split; [exact (KI' PS s s2 HB B)|]. apply gbfall_snoc in B. destruct B as (s1 & B & ST).
      exists s1. split; [exact (gbfall_bytes cfg _ s s1 HB B)|exact ST]. }
    fold z0 in GOOD, MU.
    (* per outcome, those premises of [FIN] that are not at hand, in the order of [FIN] *)
    destruct (step_pair_cases pre i1 mid i2 ahead k n RB)
      as [(M1 & F2 & E)|[(PS & SH & E)|[(PS & R & E)|[(PS & R & RF & E)|(R & E)]]]];
      fold z0 in E; rewrite E in GOOD, MU |- *; cbn [ResCF]; destruct MU as [_ MQ']; apply FIN;
      try assumption; cbn [z_pre z_f z_mid z_rest z_k].
    - (* swap *)
      intros o op [H|[H|H]] P; cbn [k_acc k_x k_y] in H; [discriminate H| |]; apply (KOK o op); auto.
    - intros [MJ|MJ]; apply flag_setter_cases in F2; destruct F2; congruence.
    - exact (equiv_swap pre mid i1 i2 ahead k _ n n MID M1 F2).
    - assert (PS' : pswap (mkZ pre i2 mid (Ins i1 :: ahead) (mkK None (k_x k) (k_y k) (k_flags k)) n) = true).
      { unfold pswap. cbn [z_f z_rest z_k k_acc]. rewrite F2, M1. reflexivity. }
      rewrite PS'. exact (kinv_sw cfg _ pre i1 i2 k HP KI M1 F2 OK1).
    - (* remove_second by a pair rule: a JMP after a JMP is not reached *)
      assert (J : mnem_eqb (i_mn i1) JSR = false /\ mnem_eqb (i_mn i2) JSR = false).
      { destruct SH as [S|[MJ1 MJ2]]; [|rewrite MJ1, MJ2; split; reflexivity].
        split; [exact (J1 (or_introl S))|exact (plain_not_jsr _ (rs0_shape_plain2 k i1 i2 S))]. }
      apply (equiv_rs pre mid i1 i2 [] ahead k k n (n + 1)%N (proj2 J) eq_refl).
      intros s s2 HB B. destruct (AT PS (proj1 J) s s2 HB B) as (KS & s1 & HB1 & ST1).
      destruct SH as [S|[MJ _]]; [|exfalso; exact (jmp_no_step cfg i1 s1 s2 MJ ST1)].
      apply sim_remove; [exact (rs0_shape_plain2 k i1 i2 S)|].
      intros s3 ST2 r Br. cbn [gbexec] in Br |- *. inversion Br; subst r.
      eexists. split; [reflexivity|]. cbn [gbres_eq]. apply eq_state_sym.
      exact (rs0_sound cfg k i1 i2 s1 s2 s3 HP HB1 (cfc_ptr_not_hit cfg i1 s1 OK1) (cfc_ind_legal cfg i1 OK1)
               S KS ST1 ST2).
    - apply KInvC_weaken. exact (KI' PS).
    - (* remove_second by [transfer] *)
      intros MJ. specialize (JK MJ). subst k.
      destruct (TK R) as [[_ H]|[[_ H]|[_ H]]]; discriminate H.
    - assert (P2 : plain (i_mn i2) = true).
      { destruct (TK R) as [[H _]|[[H _]|[H _]]]; rewrite H; reflexivity. }
      destruct (removal_window cfg k i2 ahead HP OKA R) as (X & R0 & EA & NX & HX). subst ahead.
      apply (equiv_rs pre mid i1 i2 X R0 k _ n (n + 1)%N (plain_not_jsr _ P2) NX).
      intros s s2 HB B. destruct (AT PS (J1 (or_intror R)) s s2 HB B) as (KS & _).
      apply sim_remove; [exact P2|]. intros s3 ST2. exact (HX s2 s3 KS ST2).
    - apply KInvC_weaken. exact (kinv_removed cfg pre i1 i2 k ahead (KI' PS) R).
    - (* remove_first *)
      exact (equiv_rf pre mid i1 i2 ahead k _ n (n + 1)%N MID RF OK2).
    - apply KInvC_weaken. exact (kinv_rf cfg pre mid i1 i2 k ahead HP (KI' PS) RF OK1 OK2 KOK MID R).
    - (* nothing removed: advance *)
      intros _. apply cfc_equiv_eq. zcode.
    - apply KInvC_weaken.
      apply (kinv_advance cfg (pswap z0) pre mid i1 i2 k ahead HP KI (fun E0 => JK (or_intror E0)));
        try assumption.
      intros E0. destruct (PSW E0) as (_ & L & A). auto.
  Qed.

  Lemma equiv_jmp (pre mid : list line) (f : instr) (l : string) (r : list line) (c c' : code) :
    c = rev pre ++ (Ins f :: rev mid) ++ Lbl l :: r -> c' = rev pre ++ (Dummy :: rev mid) ++ Lbl l :: r ->
    forallb skip_line mid = true -> i_mn f = JMP -> i_op f = l -> ~ In l (lbls (rev pre)) ->
    cfc_ok cfg c' = true -> cfc_equiv Or cfg c c'.
  Proof.
    intros -> -> MID M EL NL OKN.
    pose proof (nobarc_skip _ (skip_rev _ MID)) as NM.
    assert (NB : nobarc (Ins f :: rev mid) = true).
    { unfold nobarc. cbn [forallb wline]. rewrite M. exact NM. }
    apply (window Or (proj1 OrOK) (proj2 OrOK)); [exact NB|exact NM|reflexivity|exact OKN|].
    intros s r0 k0 HB B D. rewrite (gbexec_jmp cfg f _ s r0 M B), EL in D |- *. cbn [gdest] in D.
    exists (GFall s). cbn [gbexec]. rewrite (gbexec_skip cfg _ (skip_rev _ MID)).
    split; [reflexivity|]. split; [|apply eq_state_refl]. cbn [gdest gst]. rewrite <- D.
    symmetry. rewrite find_lbl_app, (find_lbl_none l _ NL), find_lbl_app, (find_lbl_nolbl l _ (nobarc_lbls _ NB)).
    cbn [find_lbl]. rewrite String.eqb_refl. cbn [option_map]. f_equal. lia.
  Qed.

  Lemma step_jmp_cf (z : zst) : InvS z -> ResCF (step_jmp z).
  Proof.
    intros I. pose proof I as [(OKC & MID & ND & KOK & JK & EQV & KI) (m0 & RW)].
    destruct (OptFacts.step_jmp_spec z) as [GOOD _].
    destruct z as [pre f mid rest k n]. unfold step_jmp in *.
    cbn [z_pre z_f z_mid z_rest z_k z_removed] in *.
    destruct rest as [|x r]; [exact I|].
    destruct x as [l|j|t sz|cm|]; try exact I.
    destruct (mnem_eqb (i_mn f) JMP && String.eqb (i_op f) l && negb (i_prot f)) eqn:C; [|exact I].
    apply andb_true_iff in C. destruct C as [C _]. apply andb_true_iff in C. destruct C as [M EL].
    apply mnem_eqb_eq in M. apply String.eqb_eq in EL.
    assert (NL : ~ In l (lbls (rev pre))).
    { unfold z_code in ND. cbn [z_pre z_f z_mid z_rest] in ND.
      rewrite !lbls_app in ND. cbn [lbls] in ND. rewrite lbls_app in ND. cbn [lbls] in ND.
      rewrite app_assoc in ND. apply NoDup_remove_2 in ND. intros X. apply ND.
      apply in_or_app. left. apply in_or_app. left. exact X. }
    (* the new code, whether or not an instruction is left after the label *)
    assert (EQ : forall c' m1, OptFacts.rws m1 (z_code (mkZ pre f mid (Lbl l :: r) k n)) c' ->
              c' = rev pre ++ (Dummy :: rev mid) ++ Lbl l :: r ->
              (exists m', OptFacts.rws m' c0 c') /\ cfc_equiv Or cfg c0 c').
    { intros c' m1 RW1 EC. apply (equiv_next _ _ m0 m1 RW RW1 EQV).
      exact (equiv_jmp pre mid f l r _ c' ltac:(zcode) EC MID M EL NL). }
    destruct (skip_to_ins (Lbl l :: mid ++ Dummy :: pre) r) as [[[pre'' i] r']|] eqn:S;
      cbn [OptFacts.good] in GOOD; destruct GOOD as (m1 & RW1 & _); cbn [ResCF].
    - pose proof (OptFacts.skip_to_ins_some _ _ _ _ _ S) as [S1 _].
      destruct (EQ _ m1 RW1) as [RW' EQN].
      { unfold z_code. cbn [z_pre z_f z_mid z_rest rev app]. rewrite <- S1. zcode. }
      apply InvS_intro; cbn [z_pre z_f z_mid z_rest z_k]; try assumption.
      + reflexivity.
      + intros _. exact (JK (or_introl M)).
      + rewrite (JK (or_introl M)). apply kinv_none.
    - apply (EQ _ m1 RW1). unfold finish. zcode.
  Qed.

  (** (S): nothing is rewritten; after a label the knowledge is reset, and the new knowledge is
      sound whatever the state in which the label is reached *)
  Definition know_part (z : zst) : Prop :=
    know_ops_ok cfg (z_k z) /\ (i_mn (z_f z) = JMP \/ i_mn (z_f z) = JSR -> z_k z = k_none) /\
    KInvC cfg (pswap z) (z_pre z) (z_f z) (z_k z).

  Lemma step_second_know (pre : list line) (f : instr) (mid rest : list line) (k : know) (n : N) :
    cfc_ok cfg rest = true -> forallb skip_line mid = true -> know_part (mkZ pre f mid rest k n) ->
    OptFacts.second_res (rev pre ++ Ins f :: rev mid ++ rest) n
      (fun pre f mid rest k =>
         cfc_ok cfg rest = true /\ forallb skip_line mid = true /\ know_part (mkZ pre f mid rest k n))
      (step_second pre f mid rest k n).
  Proof.
    intros OKR MID KP.
    apply OptFacts.step_second_inv with (J := fun p r _ => cfc_ok cfg r = true /\ forallb skip_line (cblk p) = true);
      [| | | |exact (conj OKR (conj MID KP))].
    - (* a comment or a removed line joins [mid] *)
      intros pre1 f1 mid1 q r k1 Q (OK & M & KO & JK & KI). apply cfc_ok_cons in OK.
      assert (SQ : skip_line q = true) by (destruct q; try discriminate Q; reflexivity).
      split; [exact (proj2 OK)|]. split; [cbn [forallb]; rewrite SQ; exact M|].
      split; [exact KO|]. split; [exact JK|]. apply KInvC_weaken. cbn [z_pre z_f z_k] in KI |- *.
      replace (pswap _) with false in KI by (symmetry; destruct q; try discriminate Q; apply andb_false_r).
      exact KI.
    - intros pre1 f1 mid1 b r k1 B (OK & _). apply cfc_ok_cons in OK.
      destruct b; try discriminate B; [|discriminate (proj1 OK)]. split; [exact (proj2 OK)|reflexivity].
    - intros p x r k1 X (OK & Q). apply cfc_ok_cons in OK. split; [exact (proj2 OK)|].
      apply cblk_quiet_cons; [|exact Q]. destruct x; try discriminate X; try reflexivity. discriminate (proj1 OK).
    - (* after a label the knowledge is reset: sound whatever the state in which the label is reached *)
      intros p i r k1 (OK & Q). apply cfc_ok_cons in OK. destruct OK as [OKi OKr]. cbn [cfc_line_ok] in OKi.
      split; [exact OKr|]. split; [reflexivity|]. unfold know_part. cbn [z_pre z_f z_k]. rewrite analyse_label.
      split; [exact (know_ops_ok_start cfg i OKi)|]. split; [exact (analyse_start_jmp i)|].
      apply KInvC_weaken. exact (kinv_start cfg p i HP Q OKi).
  Qed.

  Lemma step_second_cf (z : zst) :
    InvS z ->
    match step_second (z_pre z) (z_f z) (z_mid z) (z_rest z) (z_k z) (z_removed z) with
    | Done c _ => cfc_equiv Or cfg c0 c
    | Next z2 => InvS z2 /\ exists i2 ahead, z_rest z2 = Ins i2 :: ahead
    end.
  Proof.
    intros [(OKC & MID & ND & KOK & JK & EQV & KI) (m0 & RW)].
    destruct (z_code_parts z OKC) as (_ & _ & OKR).
    destruct z as [pre f mid rest k n]. cbn [z_pre z_f z_mid z_rest z_k z_removed] in *.
    pose proof (step_second_know pre f mid rest k n OKR MID (conj KOK (conj JK KI))) as SS.
    destruct (step_second pre f mid rest k n) as [c n'|z2]; cbn [OptFacts.second_res] in SS.
    - destruct SS as [-> _]. exact EQV.
    - destruct SS as (S1 & _ & S3 & _ & MQ2 & KO2 & JK2 & KI2). split; [|exact S3]. destruct z2.
      apply InvS_intro; try assumption.
      + exists m0. rewrite S1. exact RW.
      + rewrite S1. exact EQV.
  Qed.

  Lemma step_cf (z : zst) : InvS z -> rb_here z = false -> ResCF (step z).
  Proof.
    intros I RB. unfold step. unfold rb_here in RB.
    pose proof (step_jmp_cf z I) as J.
    destruct (step_jmp z) as [c n|z1]; [exact J|]. cbn [ResCF] in J.
    pose proof (step_second_cf z1 J) as S.
    destruct (step_second (z_pre z1) (z_f z1) (z_mid z1) (z_rest z1) (z_k z1) (z_removed z1)) as [c n|z2];
      [exact S|].
    destruct S as [I2 (i2 & ahead & E)]. rewrite E in RB |- *.
    exact (step_pair_cf z2 i2 ahead I2 E RB).
  Qed.

  Lemma InvS_init (pre : list line) (i : instr) (r : list line) :
    skip_to_ins [] c0 = Some (pre, i, r) ->
    InvS (mkZ pre i [] r (analyse_load AlStart k_init i) 0%N).
  Proof.
    intros SK. pose proof (OptFacts.skip_to_ins_some _ _ _ _ _ SK) as [S1 _]. cbn [rev app] in S1.
    assert (ZC : z_code (mkZ pre i [] r (analyse_load AlStart k_init i) 0%N) = c0).
    { unfold z_code. cbn [z_pre z_f z_mid z_rest rev app]. symmetry. exact S1. }
    assert (OKi : cfc_ins_ok cfg i = true).
    { pose proof OK0 as O. rewrite S1 in O. apply cfc_ok_app in O. destruct O as [_ O].
      apply cfc_ok_cons in O. exact (proj1 O). }
    apply InvS_intro; cbn [z_pre z_f z_mid z_rest z_k].
    - exists 0%N. rewrite ZC. apply OptFacts.rws_refl.
    - reflexivity.
    - exact (know_ops_ok_start cfg i OKi).
    - exact (analyse_start_jmp i).
    - rewrite ZC. apply cfc_equiv_eq. reflexivity.
    - apply KInvC_weaken. apply (kinv_start cfg pre i HP); [|exact OKi].
      exact (skip_to_ins_blk cfg c0 [] pre i r SK OK0 eq_refl).
  Qed.

  Theorem optimize_cf_equiv : rb_free c0 = true -> cfc_equiv Or cfg c0 (fst (optimize c0)).
  Proof.
    intros RB.
    apply (OptFacts.optimize_walk (fun f z => InvS z /\ run_rb_free f z = true) (cfc_equiv Or cfg c0)).
    - intros f z [I R]. cbn [run_rb_free] in R. apply andb_true_iff in R. destruct R as [R1 R2].
      apply negb_true_iff in R1. pose proof (step_cf z I R1) as RS.
      destruct (step z); [exact RS|exact (conj RS R2)].
    - apply cfc_equiv_eq. reflexivity.
    - intros pre i r SK. split; [exact (InvS_init pre i r SK)|]. unfold rb_free in RB. rewrite SK in RB. exact RB.
  Qed.
End CF.

(** a body with labels, branches, JMP, calls and returns: whenever the original ends (by an RTS
    or by falling off its end), the optimised body ends the same way in an equal state, the calls
    being answered alike *)
Theorem optimize_call_equiv : forall Or cfg c,
  oracle_ok Or -> ports cfg = [] -> cfc_ok cfg c = true -> NoDup (lbls c) -> rb_free c = true ->
  cfc_equiv Or cfg c (fst (optimize c)).
Proof. exact optimize_cf_equiv. Qed.
Print Assumptions optimize_call_equiv.

Lemma optimize_cfc_ok (cfg : config) (c : code) : cfc_ok cfg c = true -> cfc_ok cfg (fst (optimize c)) = true.
Proof. exact (rws_cfc_ok cfg _ _ _ (OptFacts.optimize_rws c)). Qed.

Lemma push_eqb (s t : mstate) (v : Z) : eq_bytes s t -> eq_bytes (push s (byte v)) (push t (byte v)).
Proof.
  intros (H & HBs & HBt).
  split; [|split; apply GenTemplatesFacts.push_bytes_ok; try assumption; apply byte_range].
  apply eq_state_agree, agree_push, eq_state_agree, H.
Qed.

Lemma push2_eqb (s t : mstate) (d : nat) : eq_bytes s t -> eq_bytes (push2 s d) (push2 t d).
Proof. intros H. unfold push2. apply push_eqb. apply push_eqb. exact H. Qed.

Lemma pull_eqb (s t : mstate) :
  eq_bytes s t -> eq_bytes (fst (pull s)) (fst (pull t)) /\ snd (pull s) = snd (pull t).
Proof.
  intros (((HA & HX & HY & HS & HV & HC & HM) & HN & HZ) & HBs & HBt).
  split; [|unfold pull; cbn [snd]; rewrite HS; apply HM].
  split; [|split; apply GenTemplatesFacts.pull_bytes_ok; assumption].
  unfold pull. cbn [fst]. rewrite HS. unfold eq_state, eq_mod_nz. cbn [rA rX rY rS fN fV fZ fC mem set_sp].
  repeat split; assumption.
Qed.

Lemma check2_eqb (s t s1 : mstate) (d : nat) :
  eq_bytes s t -> check2 s d = Some s1 -> exists t1, check2 t d = Some t1 /\ eq_bytes s1 t1.
Proof.
  intros E H. unfold check2 in *.
  destruct (pull_eqb s t E) as [E1 V1].
  destruct (pull s) as [sa lo]. destruct (pull t) as [ta lo']. cbn [fst snd] in E1, V1. subst lo'.
  destruct (pull_eqb sa ta E1) as [E2 V2].
  destruct (pull sa) as [sb hi]. destruct (pull ta) as [tb hi']. cbn [fst snd] in E2, V2. subst hi'.
  destruct ((lo =? byte (255 - Z.of_nat d)) && (hi =? byte (Z.of_nat d))); [|discriminate H].
  inversion H; subst. eauto.
Qed.

Lemma gfind_spec (Oc : oracle) (cfg : config) (c : code) (s s2 : mstate) : forall fuel,
  gfind Oc cfg c s fuel = Some s2 <->
  exists n, (n <= fuel)%nat /\ grun Oc cfg c n 0%nat s = Some (S (length c), s2).
Proof.
  induction fuel as [|fuel IH].
  - cbn [gfind]. split.
    + destruct (grun Oc cfg c 0 0%nat s) as [[pc s3]|] eqn:G; [|discriminate].
      destruct (Nat.eqb_spec pc (S (length c))) as [->|NE]; [|discriminate].
      intros H. inversion H; subst. exists O%nat. auto.
    + intros (n & LE & G). assert (n = O)%nat by lia. subst n. rewrite G, Nat.eqb_refl. reflexivity.
  - cbn [gfind]. split.
    + destruct (grun Oc cfg c (S fuel) 0%nat s) as [[pc s3]|] eqn:G.
      * destruct (Nat.eqb_spec pc (S (length c))) as [->|NE].
        -- intros H. inversion H; subst. exists (S fuel). auto.
        -- intros H. apply IH in H. destruct H as (n & LE & Gn). exists n. split; [lia|exact Gn].
      * intros H. apply IH in H. destruct H as (n & LE & Gn). exists n. split; [lia|exact Gn].
    + intros (n & LE & Gn).
      destruct (Nat.eq_dec n (S fuel)) as [->|NE].
      * rewrite Gn, Nat.eqb_refl. reflexivity.
      * assert (LT : (n <= fuel)%nat) by lia.
        assert (G : grun Oc cfg c (S fuel) 0%nat s = None).
        { replace (S fuel) with (n + S (fuel - n))%nat by lia. rewrite grun_add, Gn.
          apply grun_end_stuck. lia. }
        rewrite G. apply IH. exists n. auto.
Qed.

Lemma find_code_in (f : string) (P : cprog) (c : code) : find_code f P = Some c -> In (f, c) P.
Proof.
  induction P as [|[n b] P IH]; intros H; [discriminate H|].
  cbn [find_code] in H. destruct (String.eqb_spec n f) as [->|NE].
  - inversion H; subst. left. reflexivity.
  - right. exact (IH H).
Qed.

Lemma find_code_map (F : code -> code) (f : string) (P : cprog) :
  find_code f (map_prog F P) = option_map F (find_code f P).
Proof.
  induction P as [|[n b] P IH]; [reflexivity|].
  cbn [map_prog map find_code fst snd]. destruct (String.eqb n f); [reflexivity|exact IH].
Qed.

Lemma call_mono (cfg : config) (P : cprog) : forall K K' d,
  (K <= K')%nat -> oracle_le (call cfg P K d) (call cfg P K' d).
Proof.
  induction K as [|K IH]; intros K' d LE f s s1 H; [discriminate H|].
  destruct K' as [|K']; [lia|]. cbn [call] in H |- *.
  destruct (find_code f P) as [c|]; [|discriminate H].
  destruct (gfind (call cfg P K (S d)) cfg c (push2 s d) K) as [s2|] eqn:G; [|discriminate H].
  apply gfind_spec in G. destruct G as (n & LN & G).
  assert (G' : gfind (call cfg P K' (S d)) cfg c (push2 s d) K' = Some s2).
  { apply gfind_spec. exists n. split; [lia|].
    exact (grun_mono _ _ cfg c (IH K' (S d) ltac:(lia)) _ _ _ _ G). }
  rewrite G'. exact H.
Qed.

Lemma call_eqb (cfg : config) (P : cprog) :
  all_bodies (fun c => cfc_ok cfg c = true) P ->
  forall K d f s t s1, eq_bytes s t -> call cfg P K d f s = Some s1 ->
    exists t1, call cfg P K d f t = Some t1 /\ eq_bytes s1 t1.
Proof.
  intros AB. induction K as [|K IH]; intros d f s t s1 E H; [discriminate H|].
  cbn [call] in H |- *. destruct (find_code f P) as [c|] eqn:FC; [|discriminate H].
  destruct (gfind (call cfg P K (S d)) cfg c (push2 s d) K) as [s2|] eqn:G; [|discriminate H].
  apply gfind_spec in G. destruct G as (n & LN & G).
  destruct (grun_sim1 eq_bytes _ _ cfg c (fun i _ => keeps_eq_bytes cfg i) (IH (S d))
              n 0%nat _ _ _ s2 (push2_eqb s t d E) G) as (t2 & G2 & E2).
  assert (G' : gfind (call cfg P K (S d)) cfg c (push2 t d) K = Some t2).
  { apply gfind_spec. exists n. auto. }
  rewrite G'. exact (check2_eqb s2 t2 s1 d E2 H).
Qed.

Lemma call_oracle_ok (cfg : config) (P : cprog) (K d : nat) :
  all_bodies (fun c => cfc_ok cfg c = true) P -> oracle_ok (call cfg P K d).
Proof.
  intros AB. split.
  - intros f s t s1 E HBs HBt H.
    destruct (call_eqb cfg P AB K d f s t s1 (conj E (conj HBs HBt)) H) as (t1 & HT & E1 & _). eauto.
  - intros f s s1 HB H.
    destruct (call_eqb cfg P AB K d f s s s1 (conj (eq_state_refl s) (conj HB HB)) H) as (_ & _ & _ & HB1 & _).
    exact HB1.
Qed.

Definition sound_pass (cfg : config) (F : code -> code) (Q : code -> Prop) : Prop :=
  forall c, Q c ->
    cfc_ok cfg c = true /\ cfc_ok cfg (F c) = true /\
    (forall Or, oracle_ok Or -> cfc_equiv Or cfg c (F c)) /\
    (forall sl, slines_of c = Some sl -> exists sl', slines_of (F c) = Some sl').

Lemma pass_comp (cfg : config) (F G : code -> code) (Q Q' : code -> Prop) :
  sound_pass cfg F Q -> sound_pass cfg G Q' -> (forall c, Q c -> Q' (F c)) ->
  sound_pass cfg (fun c => G (F c)) Q.
Proof.
  intros PF PG QQ c q. destruct (PF c q) as (OK & _ & EF & AF).
  destruct (PG (F c) (QQ c q)) as (_ & OKG & EG & AG). split; [exact OK|]. split; [exact OKG|]. split.
  - intros Or OO. exact (cfc_equiv_trans Or cfg _ _ _ (EF Or OO) (EG Or OO)).
  - intros sl SL. destruct (AF sl SL) as [sl1 SL1]. exact (AG sl1 SL1).
Qed.

Section ProgSim.
  Variables (cfg : config) (F : code -> code) (Q : code -> Prop).
  Hypothesis PASS : sound_pass cfg F Q.
  Variable P : cprog.
  Hypothesis AB : all_bodies Q P.

  Lemma AB_ok : all_bodies (fun c => cfc_ok cfg c = true) P.
  Proof. intros f c H. exact (proj1 (PASS c (AB f c H))). Qed.

  (** a body, under the calls of [P] answered by the calls of the transformed program *)
  Lemma body_sim (K D : nat) (c : code) :
    Q c ->
    (forall f s t s1, eq_bytes s t -> call cfg P K D f s = Some s1 ->
       exists K' t1, call cfg (map_prog F P) K' D f t = Some t1 /\ eq_bytes s1 t1) ->
    forall s t r s1, eq_bytes s t -> ghalts (call cfg P K D) cfg c s r s1 ->
      exists K' n t1, grun (call cfg (map_prog F P) K' D) cfg (F c) n 0%nat t = Some (endpos (F c) r, t1) /\
                      eq_bytes s1 t1.
  Proof.
    intros QC REL s t r s1 E H. pose proof E as (_ & HBs & _).
    pose proof (call_oracle_ok cfg P K D AB_ok) as OO. destruct (PASS c QC) as (Q_ok & F_ok & F_sound & _).
    destruct (F_sound (call cfg P K D) OO s r s1 HBs H) as (s2 & (n & G) & E2).
    destruct (grun_sim eq_bytes (call cfg P K D) (fun K' => call cfg (map_prog F P) K' D) cfg (F c)
                (fun i _ => keeps_eq_bytes cfg i) (fun K1 K2 LE => call_mono cfg (map_prog F P) K1 K2 D LE) REL
                n 0%nat s t _ s2 E G) as (K0 & HK).
    destruct (HK K0 (le_n _)) as (t1 & G' & E' & _ & HBt1).
    exists K0, n, t1. split; [exact G'|]. split; [exact (eq_state_trans _ _ _ (eq_state_sym _ _ E2) E')|].
    split; [|exact HBt1]. destruct H as [n0 H].
    destruct (grun_eq _ (proj1 OO) (proj2 OO) cfg c n0 0%nat _ s s s1 Q_ok
                (conj (eq_state_refl s) (conj HBs HBs)) H) as (_ & _ & _ & HB1 & _).
    exact HB1.
  Qed.

  Lemma call_sim : forall K d f s t s1, eq_bytes s t -> call cfg P K d f s = Some s1 ->
    exists K' t1, call cfg (map_prog F P) K' d f t = Some t1 /\ eq_bytes s1 t1.
  Proof.
    induction K as [|K IH]; intros d f s t s1 E H; [discriminate H|].
    cbn [call] in H. destruct (find_code f P) as [c|] eqn:FC; [|discriminate H].
    destruct (gfind (call cfg P K (S d)) cfg c (push2 s d) K) as [s2|] eqn:G; [|discriminate H].
    apply gfind_spec in G. destruct G as (n & LN & G).
    destruct (body_sim K (S d) c (AB f c (find_code_in f P c FC)) (IH (S d)) (push2 s d) (push2 t d) true s2
                (push2_eqb s t d E) (ex_intro _ n G))
      as (K' & n' & t2 & G' & E2).
    destruct (check2_eqb s2 t2 s1 d E2 H) as (t1 & C & E1).
    exists (S (Nat.max K' n')), t1. split; [|exact E1].
    cbn [call]. rewrite find_code_map, FC. cbn [option_map].
    assert (GF : gfind (call cfg (map_prog F P) (Nat.max K' n') (S d)) cfg (F c) (push2 t d) (Nat.max K' n') = Some t2).
    { apply gfind_spec. exists n'. split; [apply Nat.le_max_r|].
      exact (grun_mono _ _ cfg (F c) (call_mono cfg _ K' _ (S d) (Nat.le_max_l _ _)) _ _ _ _ G'). }
    rewrite GF. exact C.
  Qed.

  Theorem prog_sim : forall main s s', bytes_ok s ->
    phalts cfg P main s s' -> exists s'', phalts cfg (map_prog F P) main s s'' /\ eq_state s'' s'.
  Proof.
    intros main s s' HB (c & K & r & FC & H).
    destruct (body_sim K 1%nat c (AB main c (find_code_in main P c FC)) (call_sim K 1%nat) s s r s'
                (conj (eq_state_refl s) (conj HB HB)) H) as (K' & n & t1 & G & E & _).
    exists t1. split; [|apply eq_state_sym; exact E].
    exists (F c), K', r. split; [rewrite find_code_map, FC; reflexivity|exists n; exact G].
  Qed.
End ProgSim.

Lemma slines_nth (c : code) : forall sl pc, slines_of c = Some sl ->
  match nth_error c pc with
  | None => nth_error sl pc = None
  | Some x => exists y, sline_of x = Some y /\ nth_error sl pc = Some y
  end.
Proof.
  induction c as [|x c IH]; intros sl pc H.
  - inversion H; subst. destruct pc; reflexivity.
  - cbn [slines_of] in H. destruct (sline_of x) as [y|] eqn:SX; [|discriminate H].
    destruct (slines_of c) as [sr|] eqn:SR; [|discriminate H]. inversion H; subst.
    destruct pc as [|pc]; cbn [nth_error]; [eauto|]. exact (IH sr pc eq_refl).
Qed.

Lemma slines_find (l : string) : forall c sl, slines_of c = Some sl -> find_label l sl 0 = find_lbl l c.
Proof.
  apply slines_of_ind; [reflexivity|].
  intros x sx c sc SX _ IH. cbn [find_label find_lbl]. rewrite <- IH, (find_label_shift l sc 1).
  destruct x as [lb|i|t sz|cm|]; cbn [sline_of] in SX;
    [|destruct (parse_operand (i_mn i) (i_op i)); [|discriminate SX]| | |]; injection SX as <-; reflexivity.
Qed.

Lemma slines_Forall (c : code) :
  (exists sl, slines_of c = Some sl) <-> Forall (fun x => sline_of x <> None) c.
Proof.
  induction c as [|x c IH]; [split; [constructor|exists []; reflexivity]|].
  rewrite Forall_cons_iff, <- IH. cbn [slines_of].
  destruct (sline_of x) as [y|]; [destruct (slines_of c) as [sr|]|]; split.
  - split; [discriminate|eauto].
  - eauto.
  - intros [sl H]. discriminate H.
  - intros [_ [sl H]]. discriminate H.
  - intros [sl H]. discriminate H.
  - intros [H _]. contradiction.
Qed.

Lemma sprog_find (P : cprog) : forall sp f, sprog_of P = Some sp ->
  find_func f sp = match find_code f P with Some c => slines_of c | None => None end.
Proof.
  induction P as [|[n b] P IH]; intros sp f H.
  - inversion H; subst. reflexivity.
  - cbn [sprog_of] in H. destruct (slines_of b) as [sl|] eqn:SB; [|discriminate H].
    destruct (sprog_of P) as [sr|] eqn:SR; [|discriminate H]. inversion H; subst.
    cbn [find_func find_code]. destruct (String.eqb n f); [symmetry; exact SB|exact (IH sr f eq_refl)].
Qed.

Lemma sprog_in (P : cprog) : forall sp f c, sprog_of P = Some sp -> In (f, c) P ->
  exists sl, slines_of c = Some sl.
Proof.
  induction P as [|[n b] P IH]; intros sp f c H I; [destruct I|].
  cbn [sprog_of] in H. destruct (slines_of b) as [sl|] eqn:SB; [|discriminate H].
  destruct (sprog_of P) as [sr|] eqn:SR; [|discriminate H].
  destruct I as [E|I]; [inversion E; subst; eauto|exact (IH sr f c eq_refl I)].
Qed.

Lemma sprog_body (P : cprog) (sp : sprogram) (f : string) (c : code) :
  sprog_of P = Some sp -> find_code f P = Some c ->
  exists sl, slines_of c = Some sl /\ find_func f sp = Some sl.
Proof.
  intros SP FC. destruct (sprog_in P sp f c SP (find_code_in f P c FC)) as [sl SL].
  exists sl. split; [exact SL|]. rewrite (sprog_find P sp f SP), FC. exact SL.
Qed.

Section Adequacy.
  Variables (cfg : config) (P : cprog) (sp : sprogram).
  Hypothesis SP : sprog_of P = Some sp.
  Hypothesis AB : all_bodies (fun c => cfc_ok cfg c = true) P.
  Variables (inl_sem ext_call : string -> mstate -> option mstate).

  Notation srun := (Sem.run cfg sp inl_sem ext_call).

  Lemma push2_sem (s : mstate) (n : nat) :
    push (push s (byte (Z.of_nat n + 1))) (byte (255 - (Z.of_nat n + 1))) = push2 s (S n).
  Proof. unfold push2. rewrite Nat2Z.inj_succ. unfold Z.succ. reflexivity. Qed.

  Definition sreach (fname : string) (sl : list sline) (st : list frame) (pc : nat) (s : mstate)
             (pc' : nat) (s' : mstate) : Prop :=
    exists N, forall fuel tr cy, exists tr' cy',
      srun (N + fuel) fname sl pc st s tr cy = srun fuel fname sl pc' st s' tr' cy'.

  Lemma sreach_trans (fname : string) (sl : list sline) (st : list frame) (pc1 pc2 pc3 : nat)
        (s1 s2 s3 : mstate) :
    sreach fname sl st pc1 s1 pc2 s2 -> sreach fname sl st pc2 s2 pc3 s3 -> sreach fname sl st pc1 s1 pc3 s3.
  Proof.
    intros (M & HM) (N1 & HN1). exists (M + N1)%nat. intros fuel tr cy.
    destruct (HM (N1 + fuel)%nat tr cy) as (tr1 & cy1 & E1).
    destruct (HN1 fuel tr1 cy1) as (tr' & cy' & E2). exists tr', cy'.
    rewrite <- Nat.add_assoc, E1. exact E2.
  Qed.

  (** the line at which a body ends: an RTS ([r = true]), or the one past its last *)
  Definition ends (r : bool) (sl : list sline) (pe : nat) : Prop :=
    if r then exists o p raw, nth_error sl pe = Some (SIns RTS o p raw) else pe = length sl.

  Definition call_runs (K : nat) : Prop :=
    forall d f s s2, call cfg P K d f s = Some s2 ->
    forall fname cl pc st o p raw, d = S (length st) ->
      nth_error cl pc = Some (SIns JSR o p raw) -> exec cfg JSR o s = XOk s 6%N (FCall f) ->
      sreach fname cl st pc s (S pc) s2.

  Lemma body_runs (K : nat) (c : code) (sl : list sline) :
    call_runs K -> slines_of c = Some sl -> cfc_ok cfg c = true ->
    forall fname st n pc s r s1, (pc <= length c)%nat ->
      grun (call cfg P K (S (length st))) cfg c n pc s = Some (endpos c r, s1) ->
      exists pe, sreach fname sl st pc s pe s1 /\ ends r sl pe.
  Proof.
    intros CR SL OK fname st. induction n as [|n IH]; intros pc s r s1 LE H.
    - cbn [grun] in H. inversion H; subst.
      assert (r = false) by (destruct r; [unfold endpos in LE; lia|reflexivity]). subst r.
      exists (length c). split; [exists O; intros fuel tr cy; exists tr, cy; reflexivity|].
      symmetry. exact (slines_length c sl SL).
    - cbn [grun] in H. pose proof (slines_nth c sl pc SL) as N.
      destruct (nth_error c pc) as [x|] eqn:NC; [|discriminate H].
      destruct N as (y & SX & NS).
      assert (LT : (pc < length c)%nat) by (apply nth_error_Some; rewrite NC; discriminate).
      assert (OKx : cfc_line_ok cfg x = true).
      { apply nth_error_In in NC. exact (proj1 (forallb_forall _ _) OK _ NC). }
      assert (ONE : forall pc1 s2, (pc1 <= length c)%nat ->
                grun (call cfg P K (S (length st))) cfg c n pc1 s2 = Some (endpos c r, s1) ->
                (forall fuel tr cy, exists tr' cy',
                   srun (S fuel) fname sl pc st s tr cy = srun fuel fname sl pc1 st s2 tr' cy') ->
                exists pe, sreach fname sl st pc s pe s1 /\ ends r sl pe).
      { intros pc1 s2 L1 H1 E. destruct (IH pc1 s2 r s1 L1 H1) as (pe & G & EN). exists pe.
        split; [exact (sreach_trans _ _ _ _ _ _ _ _ _ (ex_intro _ 1%nat E) G)|exact EN]. }
      destruct x as [lb|i|t sz|cm|]; cbn [sline_of] in SX; try discriminate OKx.
      1, 3, 4: (inversion SX; subst y; apply (ONE (S pc) s LT H); intros fuel tr cy; exists tr, cy;
                rewrite GenTemplatesFacts.run_S, NS; reflexivity).
      cbn [cfc_line_ok] in OKx.
      destruct (parse_operand (i_mn i) (i_op i)) as [op|] eqn:PO; [|discriminate SX]. inversion SX; subst y.
      destruct (exec cfg (i_mn i) op s) as [u k fl|w] eqn:X; [|discriminate H].
      destruct fl as [|l|g| |]; try discriminate H.
      + apply (ONE (S pc) u LT H). intros fuel tr cy.
        rewrite GenTemplatesFacts.run_S, NS, X. cbv zeta. eauto.
      + destruct (find_lbl l c) as [j|] eqn:F; [|discriminate H].
        apply (ONE j u (Nat.lt_le_incl _ _ (find_lbl_lt l c j F)) H). intros fuel tr cy.
        rewrite GenTemplatesFacts.run_S, NS, X. cbv zeta.
        rewrite (slines_find l c sl SL), F. eauto.
      + destruct (call cfg P K (S (length st)) g u) as [u2|] eqn:CG; [|discriminate H].
        pose proof (exec_flow cfg _ _ _ _ _ _ X) as MJ. cbn [flow_ok] in MJ. rewrite MJ in X, NS.
        assert (X' : exec cfg JSR op s = XOk s 6%N (FCall g)).
        { cbv beta iota zeta delta [exec] in X |- *. destruct op; try discriminate X.
          inversion X; subst. reflexivity. }
        rewrite X' in X. inversion X; subst u.
        destruct (IH (S pc) u2 r s1 LT H) as (pe & G & EN). exists pe. split; [|exact EN].
        exact (sreach_trans _ _ _ _ _ _ _ _ _
                 (CR _ _ _ _ CG fname sl pc st op (i_prot i) (i_op i) eq_refl NS X') G).
      + destruct n as [|n]; [|rewrite grun_end_stuck in H by lia; discriminate H].
        cbn [grun] in H. inversion H as [[EP ES]]. subst u.
        assert (r = true) by (destruct r; [reflexivity|unfold endpos in EP; lia]). subst r.
        pose proof (exec_flow cfg _ _ _ _ _ _ X) as MR. cbn [flow_ok] in MR. rewrite MR in X, NS.
        injection X as <- _. exists pc.
        split; [exists O; intros fuel tr cy; exists tr, cy; reflexivity|exists op, (i_prot i), (i_op i); exact NS].
  Qed.

  Lemma call_runs_all : forall K, call_runs K.
  Proof.
    induction K as [|K IH]; intros d f s s3 H; [discriminate H|].
    intros fname cl pc st o p raw D NS X. subst d.
    cbn [call] in H. destruct (find_code f P) as [c|] eqn:FC; [|discriminate H].
    destruct (gfind (call cfg P K (S (S (length st)))) cfg c (push2 s (S (length st))) K) as [s2|] eqn:G;
      [|discriminate H].
    apply gfind_spec in G. destruct G as (n & _ & G).
    destruct (sprog_body P sp f c SP FC) as (sl & SL & FF).
    assert (OKc : cfc_ok cfg c = true) by (exact (AB f c (find_code_in f P c FC))).
    destruct (body_runs K c sl IH SL OKc f ((fname, cl, S pc) :: st) n 0%nat _ true s2 (Nat.le_0_l _) G)
      as (pe & (N & HN) & (o' & p' & raw' & NR)).
    exists (S (N + 1)). intros fuel tr cy.
    destruct (HN (S fuel) (if p then EvI JSR raw :: tr else tr) (cy + 6)%N) as (tr1 & cy1 & E1).
    replace (S (N + 1) + fuel)%nat with (S (N + S fuel)) by lia.
    rewrite GenTemplatesFacts.run_S, NS, X. cbv zeta. rewrite FF, push2_sem, E1.
    rewrite GenTemplatesFacts.run_S, NR. cbn [exec length]. cbv zeta.
    unfold check2 in H. destruct (pull s2) as [sa lo]. destruct (pull sa) as [sb hi].
    match type of H with (if ?b then _ else _) = _ => destruct b end; [|discriminate H].
    injection H as <-. eauto.
  Qed.

  Theorem phalts_run (main : string) (s s' : mstate) :
    phalts cfg P main s s' ->
    exists N, forall fuel, (N < fuel)%nat ->
      exists tr cy, run_function cfg sp inl_sem ext_call fuel main s = Halt s' tr cy.
  Proof.
    intros (c & K & r & FC & (n & G)).
    destruct (sprog_body P sp main c SP FC) as (sl & SL & FF).
    assert (OKc : cfc_ok cfg c = true) by (exact (AB main c (find_code_in main P c FC))).
    destruct (body_runs K c sl (call_runs_all K) SL OKc main [] n 0%nat s r s' (Nat.le_0_l _) G)
      as (pe & (N & HN) & EN).
    exists N. intros fuel LT. unfold run_function. rewrite FF.
    destruct (HN (S (fuel - N - 1)) [] 0%N) as (tr' & cy' & E).
    replace fuel with (N + S (fuel - N - 1))%nat by lia. rewrite E.
    destruct r; [destruct EN as (o & p & raw & NR); rewrite GenTemplatesFacts.run_S, NR; cbn [exec]; eauto|].
    cbn [ends] in EN. rewrite EN, GenTemplatesFacts.run_off_end. eauto.
  Qed.

  Hypothesis NOEXT : forall g x, ext_call g x = None.

  (** a halting run of [Sem.run], cut at the end of the current body: the body ends under some
      bound on the calls; the frame below, if any, is resumed with less fuel *)
  Definition hends (fuel : nat) (c : code) (st : list frame) (pc : nat) (s s' : mstate)
             (tr' : list event) (cy' : N) : Prop :=
    exists K r s1 n,
      grun (call cfg P K (S (length st))) cfg c n pc s = Some (endpos c r, s1) /\
      match st with
      | [] => s1 = s'
      | (fn, c0, pc0) :: st' =>
          r = true /\ exists s2 fuel1 tr1 cy1,
            check2 s1 (length st) = Some s2 /\ (fuel1 < fuel)%nat /\
            srun fuel1 fn c0 pc0 st' s2 tr1 cy1 = Halt s' tr' cy'
      end.

  Lemma hends_step (fuel fuel1 K0 : nat) (c : code) (st : list frame) (pc pc1 : nat) (s s2 s' : mstate)
        (tr' : list event) (cy' : N) :
    (fuel1 <= fuel)%nat ->
    (forall K n, (K0 <= K)%nat ->
       grun (call cfg P K (S (length st))) cfg c (S n) pc s = grun (call cfg P K (S (length st))) cfg c n pc1 s2) ->
    hends fuel1 c st pc1 s2 s' tr' cy' -> hends fuel c st pc s s' tr' cy'.
  Proof.
    intros LE HX (K & r & s1 & n & G & REST). exists (Nat.max K0 K), r, s1, (S n). split.
    - rewrite (HX _ n (Nat.le_max_l _ _)).
      exact (grun_mono _ _ cfg c (call_mono cfg P K _ _ (Nat.le_max_r _ _)) _ _ _ _ G).
    - destruct st as [|[[fn c0] pc0] st']; [exact REST|].
      destruct REST as (RT & s3 & f1 & tr1 & cy1 & C & L & RR).
      split; [exact RT|]. exists s3, f1, tr1, cy1. split; [exact C|]. split; [lia|exact RR].
  Qed.

  Lemma halt_body : forall fuel fname c sl pc st s tr cy s' tr' cy',
    slines_of c = Some sl -> cfc_ok cfg c = true -> (pc <= length c)%nat ->
    srun fuel fname sl pc st s tr cy = Halt s' tr' cy' -> hends fuel c st pc s s' tr' cy'.
  Proof.
    induction fuel as [fuel IH] using lt_wf_ind.
    intros fname c sl pc st s tr cy s' tr' cy' SL OK LE R.
    destruct fuel as [|fuel]; [discriminate R|].
    rewrite GenTemplatesFacts.run_S in R. pose proof (slines_nth c sl pc SL) as N.
    destruct (nth_error c pc) as [x|] eqn:NC.
    - destruct N as (y & SX & NS). rewrite NS in R.
      assert (LT : (pc < length c)%nat) by (apply nth_error_Some; rewrite NC; discriminate).
      assert (OKx : cfc_line_ok cfg x = true).
      { apply nth_error_In in NC. exact (proj1 (forallb_forall _ _) OK _ NC). }
      assert (ONE : forall pc1 s2 tr2 cy2, (pc1 <= length c)%nat ->
                srun fuel fname sl pc1 st s2 tr2 cy2 = Halt s' tr' cy' ->
                (forall Oc n, grun Oc cfg c (S n) pc s = grun Oc cfg c n pc1 s2) ->
                hends (S fuel) c st pc s s' tr' cy').
      { intros pc1 s2 tr2 cy2 L1 R1 HX.
        apply (hends_step (S fuel) fuel O c st pc pc1 s s2 s' tr' cy' (Nat.le_succ_diag_r _) (fun K n _ => HX _ n)).
        exact (IH fuel (Nat.lt_succ_diag_r _) fname c sl pc1 st s2 tr2 cy2 s' tr' cy' SL OK L1 R1). }
      destruct x as [lb|i|t sz|cm|]; cbn [sline_of] in SX; try discriminate OKx.
      1, 3, 4: (inversion SX; subst y; apply (ONE (S pc) s tr cy LT R); intros Oc n; cbn [grun]; rewrite NC;
                reflexivity).
      cbn [cfc_line_ok] in OKx.
      destruct (parse_operand (i_mn i) (i_op i)) as [op|] eqn:PO; [|discriminate SX]. inversion SX; subst y.
      cbv zeta in R.
      destruct (exec cfg (i_mn i) op s) as [u k fl|w] eqn:X; [|discriminate R].
      destruct fl as [|l|g| |].
      + apply (ONE (S pc) u _ _ LT R). intros Oc n. cbn [grun]. rewrite NC, PO, X. reflexivity.
      + rewrite (slines_find l c sl SL) in R.
        destruct (find_lbl l c) as [j|] eqn:F; [|discriminate R].
        apply (ONE j u _ _ (Nat.lt_le_incl _ _ (find_lbl_lt l c j F)) R).
        intros Oc n. cbn [grun]. rewrite NC, PO, X, F. reflexivity.
      + (* a call: the callee's run, then the rest of this body *)
        pose proof (sprog_find P sp g SP) as FF.
        destruct (find_func g sp) as [sl'|] eqn:FG.
        2:{ rewrite NOEXT in R. discriminate R. }
        destruct (find_code g P) as [c'|] eqn:FC; [|discriminate FF]. symmetry in FF.
        assert (OKc' : cfc_ok cfg c' = true) by (exact (AB g c' (find_code_in g P c' FC))).
        rewrite push2_sem in R.
        destruct (IH fuel (Nat.lt_succ_diag_r _) g c' sl' 0%nat ((fname, sl, S pc) :: st) _ _ _ s' tr' cy'
                    FF OKc' (Nat.le_0_l _) R) as (K1 & r1 & s1 & n1 & G1 & (RT & s2 & fuel1 & tr1 & cy1 & C1 & L1 & R1)).
        subst r1. cbn [length] in G1, C1.
        set (Kc := Nat.max K1 n1).
        assert (CALL : call cfg P (S Kc) (S (length st)) g u = Some s2).
        { cbn [call]. rewrite FC.
          assert (GF : gfind (call cfg P Kc (S (S (length st)))) cfg c' (push2 u (S (length st))) Kc = Some s1).
          { apply gfind_spec. exists n1. split; [apply Nat.le_max_r|].
            exact (grun_mono _ _ cfg c' (call_mono cfg P K1 Kc _ (Nat.le_max_l _ _)) _ _ _ _ G1). }
          rewrite GF. exact C1. }
        apply (hends_step (S fuel) fuel1 (S Kc) c st pc (S pc) s s2 s' tr' cy' ltac:(lia)).
        * intros K n LK. cbn [grun]. rewrite NC, PO, X, (call_mono cfg P (S Kc) K _ LK g u s2 CALL). reflexivity.
        * exact (IH fuel1 ltac:(lia) fname c sl (S pc) st s2 tr1 cy1 s' tr' cy' SL OK LT R1).
      + exists O, true, u, 1%nat. split; [cbn [grun]; rewrite NC, PO, X; reflexivity|].
        destruct st as [|[[fn c0] pc0] st'].
        * inversion R. reflexivity.
        * split; [reflexivity|]. unfold check2.
          destruct (pull u) as [sa lo]. destruct (pull sa) as [sb hi].
          match type of R with (if ?b then _ else _) = _ => destruct b end; [|discriminate R].
          eexists _, fuel, _, _. split; [reflexivity|]. split; [lia|exact R].
      + pose proof (cfc_ins_mnem cfg i OKx) as C. rewrite (exec_flow cfg _ _ _ _ _ _ X) in C. discriminate C.
    - rewrite N in R. apply nth_error_None in NC. assert (pc = length c) by lia. subst pc.
      destruct st as [|fr st']; [|discriminate R].
      inversion R; subst. exists O, false, s', O. split; reflexivity.
  Qed.

  Theorem run_phalts (main : string) (s s' : mstate) (fuel : nat) (tr : list event) (cy : N) :
    run_function cfg sp inl_sem ext_call fuel main s = Halt s' tr cy -> phalts cfg P main s s'.
  Proof.
    unfold run_function. intros R. pose proof (sprog_find P sp main SP) as FF.
    destruct (find_func main sp) as [sl|]; [|discriminate R].
    destruct (find_code main P) as [c|] eqn:FC; [|discriminate FF]. symmetry in FF.
    assert (OKc : cfc_ok cfg c = true) by (exact (AB main c (find_code_in main P c FC))).
    destruct (halt_body fuel main c sl 0%nat [] s [] 0%N s' tr cy FF OKc (Nat.le_0_l _) R)
      as (K & r & s1 & n & G & ->).
    exists c, K, r. split; [exact FC|exists n; exact G].
  Qed.
End Adequacy.

Theorem phalts_run_halts : forall cfg P main s s',
  all_bodies (fun c => cfc_ok cfg c = true) P -> (exists sp, sprog_of P = Some sp) ->
  phalts cfg P main s s' -> run_halts cfg P main s s'.
Proof.
  intros cfg P main s s' AB (sp & SP) H. exists sp. split; [exact SP|].
  intros inl_sem ext_call. exact (phalts_run cfg P sp SP AB inl_sem ext_call main s s' H).
Qed.

Theorem run_halts_phalts : forall cfg P main s s',
  all_bodies (fun c => cfc_ok cfg c = true) P ->
  run_halts cfg P main s s' -> phalts cfg P main s s'.
Proof.
  intros cfg P main s s' AB (sp & SP & H).
  destruct (H (fun _ _ => None) (fun _ _ => None)) as (N & HN).
  destruct (HN (S N) (Nat.lt_succ_diag_r _)) as (tr & cy & R).
  exact (run_phalts cfg P sp SP AB _ _ (fun _ _ => eq_refl) main s s' (S N) tr cy R).
Qed.
Print Assumptions run_halts_phalts.

Lemma in_map_prog (F : code -> code) (P : cprog) (f : string) (c' : code) :
  In (f, c') (map_prog F P) -> exists c, c' = F c /\ In (f, c) P.
Proof.
  unfold map_prog. intros H. apply in_map_iff in H. destruct H as ([g c] & E & I).
  cbn [fst snd] in E. inversion E; subst. eauto.
Qed.

Lemma sprog_some (P : cprog) :
  (forall f c, In (f, c) P -> exists sl, slines_of c = Some sl) -> exists sp, sprog_of P = Some sp.
Proof.
  induction P as [|[n b] P IH]; intros H; [exists []; reflexivity|].
  destruct (H n b (or_introl eq_refl)) as [sl SL].
  destruct IH as [sr SR]; [intros f c I; exact (H f c (or_intror I))|].
  cbn [sprog_of]. rewrite SL, SR. eauto.
Qed.

Theorem prog_run (cfg : config) (F : code -> code) (Q : code -> Prop) :
  sound_pass cfg F Q ->
  forall P main s s', all_bodies Q P -> bytes_ok s -> run_halts cfg P main s s' ->
  exists s'', run_halts cfg (map_prog F P) main s s'' /\ eq_state s'' s'.
Proof.
  intros PASS P main s s' AB HB R. pose proof R as (sp & SP & _).
  destruct (prog_sim cfg F Q PASS P AB main s s' HB (run_halts_phalts cfg P main s s' (AB_ok cfg F Q PASS P AB) R))
    as (s'' & H & E).
  exists s''. split; [|exact E]. apply phalts_run_halts; [| |exact H].
  - intros f c' I. destruct (in_map_prog F P f c' I) as (c & -> & I0). exact (proj1 (proj2 (PASS c (AB f c I0)))).
  - apply sprog_some. intros f c' I. destruct (in_map_prog F P f c' I) as (c & -> & I0).
    destruct (sprog_in P sp f c SP I0) as [sl SL]. exact (proj2 (proj2 (proj2 (PASS c (AB f c I0)))) sl SL).
Qed.

Definition opt_ok (cfg : config) (c : code) : Prop :=
  cfc_ok cfg c = true /\ NoDup (lbls c) /\ rb_free c = true.

Lemma optimize_asm (c : code) (sl : list sline) :
  slines_of c = Some sl -> exists sl', slines_of (fst (optimize c)) = Some sl'.
Proof.
  intros SL. apply slines_Forall.
  apply (proj1 (rws_struct _ _ _ (OptFacts.optimize_rws c))); [discriminate|]. apply slines_Forall. eauto.
Qed.

Lemma opt_pass (cfg : config) : ports cfg = [] -> sound_pass cfg (fun c => fst (optimize c)) (opt_ok cfg).
Proof.
  intros HP c (OK & ND & RB). split; [exact OK|]. split; [exact (optimize_cfc_ok cfg c OK)|].
  split; [intros Or OO; exact (optimize_call_equiv Or cfg c OO HP OK ND RB)|exact (optimize_asm c)].
Qed.

Theorem optimize_program_sound : forall cfg P main s s',
  ports cfg = [] -> bytes_ok s -> all_bodies (opt_ok cfg) P ->
  phalts cfg P main s s' ->
  exists s'', phalts cfg (opt_prog P) main s s'' /\ eq_state s'' s'.
Proof. intros cfg P main s s' HP HB AB. exact (prog_sim cfg _ _ (opt_pass cfg HP) P AB main s s' HB). Qed.
Print Assumptions optimize_program_sound.

(** the optimised program (every function optimised), run by [Sem.run_function] from [main]:
    halts whenever the original does, in an equal state *)
Theorem optimize_program_run : forall cfg P main s s',
  ports cfg = [] -> bytes_ok s -> all_bodies (opt_ok cfg) P ->
  run_halts cfg P main s s' ->
  exists s'', run_halts cfg (opt_prog P) main s s'' /\ eq_state s'' s'.
Proof. intros cfg P main s s' HP HB AB. exact (prog_run cfg _ _ (opt_pass cfg HP) P main s s' AB HB). Qed.
Print Assumptions optimize_program_run.

#[local] Open Scope nat_scope.

(** as [CbSim.enters_alike], on [grun]: from the top of [D] every run that ends at [e] leaves [D]
    at a position and in a state that [M] reaches too *)
Definition genters_alike (Or : oracle) (cfg : config) (A D M T : code) (e : nat) : Prop :=
  length (A ++ D ++ T) <= e -> forall n s fin,
    grun Or cfg (A ++ D ++ T) n (length A) s = Some (e, fin) ->
    exists m k s1 j,
      m < n /\ (k <= length A \/ length A + length D <= k) /\
      grun Or cfg (A ++ D ++ T) m k s1 = Some (e, fin) /\
      grun Or cfg (A ++ M ++ T) j (length A) s = Some (shift (length A) (length D) (length M) k, s1).

(** windows of different lengths, the same states: no condition on the instructions or on the
    oracle *)
Lemma gwindow_gen_sim (A D M T : code) :
  all_labels D = [] -> (forall l, In l (all_labels M) -> ~ In l (all_labels (A ++ D ++ T))) ->
  forall Or cfg, D <> [] -> forall e, length (A ++ D ++ T) <= e -> genters_alike Or cfg A D M T e ->
  forall n p s fin, grun Or cfg (A ++ D ++ T) n p s = Some (e, fin) ->
    p <= length A \/ length A + length D <= p ->
    exists n', grun Or cfg (A ++ M ++ T) n' (shift (length A) (length D) (length M) p) s
               = Some (shift (length A) (length D) (length M) e, fin).
Proof.
  intros HD FRESH Or cfg NE e LE ENTRY n p s fin H OUT.
  destruct (shift_sim A D M T HD FRESH Or cfg NE eq e LE) with (n := n) (p := p) (s := s) (t := s) (fin := fin)
    as (n' & fin' & H' & <-); auto.
  - intros q s0 t q1 s1 <- G. eauto.
  - intros m s0 t fin0 <- G. destruct (ENTRY LE m s0 fin0 G) as (m' & k & s1 & j & X1 & X2 & X3 & X4).
    exists m', k, s1, s1, j. auto.
  - eauto.
Qed.

Theorem gwindow_gen (A D M T : code) (Or : oracle) (cfg : config) :
  all_labels D = [] -> (forall l, In l (all_labels M) -> ~ In l (all_labels (A ++ D ++ T))) -> D <> [] ->
  (forall e, genters_alike Or cfg A D M T e) ->
  forall s r s', ghalts Or cfg (A ++ D ++ T) s r s' -> ghalts Or cfg (A ++ M ++ T) s r s'.
Proof.
  intros HD FRESH NE ENTRY s r s' (n & H).
  assert (LE : length (A ++ D ++ T) <= endpos (A ++ D ++ T) r) by (unfold endpos; destruct r; lia).
  destruct (gwindow_gen_sim A D M T HD FRESH Or cfg NE _ LE (ENTRY _) n 0 s s' H ltac:(left; lia)) as (n' & H').
  exists n'. rewrite (sh_endpos A D M T r NE) in H'. rewrite sh_lo in H'; [exact H'|].
  destruct D; [congruence|cbn; lia].
Qed.

Section CbOracle.
  Variable Or : oracle.

Lemma exec_cond (cfg : config) (m : mnem) (l : string) (s : mstate) :
  is_cond_branch m = true ->
  exec cfg m (OLbl l) s = if branch_taken m s then XOk s 3%N (FGoto l) else XOk s 2%N FNext.
Proof. destruct m; intros H; try discriminate H; reflexivity. Qed.

Lemma exec_cond_none (cfg : config) (m : mnem) (s : mstate) :
  is_cond_branch m = true -> exists w, exec cfg m ONone s = XFault w.
Proof. destruct m; intros H; try discriminate H; eexists; reflexivity. Qed.

Lemma parse_label (m : mnem) (l : string) :
  takes_label m = true -> String.eqb l "" = false -> parse_operand m l = Some (OLbl l).
Proof. intros T E. unfold parse_operand. rewrite E, T. reflexivity. Qed.

Lemma cond_takes_label (m : mnem) : is_cond_branch m = true -> takes_label m = true.
Proof. destruct m; intros H; try discriminate H; reflexivity. Qed.

Lemma gbexec_branch (cfg : config) (b : instr) (W : code) (s : mstate) :
  is_cond_branch (i_mn b) = true ->
  gbexec cfg (Ins b :: W) s =
  if String.eqb (i_op b) "" then None
  else if branch_taken (i_mn b) s then Some (GJump (i_op b) s) else gbexec cfg W s.
Proof.
  intros CB. cbn [gbexec]. rewrite parse_operand_eq, (cond_takes_label _ CB).
  destruct (String.eqb (i_op b) "").
  - destruct (exec_cond_none cfg (i_mn b) s CB) as [w ->]. reflexivity.
  - rewrite (exec_cond cfg _ _ s CB). destruct (branch_taken (i_mn b) s); reflexivity.
Qed.

Lemma grun_branch (cfg : config) (A M T : code) (n i : nat) (s : mstate) (b : instr) :
  nth_error M i = Some (Ins b) -> is_cond_branch (i_mn b) = true -> String.eqb (i_op b) "" = false ->
  grun Or cfg (A ++ M ++ T) (S n) (i + length A) s =
  if branch_taken (i_mn b) s
  then match find_lbl (i_op b) (A ++ M ++ T) with Some k => grun Or cfg (A ++ M ++ T) n k s | None => None end
  else grun Or cfg (A ++ M ++ T) n (S i + length A) s.
Proof.
  intros NTH CB E. cbn [grun].
  rewrite (nth_mid A M T i _ NTH), (parse_label _ _ (cond_takes_label _ CB) E), (exec_cond cfg _ _ s CB).
  destruct (branch_taken (i_mn b) s); reflexivity.
Qed.

Lemma grun_jmp (cfg : config) (A M T : code) (n i : nat) (s : mstate) (l : string) :
  nth_error M i = Some (mk_jmp l) -> String.eqb l "" = false ->
  grun Or cfg (A ++ M ++ T) (S n) (i + length A) s =
  match find_lbl l (A ++ M ++ T) with Some k => grun Or cfg (A ++ M ++ T) n k s | None => None end.
Proof.
  intros NTH E. cbn [grun]. rewrite (nth_mid A M T i _ NTH). cbn [mk_jmp i_mn i_op].
  rewrite (parse_label JMP l eq_refl E). reflexivity.
Qed.

Lemma grun_lbl (cfg : config) (A M T : code) (n i : nat) (s : mstate) (l : string) :
  nth_error M i = Some (Lbl l) ->
  grun Or cfg (A ++ M ++ T) (S n) (i + length A) s = grun Or cfg (A ++ M ++ T) n (S i + length A) s.
Proof. intros NTH. cbn [grun]. rewrite (nth_mid A M T i _ NTH). reflexivity. Qed.

Lemma find_lbl_mid (l : string) (A X M T : code) (i : nat) :
  ~ In l (all_labels (A ++ X)) -> find_lbl l M = Some i -> find_lbl l (A ++ M ++ T) = Some (i + length A).
Proof.
  intros NA F. rewrite find_lbl_app, (find_lbl_not_in l A), find_lbl_app, F; [cbn [option_map]; f_equal; lia|].
  intros I. apply NA. rewrite all_labels_app. apply in_or_app. left. exact I.
Qed.

(** a window that is one block: it is enough that the new window reaches, from the same state,
    the place where each exit of the block leads *)
Lemma genters_block (cfg : config) (A D M T : code) (e : nat) :
  lbls D = [] -> (forall i, In (Ins i) D -> i_mn i <> JSR) -> D <> [] ->
  (forall s r k, gbexec cfg D s = Some r -> gdest (A ++ D ++ T) (length A + length D) r = Some k ->
     exists j, grun Or cfg (A ++ M ++ T) j (length A) s
               = Some (shift (length A) (length D) (length M) k, gst r)) ->
  genters_alike Or cfg A D M T e.
Proof.
  intros NL NC NE X LE n s fin H.
  destruct (grun_block_inv Or cfg D A T n s e fin NL (fun i f t I J => match NC i I J with end) LE H)
    as (r & m & k & B & _ & M2 & Dd & C).
  destruct (X s r k B Dd) as [j G]. exists m, k, (gst r), j.
  split; [exact (M2 NE)|]. split; [exact (gdest_outside A D T r k NL Dd)|]. split; [exact C|exact G].
Qed.

Lemma genters_mid3 (cfg : config) (A T : code) (b : instr) (n : N) (e : nat) :
  is_cond_branch (i_mn b) = true ->
  (forall l, In l (all_labels (mid3 n b)) -> ~ In l (all_labels (A ++ [Ins b] ++ T))) ->
  genters_alike Or cfg A [Ins b] (mid3 n b) T e.
Proof.
  intros CB FRESH. pose proof (FRESH (fixl n) (or_introl eq_refl)) as FR.
  apply genters_block; [reflexivity| |discriminate|].
  { intros i [X|[]] J. injection X as <-. rewrite J in CB. discriminate CB. }
  intros s r k B D. rewrite (gbexec_branch cfg b [] s CB) in B.
  destruct (String.eqb (i_op b) "") eqn:E; [discriminate B|].
  set (M := mid3 n b).
  pose proof (grun_branch cfg A M T 1 0 s _ eq_refl (inv_mn_cond _ CB) eq_refl) as S0.
  change (0 + length A) with (length A) in S0. cbn [i_mn i_op] in S0. rewrite (branch_taken_inv _ s CB) in S0.
  rewrite (find_lbl_mid (fixl n) A _ M T 2 FR) in S0
    by (cbn [M mid3 mk_branch mk_jmp find_lbl]; rewrite String.eqb_refl; reflexivity).
  exists 2. rewrite S0. destruct (branch_taken (i_mn b) s); inversion B; subst r; cbn [gdest gst negb] in D |- *.
  - destruct (gfind_lbl_shift A [Ins b] M T eq_refl FRESH _ k D) as [F' _].
    rewrite (grun_jmp cfg A M T 0 1 s _ eq_refl E), F'. reflexivity.
  - inversion D. rewrite (grun_lbl cfg A M T 0 2 s _ eq_refl). cbn [grun].
    f_equal. f_equal. unfold shift. cbn [length M mid3].
    destruct (Nat.ltb_spec (length A + 1) (length A + 1)); lia.
Qed.

Lemma genters_mid5 (cfg : config) (A T : code) (b i2 : instr) (n : N) (e : nat) :
  is_cond_branch (i_mn b) = true -> i_mn i2 = BEQ -> i_op i2 = i_op b ->
  (forall l, In l (all_labels (mid5 n b)) -> ~ In l (all_labels (A ++ [Ins b; Ins i2] ++ T))) ->
  genters_alike Or cfg A [Ins b; Ins i2] (mid5 n b) T e.
Proof.
  intros CB M2 O2 FRESH.
  pose proof (FRESH (fixup n) (or_introl eq_refl)) as FU.
  pose proof (FRESH (fixl n) (or_intror (or_introl eq_refl))) as FR.
  assert (CB2 : is_cond_branch (i_mn i2) = true) by (rewrite M2; reflexivity).
  apply genters_block; [reflexivity| |discriminate|].
  { intros i [X|[X|[]]] J; injection X as <-; [rewrite J in CB; discriminate CB|rewrite J in M2; discriminate M2]. }
  intros s r k B D.
  rewrite (gbexec_branch cfg b _ s CB), (gbexec_branch cfg i2 [] s CB2), M2, O2 in B. cbn [branch_taken gbexec] in B.
  destruct (String.eqb (i_op b) "") eqn:E; [discriminate B|].
  set (M := mid5 n b).
  (* the new code, line by line *)
  assert (S0 : forall j, grun Or cfg (A ++ M ++ T) (S j) (length A) s =
               if fZ s then grun Or cfg (A ++ M ++ T) j (2 + length A) s
               else grun Or cfg (A ++ M ++ T) j (1 + length A) s).
  { intros j. etransitivity; [exact (grun_branch cfg A M T j 0 s _ eq_refl eq_refl eq_refl)|].
    cbn [i_mn i_op branch_taken].
    rewrite (find_lbl_mid (fixup n) A _ M T 2 FU); [reflexivity|].
    cbn [M mid5 mk_branch mk_branch_prot mk_jmp find_lbl]. rewrite String.eqb_refl. reflexivity. }
  assert (S1 : forall j, grun Or cfg (A ++ M ++ T) (S j) (1 + length A) s =
               if branch_taken (i_mn b) s then grun Or cfg (A ++ M ++ T) j (2 + length A) s
               else grun Or cfg (A ++ M ++ T) j (4 + length A) s).
  { intros j. rewrite (grun_branch cfg A M T j 1 s _ eq_refl (inv_mn_cond _ CB) eq_refl). cbn [i_mn i_op].
    rewrite (branch_taken_inv _ s CB), (find_lbl_mid (fixl n) A _ M T 4 FR).
    - destruct (branch_taken (i_mn b) s); reflexivity.
    - cbn [M mid5 mk_branch mk_branch_prot mk_jmp find_lbl].
      rewrite (proj2 (String.eqb_neq _ _) (fun X => fixl_ne_fixup n n (eq_sym X))), String.eqb_refl. reflexivity. }
  (* to the label of the branch *)
  assert (S23 : forall t, find_lbl (i_op b) (A ++ [Ins b; Ins i2] ++ T) = Some t ->
                grun Or cfg (A ++ M ++ T) 2 (2 + length A) s
                = Some (shift (length A) 2 5 t, s)).
  { intros t F. destruct (gfind_lbl_shift A [Ins b; Ins i2] M T eq_refl FRESH _ t F) as [F' _].
    rewrite (grun_lbl cfg A M T 1 2 s _ eq_refl), (grun_jmp cfg A M T 0 3 s _ eq_refl E), F'. reflexivity. }
  destruct (fZ s) eqn:Z.
  - assert (r = GJump (i_op b) s) by (destruct (branch_taken (i_mn b) s); inversion B; reflexivity). subst r.
    exists 3. rewrite S0. exact (S23 k D).
  - destruct (branch_taken (i_mn b) s) eqn:TB; inversion B; subst r; cbn [gdest gst] in D |- *.
    + exists 4. rewrite S0, S1. exact (S23 k D).
    + inversion D. exists 3. rewrite S0, S1, (grun_lbl cfg A M T 0 4 s _ eq_refl). cbn [grun].
      f_equal. f_equal. unfold shift. cbn [length M mid5].
      destruct (Nat.ltb_spec (length A + 2) (length A + 2)); lia.
Qed.

Lemma grepair_step_sound (cfg : config) (c : code) (pre : list line) (b : instr) (tail : list line)
      (n : N) (mid tail' : list line) :
  scan (length c + 2) [] c = SFar pre b tail -> repair (n + 1) b tail = (mid, tail') ->
  lab_bound c n ->
  forall s r s', ghalts Or cfg c s r s' -> ghalts Or cfg (rev pre ++ mid ++ tail') s r s'.
Proof.
  intros SC RP LB s r s' H.
  destruct (cb_step _ _ _ _ _ _ _ SC RP) as [EC [CB [[-> ->]|(i2 & -> & M2 & O2 & ->)]]].
  - assert (EC' : c = rev pre ++ [Ins b] ++ tail) by (rewrite EC; reflexivity).
    assert (FR : forall l, In l (all_labels (mid3 (n + 1) b)) -> ~ In l (all_labels (rev pre ++ [Ins b] ++ tail))).
    { intros l I. rewrite <- EC'. exact (lab_bound_fresh c n _ l LB (or_introl eq_refl) I). }
    rewrite EC' in H.
    apply (gwindow_gen (rev pre) [Ins b] (mid3 (n + 1) b) tail Or cfg eq_refl FR ltac:(discriminate)); [|exact H].
    intros e. exact (genters_mid3 cfg (rev pre) tail b (n + 1) e CB FR).
  - assert (EC' : c = rev pre ++ [Ins b; Ins i2] ++ tail') by (rewrite EC; reflexivity).
    assert (FR : forall l, In l (all_labels (mid5 (n + 1) b)) ->
                 ~ In l (all_labels (rev pre ++ [Ins b; Ins i2] ++ tail'))).
    { intros l I. rewrite <- EC'. exact (lab_bound_fresh c n _ l LB (or_intror eq_refl) I). }
    rewrite EC' in H.
    apply (gwindow_gen (rev pre) [Ins b; Ins i2] (mid5 (n + 1) b) tail' Or cfg eq_refl FR ltac:(discriminate));
      [|exact H].
    intros e. exact (genters_mid5 cfg (rev pre) tail' b i2 (n + 1) e CB M2 O2 FR).
Qed.

Lemma cb_loop_invariant (I : code -> N -> Prop) :
  (forall c n pre b tail mid tail', scan (length c + 2) [] c = SFar pre b tail ->
     repair (n + 1) b tail = (mid, tail') -> I c n -> I (rev pre ++ mid ++ tail') (n + 1)%N) ->
  forall fuel c nfix c' n', cb_loop fuel c nfix = CbOk c' n' -> I c nfix -> I c' n'.
Proof.
  intros ST fuel c nfix c' n' H HI. pose proof (cb_loop_inv I ST fuel c nfix HI) as K.
  rewrite H in K. exact (proj1 K).
Qed.

(** a body with calls: the repaired body ends whenever the original does, the same way, in the
    same state, the calls being answered by the same oracle *)
Theorem check_branches_call_sound : forall cfg c c' n s r s',
  no_fix_labels c -> check_branches c = CbOk c' n ->
  ghalts Or cfg c s r s' -> ghalts Or cfg c' s r s'.
Proof.
  intros cfg c c' n s r s' NF CBK H.
  refine (proj2 (cb_loop_invariant (fun c n => lab_bound c n /\ ghalts Or cfg c s r s') _ _ _ _ _ _ CBK
                   (conj _ H))).
  - intros c0 n0 pre b tail mid tail' Es Er [LB H0].
    split; [|exact (grepair_step_sound cfg c0 pre b tail n0 mid tail' Es Er LB s r s' H0)].
    destruct (cb_step_gen _ _ _ _ _ _ _ Es Er) as (D & X & Hc & HD & _ & _ & HM & _ & HX & _).
    subst c0. exact (lab_bound_step _ _ _ _ _ _ HD HM HX LB).
  - intros l Hl. left. apply NF. exact Hl.
Qed.

End CbOracle.

Lemma cb_loop_Forall (P : line -> Prop) :
  (forall l, P (Lbl l)) ->
  (forall m l cy alt nb p, is_cond_branch m = true \/ m = JMP -> P (Ins (mkI m l cy alt nb p))) ->
  forall fuel c nfix c' n', cb_loop fuel c nfix = CbOk c' n' -> Forall P c -> Forall P c'.
Proof.
  intros PL PI. apply (cb_loop_invariant (fun c _ => Forall P c)).
  intros c n pre b tail mid tail' Es Er OK.
  destruct (cb_step_gen _ _ _ _ _ _ _ Es Er) as (D & X & Hc & _ & _ & _ & _ & _ & _ & HM).
  destruct (cb_step _ _ _ _ _ _ _ Es Er) as [_ [CB _]]. apply inv_mn_cond in CB.
  subst c. apply Forall_app in OK. destruct OK as [O1 O2]. apply Forall_app in O2.
  apply Forall_app. split; [exact O1|]. apply Forall_app. split; [|exact (proj2 O2)].
  destruct HM as [-> | ->]; repeat constructor; try apply PL; apply PI; auto.
Qed.

Lemma cb_loop_cfc (cfg : config) (fuel : nat) (c : code) (nfix : N) (c' : code) (n' : N) :
  cb_loop fuel c nfix = CbOk c' n' -> cfc_ok cfg c = true -> cfc_ok cfg c' = true.
Proof.
  intros H OK. apply forallb_Forall. apply forallb_Forall in OK.
  refine (cb_loop_Forall _ (fun _ => eq_refl) _ _ _ _ _ _ H OK).
  intros m l cy alt nb p [B| ->]; [destruct m; try discriminate B|]; reflexivity.
Qed.

Lemma cb_loop_asm (fuel : nat) (c : code) (nfix : N) (c' : code) (n' : N) (sl : list sline) :
  cb_loop fuel c nfix = CbOk c' n' -> slines_of c = Some sl -> exists sl', slines_of c' = Some sl'.
Proof.
  intros H SL. apply slines_Forall.
  refine (cb_loop_Forall _ _ _ _ _ _ _ _ H (proj1 (slines_Forall c) (ex_intro _ sl SL))); [discriminate|].
  intros m l cy alt nb p T. cbn [sline_of i_mn i_op]. unfold parse_operand.
  replace (takes_label m) with true by (destruct T as [B| ->]; [destruct m; try discriminate B|]; reflexivity).
  destruct (String.eqb l ""); discriminate.
Qed.

Definition cb_ok (cfg : config) (c : code) : Prop := cfc_ok cfg c = true /\ no_fix_labels c.

Lemma cb_fun_cfc (cfg : config) (c : code) : cfc_ok cfg c = true -> cfc_ok cfg (cb_fun c) = true.
Proof.
  intros OK. unfold cb_fun. destruct (check_branches c) as [c' n| |] eqn:CBK; try exact OK.
  exact (cb_loop_cfc cfg _ _ _ _ _ CBK OK).
Qed.

Lemma cb_fun_equiv (Or : oracle) (cfg : config) (c : code) :
  no_fix_labels c -> cfc_equiv Or cfg c (cb_fun c).
Proof.
  intros NF s r s' _ H. exists s'. split; [|apply eq_state_refl].
  unfold cb_fun. destruct (check_branches c) as [c' n| |] eqn:CBK; try exact H.
  exact (check_branches_call_sound Or cfg c c' n s r s' NF CBK H).
Qed.

Lemma cb_fun_asm (c : code) (sl : list sline) :
  slines_of c = Some sl -> exists sl', slines_of (cb_fun c) = Some sl'.
Proof.
  intros SL. unfold cb_fun. destruct (check_branches c) as [c' n| |] eqn:CBK; eauto.
  exact (cb_loop_asm _ _ _ _ _ sl CBK SL).
Qed.

Lemma cb_pass (cfg : config) : sound_pass cfg cb_fun (cb_ok cfg).
Proof.
  intros c (OK & NF). split; [exact OK|]. split; [exact (cb_fun_cfc cfg c OK)|].
  split; [intros Or _; exact (cb_fun_equiv Or cfg c NF)|exact (cb_fun_asm c)].
Qed.

Theorem check_branches_program_sound : forall cfg P main s s',
  bytes_ok s -> all_bodies (cb_ok cfg) P ->
  phalts cfg P main s s' ->
  exists s'', phalts cfg (cb_prog P) main s s'' /\ eq_state s'' s'.
Proof. intros cfg P main s s' HB AB. exact (prog_sim cfg _ _ (cb_pass cfg) P AB main s s' HB). Qed.
Print Assumptions check_branches_program_sound.

Theorem check_branches_program_run : forall cfg P main s s',
  bytes_ok s -> all_bodies (cb_ok cfg) P ->
  run_halts cfg P main s s' ->
  exists s'', run_halts cfg (cb_prog P) main s s'' /\ eq_state s'' s'.
Proof. intros cfg P main s s' HB AB. exact (prog_run cfg _ _ (cb_pass cfg) P main s s' AB HB). Qed.
Print Assumptions check_branches_program_run.

(** what the compiler emits at -O1 for a whole program: every function optimised, then its far
    branches repaired *)
Definition pipe_fun (c : code) : code := cb_fun (fst (optimize c)).
Definition pipe_ok (cfg : config) (c : code) : Prop := opt_ok cfg c /\ no_fix_labels c.

Lemma pipe_prog_eq (P : cprog) : map_prog pipe_fun P = cb_prog (opt_prog P).
Proof.
  unfold cb_prog, opt_prog, map_prog. rewrite map_map. apply map_ext. intros [f c]. reflexivity.
Qed.

Lemma optimize_no_fix (c : code) : no_fix_labels c -> no_fix_labels (fst (optimize c)).
Proof.
  intros NF l Hl. apply NF. rewrite <- lbls_all_labels in Hl |- *.
  rewrite <- (proj2 (rws_struct _ _ _ (OptFacts.optimize_rws c))). exact Hl.
Qed.

Lemma pipe_pass (cfg : config) : ports cfg = [] -> sound_pass cfg pipe_fun (pipe_ok cfg).
Proof.
  intros HP. apply (pass_comp cfg _ cb_fun (pipe_ok cfg) (cb_ok cfg)); [|exact (cb_pass cfg)|].
  - intros c q. exact (opt_pass cfg HP c (proj1 q)).
  - intros c ((OK & _) & NF). split; [exact (optimize_cfc_ok cfg c OK)|exact (optimize_no_fix c NF)].
Qed.

Theorem pipeline_program_sound : forall cfg P main s s',
  ports cfg = [] -> bytes_ok s -> all_bodies (pipe_ok cfg) P ->
  phalts cfg P main s s' ->
  exists s'', phalts cfg (cb_prog (opt_prog P)) main s s'' /\ eq_state s'' s'.
Proof.
  intros cfg P main s s' HP HB AB. rewrite <- pipe_prog_eq.
  exact (prog_sim cfg _ _ (pipe_pass cfg HP) P AB main s s' HB).
Qed.
Print Assumptions pipeline_program_sound.

Theorem pipeline_program_run : forall cfg P main s s',
  ports cfg = [] -> bytes_ok s -> all_bodies (pipe_ok cfg) P ->
  run_halts cfg P main s s' ->
  exists s'', run_halts cfg (cb_prog (opt_prog P)) main s s'' /\ eq_state s'' s'.
Proof.
  intros cfg P main s s' HP HB AB. rewrite <- pipe_prog_eq.
  exact (prog_run cfg _ _ (pipe_pass cfg HP) P main s s' AB HB).
Qed.
Print Assumptions pipeline_program_run.

#[local] Open Scope string_scope.
#[local] Open Scope list_scope.

(** Non-vacuity: three functions, calls nested two deep.
    main: X := 5; inc(); X := 5 (the reload must stay: the callee may have changed X); t := X.
    inc: bump(); A := w; A := w (redundant: removed).  bump: w := w + 1. *)
Definition call_prog : cprog :=
  [("main", [sim_ins LDX "#5"; sim_ins JSR "inc"; sim_ins LDX "#5"; sim_ins STX "t"; sim_ins RTS ""]);
   ("inc",  [sim_ins JSR "bump"; sim_ins LDA "w"; sim_ins LDA "w"; sim_ins RTS ""]);
   ("bump", [sim_ins INC "w"; sim_ins RTS ""])].

Example call_prog_optimized :
  opt_prog call_prog =
  [("main", [sim_ins LDX "#5"; sim_ins JSR "inc"; sim_ins LDX "#5"; sim_ins STX "t"; sim_ins RTS ""]);
   ("inc",  [sim_ins JSR "bump"; sim_ins LDA "w"; Dummy; sim_ins RTS ""]);
   ("bump", [sim_ins INC "w"; sim_ins RTS ""])].
Proof. vm_compute. reflexivity. Qed.

Lemma call_prog_ok : all_bodies (pipe_ok sim_cfg) call_prog.
Proof.
  intros f c H. cbn [call_prog In] in H.
  destruct H as [H|[H|[H|[]]]]; inversion H; subst f c;
    (split; [split; [vm_compute; reflexivity|split; [apply StrFacts.nodupb_sound; vm_compute; reflexivity|vm_compute; reflexivity]]
            |intros l Hl; vm_compute in Hl; destruct Hl]).
Qed.

Example call_prog_runs :
  exists sp sp', sprog_of call_prog = Some sp /\ sprog_of (opt_prog call_prog) = Some sp' /\
    exists s' tr cy tr' cy',
      run_function sim_cfg sp (fun _ _ => None) (fun _ _ => None) 50 "main" sim_state = Halt s' tr cy /\
      run_function sim_cfg sp' (fun _ _ => None) (fun _ _ => None) 50 "main" sim_state = Halt s' tr' cy' /\
      rX s' = 5%Z /\ rA s' = 10%Z /\ mget (mem s') 128 = 10%Z /\ mget (mem s') 512 = 5%Z /\ rS s' = 255%Z.
Proof.
  eexists. eexists. split; [vm_compute; reflexivity|]. split; [vm_compute; reflexivity|].
  eexists. eexists. eexists. eexists. eexists.
  split; [vm_compute; reflexivity|]. split; [vm_compute; reflexivity|]. vm_compute. repeat split; reflexivity.
Qed.

Example optimize_program_example :
  ports sim_cfg = [] /\ bytes_ok sim_state /\ all_bodies (opt_ok sim_cfg) call_prog /\
  exists s' s'', run_halts sim_cfg call_prog "main" sim_state s' /\
                 run_halts sim_cfg (opt_prog call_prog) "main" sim_state s'' /\
                 eq_state s'' s' /\ rX s' = 5%Z /\ mget (mem s') 128 = 10%Z.
Proof.
  assert (AB : all_bodies (opt_ok sim_cfg) call_prog) by (intros f c H; exact (proj1 (call_prog_ok f c H))).
  split; [reflexivity|]. split; [exact sim_state_bytes|]. split; [exact AB|].
  destruct (grun (call sim_cfg call_prog 6 1) sim_cfg
              [sim_ins LDX "#5"; sim_ins JSR "inc"; sim_ins LDX "#5"; sim_ins STX "t"; sim_ins RTS ""]
              5 0 sim_state) as [[pc s']|] eqn:E; [|vm_compute in E; discriminate E].
  assert (PC : pc = 6%nat) by (vm_compute in E; inversion E; reflexivity). subst pc.
  assert (PH : phalts sim_cfg call_prog "main" sim_state s').
  { eexists _, 6%nat, true. split; [reflexivity|]. exists 5%nat. exact E. }
  assert (RH : run_halts sim_cfg call_prog "main" sim_state s').
  { apply phalts_run_halts; [intros f c H; exact (proj1 (proj1 (call_prog_ok f c H)))| |exact PH].
    eexists. vm_compute. reflexivity. }
  destruct (optimize_program_run sim_cfg call_prog "main" sim_state s' eq_refl sim_state_bytes AB RH)
    as (s'' & R2 & Q).
  exists s', s''. split; [exact RH|]. split; [exact R2|]. split; [exact Q|].
  vm_compute in E. inversion E. vm_compute. split; reflexivity.
Qed.
Print Assumptions optimize_program_example.
