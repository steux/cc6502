(** The laws of [byte] and of [mget] / [mset], and one instruction of [M6502/Sem.exec]:
    - its normal form [exec_nf]: every mnemonic belongs to one of ten classes ([iclass_of]), and within a
      class [exec] is one expression over the operand access ([read_operand], [write_operand],
      [eff_addr]) and a function on states ([rd_sem], [st_reg], [rmw_sem], [reg_sem], ...);
    - how it can leave ([exec_flow]);
    - what it respects ([exec_agree]): from two states that hold the same A, X, Y, V, C and, as far as
      the instruction reads them, the same N and Z, the same S and the same contents of a set of cells,
      it ends in the same way, in two such states; and what it leaves alone ([exec_leaves]);
    and how [slines_of] and [find_label] go through a code line by line and across [++]. *)
From Coq Require Import String List Bool NArith ZArith Lia ZifyBool FMapPositive.
From CC Require Import Base.Str Asm.Lines M6502.Isa Asm.Operand M6502.Sem Model.Optimize.
Import ListNotations.
Local Open Scope list_scope.
Local Open Scope Z_scope.

(** [lia], here and in the files that import this one: with the boolean comparisons ([ZifyBool]),
    without that library's case split on every boolean atom of the context (exponential on the
    contexts of a symbolic execution) and without [/] and [mod] (dear on such contexts): the laws
    of [byte] do without; where a proof needs them it says [arith_tac] or [Z.div_mod_to_equations].
    A file that imports [ZifyBool] itself does so before this one (importing it puts the split back). *)
Ltac Zify.zify_post_hook ::= idtac.

Lemma byte_range (z : Z) : 0 <= byte z < 256.
Proof. apply Z.mod_pos_bound. reflexivity. Qed.

Lemma byte_id : forall x, 0 <= x < 256 -> byte x = x.
Proof. intros x Hx. apply Z.mod_small. exact Hx. Qed.
Lemma byte_add_l : forall x y, byte (byte x + y) = byte (x + y).
Proof. intros x y. apply Z.add_mod_idemp_l. discriminate. Qed.
Lemma byte_sub_l : forall x y, byte (byte x - y) = byte (x - y).
Proof. intros x y. apply Zminus_mod_idemp_l. Qed.
(** the Z flag of a comparison of two bytes *)
Lemma byte_sub_eq0 : forall x y, 0 <= x < 256 -> 0 <= y < 256 -> (byte (x - y) =? 0) = (x =? y).
Proof. intros x y Hx Hy. unfold byte. Z.div_mod_to_equations. lia. Qed.
(** S after a push and a pull *)
Lemma byte_round (s : Z) : 0 <= s < 256 -> byte (byte (s - 1) + 1) = s.
Proof. intros Hs. rewrite byte_add_l, Z.sub_add. apply byte_id, Hs. Qed.

Lemma b2z_odd : forall x, b2z (Z.odd x) = x mod 2.
Proof. intros x. rewrite <- Z.bit0_odd, <- Z.bit0_mod. reflexivity. Qed.

(** arithmetic on bytes where the laws do not reach: [byte] and the parities become remainders,
    [bit7] and [b2z] what [lia] knows, the conditionals of the goal are decided; then [lia] with
    div/mod *)
Ltac arith_tac :=
  unfold byte, bit7 in *; rewrite ?b2z_odd; change b2z with Z.b2z in *;
  repeat match goal with |- context [if ?c then _ else _] => destruct c eqn:? end;
  Z.div_mod_to_equations; lia.

Lemma mget_mset_same (m : memory) (a v : Z) : mget (mset m a v) a = v.
Proof. unfold mget, mset. rewrite PositiveMap.gss. reflexivity. Qed.

Lemma mget_mset_key (m : memory) (a b v : Z) :
  akey a <> akey b -> mget (mset m a v) b = mget m b.
Proof. intros H. unfold mget, mset. rewrite PositiveMap.gso; [reflexivity|congruence]. Qed.

Lemma mget_mset_other (m : memory) (a b v : Z) :
  a <> b -> 0 <= a -> 0 <= b -> mget (mset m a v) b = mget m b.
Proof. intros H Ha Hb. apply mget_mset_key. unfold akey. lia. Qed.

Lemma mget_mset_id (m : memory) (a b : Z) : mget (mset m a (mget m a)) b = mget m b.
Proof.
  destruct (Pos.eq_dec (akey a) (akey b)) as [E|E].
  - unfold mget, mset. rewrite E. rewrite PositiveMap.gss. reflexivity.
  - apply mget_mset_key. exact E.
Qed.

Lemma mget_mset_ext (m m' : memory) (a v b : Z) :
  mget m b = mget m' b -> mget (mset m a v) b = mget (mset m' a v) b.
Proof.
  intros H. destruct (Pos.eq_dec (akey a) (akey b)) as [E|E].
  - unfold mget, mset. rewrite E. rewrite !PositiveMap.gss. reflexivity.
  - rewrite !mget_mset_key by exact E. exact H.
Qed.

Inductive iclass := CRd | CSt | CRmw | CReg | CJump | CJsr | CRts | CRti | CPush | CPull.

Definition iclass_of (m : mnem) : iclass :=
  match m with
  | LDA | LDX | LDY | ADC | SBC | EOR | AND | ORA | CMP | CPX | CPY => CRd
  | STA | STX | STY => CSt
  | ASL | LSR | ROL | ROR | INC | DEC => CRmw
  | TAX | TAY | TXA | TYA | CLC | SEC | INX | INY | DEX | DEY | NOP => CReg
  | BCC | BCS | BEQ | BMI | BNE | BPL | JMP => CJump
  | JSR => CJsr
  | RTS => CRts
  | RTI => CRti
  | PHA | PHP => CPush
  | PLA | PLP => CPull
  end.

Definition rd_sem (m : mnem) (s : mstate) (v : Z) : mstate :=
  match m with
  | LDA => set_nz (set_a s v) v
  | LDX => set_nz (set_x s v) v
  | LDY => set_nz (set_y s v) v
  | ADC => adc s v
  | SBC => sbc s v
  | EOR => set_nz (set_a s (Z.lxor (rA s) v)) (Z.lxor (rA s) v)
  | AND => set_nz (set_a s (Z.land (rA s) v)) (Z.land (rA s) v)
  | ORA => set_nz (set_a s (Z.lor (rA s) v)) (Z.lor (rA s) v)
  | CMP => cmp s (rA s) v
  | CPX => cmp s (rX s) v
  | CPY => cmp s (rY s) v
  | _ => s
  end.

Definition st_reg (m : mnem) (s : mstate) : Z :=
  match m with STA => rA s | STX => rX s | STY => rY s | _ => 0 end.

Definition is_shift (m : mnem) : bool :=
  match m with ASL | LSR | ROL | ROR => true | _ => false end.

Definition rmw_val (m : mnem) (v : Z) (c : bool) : Z :=
  match m with
  | ASL => byte (2 * v) | LSR => v / 2
  | ROL => byte (2 * v + b2z c) | ROR => v / 2 + 128 * b2z c
  | INC => byte (v + 1) | DEC => byte (v - 1)
  | _ => v
  end.
Definition rmw_carry (m : mnem) (v : Z) (c : bool) : bool :=
  match m with
  | ASL | ROL => bit7 v
  | LSR | ROR => Z.odd v
  | _ => c
  end.

Definition rmw_sem (m : mnem) (s : mstate) (ar aw : Z) : mstate :=
  let v := mget (mem s) ar in
  set_nz (set_c (set_mem s (mset (mem s) aw (rmw_val m v (fC s)))) (rmw_carry m v (fC s)))
         (rmw_val m v (fC s)).

Definition rmw_acc_sem (m : mnem) (s : mstate) : mstate :=
  set_nz (set_c (set_a s (rmw_val m (rA s) (fC s))) (rmw_carry m (rA s) (fC s)))
         (rmw_val m (rA s) (fC s)).

Definition reg_sem (m : mnem) (s : mstate) : mstate :=
  match m with
  | TAX => set_nz (set_x s (rA s)) (rA s)
  | TAY => set_nz (set_y s (rA s)) (rA s)
  | TXA => set_nz (set_a s (rX s)) (rX s)
  | TYA => set_nz (set_a s (rY s)) (rY s)
  | CLC => set_c s false
  | SEC => set_c s true
  | INX => set_nz (set_x s (byte (rX s + 1))) (byte (rX s + 1))
  | INY => set_nz (set_y s (byte (rY s + 1))) (byte (rY s + 1))
  | DEX => set_nz (set_x s (byte (rX s - 1))) (byte (rX s - 1))
  | DEY => set_nz (set_y s (byte (rY s - 1))) (byte (rY s - 1))
  | _ => s
  end.

Definition jump_taken (m : mnem) (s : mstate) : bool :=
  match m with JMP => true | _ => branch_taken m s end.

Definition push_val (m : mnem) (s : mstate) : Z :=
  match m with PHP => status_byte s | _ => rA s end.

Definition pull_sem (m : mnem) (s : mstate) : mstate :=
  let '(s1, v) := pull s in
  match m with PLP => set_status s1 v | _ => set_nz (set_a s1 v) v end.

Definition exec_nf (cfg : config) (m : mnem) (o : operand) (s : mstate) : xres :=
  match iclass_of m with
  | CRd => match read_operand cfg m s o with
           | Some (v, c) => XOk (rd_sem m s v) c FNext
           | None => XFault "bad read operand"
           end
  | CSt => match write_operand cfg m s o (st_reg m s) with
           | Some (s', c) => XOk s' c FNext
           | None => XFault "bad write operand"
           end
  | CRmw =>
      match o with
      | ONone => if is_shift m then XOk (rmw_acc_sem m s) 2%N FNext
                 else XFault (mnem_name m ++ " without operand")
      | _ => match eff_addr cfg m s o with
             | Some (a, md, cr) =>
                 match read_addr (ports cfg) a, write_addr (ports cfg) a with
                 | Some ar, Some aw => XOk (rmw_sem m s ar aw) (cyc m md cr) FNext
                 | _, _ => XFault "read-modify-write on split-port memory"
                 end
             | None => XFault "bad rmw operand"
             end
      end
  | CReg => XOk (reg_sem m s) 2%N FNext
  | CJump => match o with
             | OLbl l => if jump_taken m s then XOk s 3%N (FGoto l) else XOk s 2%N FNext
             | _ => XFault (if is_cond_branch m then "branch without label" else "JMP without label")
             end
  | CJsr => match o with OLbl l => XOk s 6%N (FCall l) | _ => XFault "JSR without label" end
  | CRts => XOk s 6%N FRet
  | CRti => XOk s 6%N FRti
  | CPush => XOk (push s (push_val m s)) 3%N FNext
  | CPull => XOk (pull_sem m s) 4%N FNext
  end.

Lemma exec_eq_nf (cfg : config) (m : mnem) (o : operand) (s : mstate) :
  exec cfg m o s = exec_nf cfg m o s.
Proof. destruct m; try reflexivity; destruct o; reflexivity. Qed.

(** a read taken apart, and put together *)
Lemma exec_rd_inv (cfg : config) (m : mnem) (o : operand) (s s' : mstate) (c : N) :
  iclass_of m = CRd -> exec cfg m o s = XOk s' c FNext ->
  exists v, read_operand cfg m s o = Some (v, c) /\ s' = rd_sem m s v.
Proof.
  intros Hm. rewrite exec_eq_nf. unfold exec_nf. rewrite Hm.
  destruct (read_operand cfg m s o) as [[v k]|]; [|discriminate]. intros [= <- <-]. eauto.
Qed.

Lemma exec_rd_intro (cfg : config) (m : mnem) (o : operand) (s : mstate) (v : Z) (c : N) :
  iclass_of m = CRd -> read_operand cfg m s o = Some (v, c) ->
  exec cfg m o s = XOk (rd_sem m s v) c FNext.
Proof. intros Hm R. rewrite exec_eq_nf. unfold exec_nf. rewrite Hm, R. reflexivity. Qed.

Definition flow_ok (m : mnem) (o : operand) (r : xres) : Prop :=
  match r with
  | XOk _ _ (FGoto l) => (is_cond_branch m = true \/ m = JMP) /\ o = OLbl l
  | XOk _ _ (FCall _) => m = JSR
  | XOk _ _ FRet => m = RTS
  | XOk _ _ FRti => m = RTI
  | _ => True
  end.

Lemma class_flow (m : mnem) :
  match iclass_of m with
  | CJump => is_cond_branch m = true \/ m = JMP
  | CJsr => m = JSR
  | CRts => m = RTS
  | CRti => m = RTI
  | _ => True
  end.
Proof. destruct m; cbn; auto. Qed.

Lemma exec_flow (cfg : config) (m : mnem) (o : operand) (s s' : mstate) (k : N) (f : flow) :
  exec cfg m o s = XOk s' k f -> flow_ok m o (XOk s' k f).
Proof.
  intros <-. rewrite exec_eq_nf. unfold exec_nf, write_operand. pose proof (class_flow m) as F.
  destruct (iclass_of m); try exact F; try exact I.
  - destruct (read_operand cfg m s o) as [[v c]|]; exact I.
  - destruct (eff_addr cfg m s o) as [[[e md] cr]|]; [|exact I]. destruct (write_addr (ports cfg) e); exact I.
  - destruct o; [destruct (is_shift m); exact I|..];
      (destruct (eff_addr cfg m s _) as [[[e md] cr]|]; [|exact I]);
      destruct (read_addr (ports cfg) e), (write_addr (ports cfg) e); exact I.
  - destruct o; try exact I. destruct (jump_taken m s); [|exact I]. split; [exact F|reflexivity].
  - destruct o; try exact I. exact F.
Qed.

(** two states hold the same A, X, Y, V, C, the same N and Z if [nz], the same S if [sp], and the
    same contents in the cells of [M] *)
Definition agree (nz sp : bool) (M : Z -> Prop) (s t : mstate) : Prop :=
  rA s = rA t /\ rX s = rX t /\ rY s = rY t /\ fV s = fV t /\ fC s = fC t /\
  (nz = true -> fN s = fN t /\ fZ s = fZ t) /\
  (sp = true -> rS s = rS t) /\
  forall a, M a -> mget (mem s) a = mget (mem t) a.

Definition xagree (nz sp : bool) (M : Z -> Prop) (r r' : xres) : Prop :=
  match r, r' with
  | XOk s k f, XOk t k' f' => k = k' /\ f = f' /\ agree nz sp M s t
  | XFault w, XFault w' => w = w'
  | _, _ => False
  end.

Lemma xagree_ok (nz sp : bool) (M : Z -> Prop) (s t : mstate) (k : N) (f : flow) :
  agree nz sp M s t -> xagree nz sp M (XOk s k f) (XOk t k f).
Proof. intros H. split; [reflexivity|]. split; [reflexivity|exact H]. Qed.

Lemma agree_weaken (nz nz' sp : bool) (M : Z -> Prop) (s t : mstate) :
  (nz' = true -> nz = true) -> agree nz sp M s t -> agree nz' sp M s t.
Proof. intros I (HA & HX & HY & HV & HC & HNZ & HS & HM). unfold agree. auto 10. Qed.

(** the same value stored in the same cell on both sides *)
Lemma agree_store (nz sp : bool) (M : Z -> Prop) (s t : mstate) (a v : Z) :
  agree nz sp M s t -> agree nz sp M (set_mem s (mset (mem s) a v)) (set_mem t (mset (mem t) a v)).
Proof.
  intros (HA & HX & HY & HV & HC & HNZ & HS & HM). unfold agree.
  cbn [rA rX rY rS fN fV fZ fC mem set_mem]. repeat split; try assumption; try (apply HNZ; assumption); auto.
  intros b Hb. apply mget_mset_ext, HM, Hb.
Qed.

(** a register operation: the new A, X, Y, V, C and, where it defines them, N and Z are computed
    from A, X, Y, V, C alone; S and the memory are kept *)
Definition regop (nzdef : bool) (f : mstate -> mstate) : Prop :=
  forall nz sp M s t, agree nz sp M s t -> agree (nz || nzdef) sp M (f s) (f t).

(** both states taken apart, the equal components identified *)
Ltac regop_tac :=
  intros nz sp M [a0 x0 y0 p0 n0 v0 z0 c0 mm0] [a1 x1 y1 p1 n1 v1 z1 c1 mm1] (HA & HX & HY & HV & HC & HNZ & HS & HM);
  cbn [rA rX rY rS fN fV fZ fC mem] in *; subst a1 x1 y1 v1 c1.

Lemma regop_rd (m : mnem) (v : Z) : iclass_of m = CRd -> regop true (fun s => rd_sem m s v).
Proof.
  intros Hm. regop_tac. rewrite orb_true_r.
  destruct m; try discriminate Hm; unfold agree;
    cbn [rd_sem adc sbc cmp set_nz set_a set_x set_y set_c set_v rA rX rY rS fN fV fZ fC mem];
    repeat split; assumption.
Qed.

Lemma regop_rmw_acc (m : mnem) : regop true (rmw_acc_sem m).
Proof.
  regop_tac. rewrite orb_true_r. unfold agree, rmw_acc_sem.
  cbn [set_nz set_a set_c rA rX rY rS fN fV fZ fC mem]. repeat split; assumption.
Qed.

Lemma regop_reg (m : mnem) : iclass_of m = CReg -> regop (defines_nz m) (reg_sem m).
Proof.
  intros Hm. regop_tac. unfold agree.
  destruct m; try discriminate Hm; cbn [reg_sem defines_nz]; rewrite ?orb_true_r, ?orb_false_r;
    cbn [set_nz set_a set_x set_y set_c rA rX rY rS fN fV fZ fC mem];
    repeat split; try assumption; try (apply HNZ; assumption).
Qed.

Lemma regop_flags (r : Z) (c : bool) : regop true (fun s => set_nz (set_c s c) r).
Proof.
  regop_tac. rewrite orb_true_r. unfold agree.
  cbn [set_nz set_c rA rX rY rS fN fV fZ fC mem]. repeat split; assumption.
Qed.

Definition uses_x (op : operand) : bool :=
  match op with OMem _ _ IxX => true | _ => false end.
Definition uses_y (op : operand) : bool :=
  match op with OMem _ _ IxY => true | OInd _ _ => true | _ => false end.

(** the cells read when the operand is evaluated: the two bytes of the pointer of an indirect
    operand ([ptrcell]), and the cell the operand denotes (through its read port) *)
Definition ptrcell (cfg : config) (o : operand) (a : Z) : Prop :=
  exists y k p, o = OInd y k /\ layout cfg y = Some p /\ p + k < 255 /\
    (read_addr (ports cfg) (p + k) = Some a \/ read_addr (ports cfg) (p + k + 1) = Some a).
Definition opcell (cfg : config) (m : mnem) (s : mstate) (o : operand) (a : Z) : Prop :=
  ptrcell cfg o a \/
  exists e md cr, eff_addr cfg m s o = Some (e, md, cr) /\ read_addr (ports cfg) e = Some a.

(** the operand denotes the same cell, holding the same value, in two states with the same index
    register, if it has one, and the same contents of these cells *)
Section Operand.
  Variables (cfg : config) (m : mnem) (o : operand) (s t : mstate).
  Hypothesis HX : uses_x o = true -> rX t = rX s.
  Hypothesis HY : uses_y o = true -> rY t = rY s.

  Lemma eff_addr_same :
    (forall a, ptrcell cfg o a -> mget (mem t) a = mget (mem s) a) ->
    eff_addr cfg m t o = eff_addr cfg m s o.
  Proof.
    intros HM. destruct o as [|v|y k ix|y k|l]; try reflexivity; unfold eff_addr.
    - destruct ix; [|rewrite (HX eq_refl)|rewrite (HY eq_refl)]; reflexivity.
    - rewrite (HY eq_refl). destruct (layout cfg y) as [p|] eqn:L; [|reflexivity].
      destruct (p + k <? 255) eqn:B; [|reflexivity]. apply Z.ltb_lt in B.
      destruct (read_addr (ports cfg) (p + k)) as [pl|] eqn:E1; [|reflexivity].
      destruct (read_addr (ports cfg) (p + k + 1)) as [ph|] eqn:E2; [|reflexivity].
      rewrite !HM; [reflexivity|exists y, k, p; auto..].
  Qed.

  Lemma read_operand_same :
    (forall a, opcell cfg m s o a -> mget (mem t) a = mget (mem s) a) ->
    read_operand cfg m t o = read_operand cfg m s o.
  Proof.
    intros HM. pose proof (eff_addr_same (fun a H => HM a (or_introl H))) as EA.
    destruct o as [|v|y k ix|y k|l]; try reflexivity; unfold read_operand; rewrite EA;
      (destruct (eff_addr cfg m s _) as [[[e md] cr]|] eqn:E; [|reflexivity]);
      (destruct (read_addr (ports cfg) e) as [a|] eqn:Ea; [|reflexivity]);
      rewrite HM; [reflexivity| |reflexivity|]; right; exists e, md, cr; auto.
  Qed.
End Operand.

Definition reads_nz (m : mnem) : bool :=
  match m with BEQ | BNE | BMI | BPL | PHP => true | _ => false end.

Definition on_stack (m : mnem) : bool :=
  match m with PHA | PHP | PLA | PLP => true | _ => false end.

Lemma class_nz (m : mnem) :
  match iclass_of m with
  | CRd | CRmw => defines_nz m = true
  | CSt | CJump | CJsr | CRts | CRti | CPush => defines_nz m = false
  | CReg | CPull => True
  end.
Proof. destruct m; first [reflexivity | exact I]. Qed.

Lemma agree_push (nz : bool) (M : Z -> Prop) (s t : mstate) (v : Z) :
  agree nz true M s t -> agree nz true M (push s v) (push t v).
Proof.
  intros H. pose proof H as (_ & _ & _ & _ & _ & _ & HS & _). unfold push. rewrite <- (HS eq_refl).
  apply (agree_store nz true M s t (256 + rS s) v) in H.
  destruct H as (HA & HX & HY & HV & HC & HNZ & _ & HM). unfold agree.
  cbn [rA rX rY rS fN fV fZ fC mem set_sp set_mem] in *. auto 10.
Qed.

Lemma agree_pull (nz : bool) (M : Z -> Prop) (m : mnem) (s t : mstate) :
  iclass_of m = CPull -> agree nz true M s t -> M (256 + byte (rS s + 1)) ->
  agree (nz || defines_nz m) true M (pull_sem m s) (pull_sem m t).
Proof.
  intros Hm (HA & HX & HY & HV & HC & HNZ & HS & HM) Hc. unfold pull_sem, pull.
  rewrite <- (HS eq_refl), <- (HM _ Hc). unfold agree.
  destruct m; try discriminate Hm; cbn [defines_nz]; rewrite ?orb_true_r, ?orb_false_r;
    cbn [rA rX rY rS fN fV fZ fC mem set_sp set_nz set_a set_status]; auto 10.
Qed.

Theorem exec_agree (nz sp : bool) (M : Z -> Prop) (cfg : config) (m : mnem) (o : operand) (s t : mstate) :
  agree nz sp M s t ->
  (reads_nz m = true -> nz = true) ->
  (on_stack m = true -> sp = true /\ M (256 + byte (rS s + 1))) ->
  (forall a, opcell cfg m s o a -> M a) ->
  xagree (nz || defines_nz m) sp M (exec cfg m o s) (exec cfg m o t).
Proof.
  intros AG RN ST OC. pose proof AG as (HA & HX & HY & HV & HC & HNZ & HS & HM).
  assert (OM : forall a, opcell cfg m s o a -> mget (mem t) a = mget (mem s) a)
    by (intros a Ha; symmetry; apply HM, OC, Ha).
  pose proof (eff_addr_same cfg m o s t (fun _ => eq_sym HX) (fun _ => eq_sym HY) (fun a H => OM a (or_introl H))) as EA.
  pose proof (class_nz m) as D.
  rewrite !exec_eq_nf. unfold exec_nf. destruct (iclass_of m) eqn:Hc; rewrite ?D, ?orb_false_r.
  - rewrite (read_operand_same cfg m o s t (fun _ => eq_sym HX) (fun _ => eq_sym HY) OM).
    destruct (read_operand cfg m s o) as [[v c]|]; [|reflexivity]. apply xagree_ok, (regop_rd m v Hc), AG.
  - unfold write_operand. rewrite EA. destruct (eff_addr cfg m s o) as [[[e md] cr]|]; [|reflexivity].
    destruct (write_addr (ports cfg) e) as [aw|]; [|reflexivity].
    replace (st_reg m t) with (st_reg m s) by (unfold st_reg; rewrite HA, HX, HY; reflexivity).
    apply xagree_ok, agree_store, AG.
  - destruct o as [|v|y k ix|y k|l];
      [destruct (is_shift m); [apply xagree_ok, (regop_rmw_acc m), AG|reflexivity]|..];
      rewrite EA; (destruct (eff_addr cfg m s _) as [[[e md] cr]|] eqn:E; [|reflexivity]);
      (destruct (read_addr (ports cfg) e) as [ar|] eqn:Er; [|reflexivity]);
      (destruct (write_addr (ports cfg) e) as [aw|]; [|reflexivity]); unfold rmw_sem;
      rewrite <- HC, <- (HM ar) by (apply OC; right; exists e, md, cr; auto);
      apply xagree_ok, (regop_flags _ _ nz), agree_store, AG.
  - apply xagree_ok, (regop_reg m Hc), AG.
  - destruct o as [|v|y k ix|y k|l]; try reflexivity.
    replace (jump_taken m t) with (jump_taken m s); [destruct (jump_taken m s); apply xagree_ok, AG|].
    destruct m; try discriminate Hc; unfold jump_taken, branch_taken; rewrite ?HC; try reflexivity;
      destruct (HNZ (RN eq_refl)) as [EN EZ]; rewrite ?EN, ?EZ; reflexivity.
  - destruct o; try reflexivity. apply xagree_ok, AG.
  - apply xagree_ok, AG.
  - apply xagree_ok, AG.
  - destruct ST as [-> _]; [destruct m; try discriminate Hc; reflexivity|].
    replace (push_val m t) with (push_val m s); [apply xagree_ok, agree_push, AG|].
    destruct m; try discriminate Hc; unfold push_val, status_byte; rewrite ?HA; try reflexivity.
    destruct (HNZ (RN eq_refl)) as [-> ->]. rewrite HV, HC. reflexivity.
  - destruct ST as [-> Hcell]; [destruct m; try discriminate Hc; reflexivity|].
    apply xagree_ok, agree_pull; assumption.
Qed.

(** what an instruction that does not use the stack leaves alone: S, and all memory except the
    cell its operand denotes (through the write port) *)
Lemma exec_leaves (cfg : config) (m : mnem) (o : operand) (s s' : mstate) (k : N) (f : flow) :
  on_stack m = false -> exec cfg m o s = XOk s' k f ->
  rS s' = rS s /\
  (mem s' = mem s \/
   exists e md cr aw v, eff_addr cfg m s o = Some (e, md, cr) /\ write_addr (ports cfg) e = Some aw /\
                        mem s' = mset (mem s) aw v).
Proof.
  intros NS. rewrite exec_eq_nf. unfold exec_nf, write_operand.
  destruct (iclass_of m) eqn:Hc; try (destruct m; discriminate).
  - destruct (read_operand cfg m s o) as [[v c]|]; [|discriminate]. intros [= <- _ _].
    destruct m; auto.
  - destruct (eff_addr cfg m s o) as [[[e md] cr]|]; [|discriminate].
    destruct (write_addr (ports cfg) e) as [aw|] eqn:W; [|discriminate]. intros [= <- _ _].
    split; [reflexivity|]. right. exists e, md, cr, aw, (st_reg m s). auto.
  - destruct o as [|v|y j ix|y j|l];
      [destruct (is_shift m); [|discriminate]; intros [= <- _ _]; auto|..];
      (destruct (eff_addr cfg m s _) as [[[e md] cr]|]; [|discriminate]);
      (destruct (read_addr (ports cfg) e) as [ar|]; [|discriminate]);
      (destruct (write_addr (ports cfg) e) as [aw|] eqn:W; [|discriminate]); intros [= <- _ _];
      (split; [reflexivity|]); right; exists e, md, cr, aw; eexists; repeat split; exact W.
  - intros [= <- _ _]. destruct m; auto.
  - destruct o; try discriminate. destruct (jump_taken m s); intros [= <- _ _]; auto.
  - destruct o; try discriminate. intros [= <- _ _]; auto.
  - intros [= <- _ _]; auto.
  - intros [= <- _ _]; auto.
Qed.

Local Close Scope Z_scope.

Lemma slines_of_ind : forall P : code -> list sline -> Prop,
  P [] [] ->
  (forall x sx c sc, sline_of x = Some sx -> slines_of c = Some sc -> P c sc ->
                     P (x :: c) (sx :: sc)) ->
  forall c sc, slines_of c = Some sc -> P c sc.
Proof.
  intros P H0 HS. induction c as [|x c IH]; intros sc H; cbn [slines_of] in H.
  - injection H as <-. exact H0.
  - destruct (sline_of x) as [sx|] eqn:Ex; [|discriminate H].
    destruct (slines_of c) as [sc0|] eqn:Ec; [|discriminate H].
    injection H as <-. apply HS; [exact Ex|exact Ec|apply IH; reflexivity].
Qed.

Lemma slines_of_cons : forall x sx c sc, sline_of x = Some sx -> slines_of c = Some sc ->
  slines_of (x :: c) = Some (sx :: sc).
Proof. intros x sx c sc Hx Hc. cbn [slines_of]. rewrite Hx, Hc. reflexivity. Qed.

Lemma slines_length (c : code) : forall sl, slines_of c = Some sl -> length sl = length c.
Proof.
  revert c. apply slines_of_ind; [reflexivity|].
  intros x sx c sc _ _ IH. cbn [length]. rewrite IH. reflexivity.
Qed.

Lemma slines_app : forall a b sa sb, slines_of a = Some sa -> slines_of b = Some sb ->
  slines_of (a ++ b) = Some (sa ++ sb).
Proof.
  intros a b sa sb Ha Hb. revert a sa Ha. apply slines_of_ind; [exact Hb|].
  intros x sx a sa Ex _ IH. apply slines_of_cons; assumption.
Qed.

(** [find_label] counts from its last argument, and goes through [a ++ b] by [a] first *)
Lemma find_label_shift : forall l c k,
  find_label l c k = option_map (Nat.add k) (find_label l c O).
Proof.
  intros l c. induction c as [|x c IH]; intros k; [reflexivity|].
  cbn [find_label].
  assert (Hrec : find_label l c (S k) = option_map (Nat.add k) (find_label l c 1%nat)).
  { rewrite (IH (S k)), (IH 1%nat). destruct (find_label l c O) as [j|]; cbn [option_map]; [|reflexivity].
    rewrite Nat.add_succ_r. reflexivity. }
  destruct x as [y|m o p raw|t|]; try exact Hrec.
  destruct (String.eqb y l); [|exact Hrec]. cbn [option_map]. rewrite Nat.add_0_r. reflexivity.
Qed.

Lemma find_label_app : forall l a b,
  find_label l (a ++ b) O = match find_label l a O with
                            | Some j => Some j
                            | None => option_map (Nat.add (length a)) (find_label l b O)
                            end.
Proof.
  intros l a b. induction a as [|x a IH]; cbn [app length find_label];
    [destruct (find_label l b O); reflexivity|].
  assert (Hrec : find_label l (a ++ b) 1%nat = match find_label l a 1%nat with
                                           | Some j => Some j
                                           | None => option_map (Nat.add (S (length a))) (find_label l b O)
                                           end).
  { rewrite (find_label_shift l (a ++ b)), (find_label_shift l a), IH.
    destruct (find_label l a O); [reflexivity|]. destruct (find_label l b O); reflexivity. }
  destruct x as [y|m o p raw|t|]; try exact Hrec.
  destruct (String.eqb y l); [reflexivity|exact Hrec].
Qed.

Lemma find_label_some_bound : forall l c k j, find_label l c k = Some j -> (k <= j < k + length c)%nat.
Proof.
  intros l c. induction c as [|x c IH]; intros k j H; [discriminate H|].
  cbn [find_label length] in *.
  assert (Hrec : find_label l c (S k) = Some j -> (k <= j < k + S (length c))%nat).
  { intros H'. pose proof (IH _ _ H'). lia. }
  destruct x as [y|m o p raw|t|]; try (apply Hrec; exact H).
  destruct (String.eqb y l); [inversion H; lia|apply Hrec; exact H].
Qed.

Lemma nth_at : forall (A : Type) (pre l : list A) i, nth_error (pre ++ l) (length pre + i) = nth_error l i.
Proof. intros A pre l i. rewrite nth_error_app2 by lia. f_equal. lia. Qed.

Lemma nth_embed : forall (A : Type) (pre c post : list A) i, (i < length c)%nat ->
  nth_error (pre ++ c ++ post) (length pre + i) = nth_error c i.
Proof. intros A pre c post i Hi. rewrite nth_at. apply nth_error_app1. exact Hi. Qed.
