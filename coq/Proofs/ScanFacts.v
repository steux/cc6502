(** C09 / C11: string literals (escape decoding, NUL termination, opacity to the scanner) and
    comments / splices in the per-line scanner of the preprocessor model. *)
From Coq Require Import String Ascii List Bool Arith NArith Lia.
From CC Require Import Base.Str Model.Cpp Model.StrLit Model.ScanSpec Proofs.StrFacts.
Import ListNotations.
Open Scope string_scope.

Lemma starts_with_app_true (p a b : string) : starts_with p a = true -> starts_with p (a ++ b) = true.
Proof. apply starts_with_app_l. Qed.

Lemma ends_with_app_long (suf a b : string) :
  String.length suf <= String.length b -> ends_with suf (a ++ b) = ends_with suf b.
Proof.
  intros H. unfold ends_with. rewrite rev_string_app.
  apply starts_with_app_long. rewrite !rev_string_length. exact H.
Qed.

Lemma ends_with_cons_long (suf : string) (c : ascii) (s : string) :
  String.length suf <= String.length s -> ends_with suf (String c s) = ends_with suf s.
Proof. intros H. change (String c s) with (String c "" ++ s). apply ends_with_app_long. exact H. Qed.

Lemma ends_with_decomp (suf s : string) : ends_with suf s = true -> exists p, s = p ++ suf.
Proof. apply ends_with_inv. Qed.

Lemma eqb_app_nonempty (a b : string) : b <> "" -> String.eqb (a ++ b) "" = false.
Proof.
  intros H. destruct a as [|x a]; cbn [append]; [|reflexivity].
  destruct b; [contradiction|reflexivity].
Qed.

Lemma length_app_S (a b : string) : b <> "" -> exists f, String.length (a ++ b) = S f.
Proof.
  intros H. rewrite length_app_s. destruct b; [contradiction|].
  cbn [String.length]. rewrite Nat.add_succ_r. eexists. reflexivity.
Qed.

Lemma trim_start_decomp (s : string) : exists w, s = w ++ trim_start s.
Proof.
  induction s as [|a s [w Hw]]; [exists ""; reflexivity|].
  cbn [trim_start]. destruct (is_ws a).
  - exists (String a w). cbn [append]. rewrite <- Hw. reflexivity.
  - exists "". reflexivity.
Qed.

Lemma trim_start_app_nonws (a : string) (c : ascii) (z : string) :
  is_ws c = false -> trim_start (a ++ String c z) = trim_start a ++ String c z.
Proof.
  intros Hc. induction a as [|x a IH]; cbn [append trim_start].
  - rewrite Hc. reflexivity.
  - destruct (is_ws x); [exact IH|reflexivity].
Qed.

Lemma split_once_eq (pat s : string) :
  split_once pat s =
  if starts_with pat s then Some ("", string_drop (String.length pat) s)
  else match s with
       | EmptyString => None
       | String a r => match split_once pat r with
                       | Some (b, t) => Some (String a b, t)
                       | None => None
                       end
       end.
Proof. destruct s; reflexivity. Qed.

Lemma split_once_none (pat s : string) : contains pat s = false -> split_once pat s = None.
Proof. unfold contains. destruct (split_once pat s); [discriminate|reflexivity]. Qed.

Lemma before_none (pat s : string) : contains pat s = false -> before pat s = s.
Proof. intros H. unfold before. rewrite (split_once_none _ _ H). reflexivity. Qed.

(** the first occurrence of [pat] in [a ++ s] is the first occurrence in [s] when [pat] starts
    nowhere inside [a] *)
Lemma split_once_skip (pat a s : string) :
  no_start pat a s = true ->
  split_once pat (a ++ s) =
  match split_once pat s with Some (x, y) => Some (a ++ x, y) | None => None end.
Proof.
  induction a as [|c a IH]; intros H.
  - cbn [append]. destruct (split_once pat s) as [[x y]|]; reflexivity.
  - apply andb_true_iff in H. destruct H as [H1 H2].
    apply negb_true_iff in H1. rewrite split_once_eq, H1.
    cbn [append]. rewrite (IH H2).
    destruct (split_once pat s) as [[x y]|]; reflexivity.
Qed.

Lemma split_once_here (pat b : string) : split_once pat (pat ++ b) = Some ("", b).
Proof. rewrite split_once_eq, starts_with_app, drop_length_app. reflexivity. Qed.

Theorem split_once_first (pat a b : string) :
  no_start pat a (pat ++ b) = true -> split_once pat (a ++ pat ++ b) = Some (a, b).
Proof.
  intros H. rewrite (split_once_skip _ _ _ H), split_once_here, app_empty_r. reflexivity.
Qed.

Theorem split_once_spec (pat s l r : string) :
  split_once pat s = Some (l, r) -> s = l ++ pat ++ r /\ no_start pat l (pat ++ r) = true.
Proof.
  revert l r. induction s as [|a s IH]; intros l r H; rewrite split_once_eq in H.
  - destruct (starts_with pat "") eqn:E; [|discriminate].
    inversion H; subst. split; [apply (starts_with_decomp _ _ E)|reflexivity].
  - destruct (starts_with pat (String a s)) eqn:E.
    + inversion H; subst. split; [apply (starts_with_decomp _ _ E)|reflexivity].
    + destruct (split_once pat s) as [[b t]|] eqn:E2; [|discriminate].
      inversion H; subst. destruct (IH _ _ eq_refl) as [I1 I2].
      split.
      * cbn [append]. rewrite <- I1. reflexivity.
      * cbn [no_start]. rewrite I2. cbn [append]. rewrite <- I1, E. reflexivity.
Qed.

Lemma split_once_app (pat s l r : string) : split_once pat s = Some (l, r) -> s = l ++ pat ++ r.
Proof. intros H. apply (split_once_spec _ _ _ _ H). Qed.

Lemma before_prefix (pat s : string) : exists x, s = before pat s ++ x.
Proof.
  unfold before. destruct (split_once pat s) as [[b t]|] eqn:E.
  - exists (pat ++ t). exact (split_once_app _ _ _ _ E).
  - exists "". symmetry. apply app_empty_r.
Qed.

Lemma before_skip (pat a s : string) :
  no_start pat a s = true -> before pat (a ++ s) = a ++ before pat s.
Proof.
  intros H. unfold before. rewrite (split_once_skip _ _ _ H).
  destruct (split_once pat s) as [[x y]|]; reflexivity.
Qed.

Lemma contains_skip (pat a s : string) :
  no_start pat a s = true -> contains pat (a ++ s) = contains pat s.
Proof.
  intros H. unfold contains. rewrite (split_once_skip _ _ _ H).
  destruct (split_once pat s) as [[x y]|]; reflexivity.
Qed.

Lemma contains_false_cons (pat : string) (c : ascii) (s : string) :
  contains pat (String c s) = false ->
  starts_with pat (String c s) = false /\ contains pat s = false.
Proof.
  unfold contains. rewrite split_once_eq.
  destruct (starts_with pat (String c s)); [discriminate|].
  destruct (split_once pat s) as [[x y]|]; [discriminate|]. intros _. split; reflexivity.
Qed.

Lemma quote_absent_cons (a : ascii) (l : string) :
  contains """" (String a l) = false -> Ascii.eqb a """" = false /\ contains """" l = false.
Proof.
  intros C. apply contains_false_cons in C. cbn [starts_with] in C.
  rewrite andb_true_r, Ascii.eqb_sym in C. exact C.
Qed.

Lemma contains_app_r (pat a b : string) : contains pat b = true -> contains pat (a ++ b) = true.
Proof.
  intros H. induction a as [|c a IH]; [exact H|].
  cbn [append]. unfold contains in *. rewrite split_once_eq.
  destruct (starts_with pat (String c (a ++ b))); [reflexivity|].
  destruct (split_once pat (a ++ b)) as [[x y]|]; [reflexivity|discriminate].
Qed.

Lemma contains_here (pat b : string) : contains pat (pat ++ b) = true.
Proof. unfold contains. rewrite split_once_here. reflexivity. Qed.

Lemma contains_mid (pat a b : string) : contains pat (a ++ pat ++ b) = true.
Proof. apply contains_app_r, contains_here. Qed.

Lemma contains_false_app_r (pat a b : string) : contains pat (a ++ b) = false -> contains pat b = false.
Proof.
  intros H. destruct (contains pat b) eqn:E; [|reflexivity].
  rewrite (contains_app_r pat a b E) in H. discriminate.
Qed.

Lemma no_start_app (pat a b rest : string) :
  no_start pat (a ++ b) rest = no_start pat a (b ++ rest) && no_start pat b rest.
Proof.
  induction a as [|c a IH]; [reflexivity|].
  cbn [append no_start]. rewrite IH, app_assoc_s, andb_assoc. reflexivity.
Qed.

(** only the first [length pat - 1] characters of the right context matter *)
Lemma no_start_rest_irrel (pat a r r' : string) :
  no_start pat a (pat ++ r) = no_start pat a (pat ++ r').
Proof.
  induction a as [|c a IH]; [reflexivity|].
  cbn [no_start]. rewrite IH. f_equal. f_equal.
  rewrite <- !app_assoc_s.
  rewrite !(starts_with_app_long pat (String c a ++ pat)); [reflexivity| |];
    rewrite length_app_s; lia.
Qed.

Lemma contains_false_app_l (pat a b : string) : contains pat (a ++ b) = false -> contains pat a = false.
Proof.
  intros H. unfold contains in *. destruct (split_once pat a) as [[l r]|] eqn:E; [|reflexivity].
  apply split_once_spec in E. destruct E as [-> N].
  rewrite (no_start_rest_irrel pat l r (r ++ b)) in N.
  rewrite !app_assoc_s, (split_once_first _ _ _ N) in H. discriminate.
Qed.

Lemma no_start_1 (c : ascii) (a rest : string) :
  contains (String c "") a = false -> no_start (String c "") a rest = true.
Proof.
  induction a as [|x a IH]; intros H; [reflexivity|].
  apply contains_false_cons in H. destruct H as [H1 H2].
  cbn [no_start]. rewrite (IH H2), andb_true_r.
  cbn [append starts_with] in *. rewrite H1. reflexivity.
Qed.

(** two-character patterns "xy": no occurrence inside [a], and no occurrence straddling the
    border: [a] does not end in x, or [rest] does not start with y *)
Lemma no_start_2 (x y : ascii) (a rest : string) :
  contains (String x (String y "")) a = false ->
  ends_with (String x "") a = false \/ starts_with (String y "") rest = false ->
  no_start (String x (String y "")) a rest = true.
Proof.
  induction a as [|c a IH]; intros H D; [reflexivity|].
  apply contains_false_cons in H. destruct H as [H1 H2].
  cbn [no_start]. apply andb_true_iff. split.
  - apply negb_true_iff. destruct a as [|d a].
    + cbn [append starts_with]. destruct (Ascii.eqb x c) eqn:Exc; [|reflexivity].
      cbn [andb]. destruct D as [D|D].
      * unfold ends_with, rev_string in D. cbn [rev_string_aux starts_with] in D.
        rewrite Exc in D. discriminate.
      * destruct rest as [|b rest]; [reflexivity|].
        cbn [starts_with] in D. rewrite D. reflexivity.
    + rewrite starts_with_app_long; [exact H1|cbn [String.length]; lia].
  - destruct a as [|d a]; [reflexivity|].
    apply IH; [exact H2|]. destruct D as [D|D]; [left|right; exact D].
    rewrite ends_with_cons_long in D; [exact D|cbn [String.length]; lia].
Qed.

Lemma split_once_char (c : ascii) (a b : string) :
  contains (String c "") a = false ->
  split_once (String c "") (a ++ String c "" ++ b) = Some (a, b).
Proof. intros H. apply split_once_first, no_start_1, H. Qed.

(** a two-character pattern of two different characters: no occurrence inside [a] is enough *)
Lemma split_once_2_distinct (x y : ascii) (a b : string) :
  x <> y -> contains (String x (String y "")) a = false ->
  split_once (String x (String y "")) (a ++ String x (String y "") ++ b) = Some (a, b).
Proof.
  intros Hxy H. apply split_once_first, no_start_2; [exact H|right].
  cbn [append starts_with]. apply Ascii.eqb_neq in Hxy. rewrite Ascii.eqb_sym, Hxy. reflexivity.
Qed.

(** a doubled character ("//"): additionally [a] must not end in it *)
Lemma split_once_2_same (x : ascii) (a b : string) :
  contains (String x (String x "")) a = false -> ends_with (String x "") a = false ->
  split_once (String x (String x "")) (a ++ String x (String x "") ++ b) = Some (a, b).
Proof. intros H E. apply split_once_first, no_start_2; [exact H|left; exact E]. Qed.

Example split_once_overlap : split_once "//" ("a/" ++ "//" ++ "b") = Some ("a", "/b").
Proof. vm_compute. reflexivity. Qed.

Theorem no_start_positions (pat a rest : string) :
  no_start pat a rest = true <->
  (forall k, k < String.length a -> starts_with pat (string_drop k (a ++ rest)) = false).
Proof.
  induction a as [|c a IH].
  - split; [intros _ k Hk; cbn [String.length] in Hk; lia|reflexivity].
  - cbn [no_start]. rewrite andb_true_iff, negb_true_iff, IH. split.
    + intros [H1 H2] k Hk. destruct k as [|k]; [exact H1|].
      cbn [append string_drop]. apply H2. cbn [String.length] in Hk. lia.
    + intros H. split.
      * apply (H 0). cbn [String.length]. lia.
      * intros k Hk. apply (H (S k)). cbn [String.length]. lia.
Qed.
Print Assumptions no_start_positions.
Print Assumptions split_once_first.
Print Assumptions split_once_spec.

Lemma escape_code_correct (e : ascii) (n : nat) : c_escape e = Some n -> escape_code e = chr n.
Proof.
  intros H. unfold c_escape in H. unfold escape_code.
  repeat match type of H with
         | context [Ascii.eqb e ?c] =>
             destruct (Ascii.eqb_spec e c) as [->|_]; [cbn in H; inversion H; reflexivity|]
         end.
  discriminate.
Qed.

(** induction in steps of one or two characters: an escape is read as a pair *)
Lemma string_ind2 (P : string -> Prop) :
  P "" ->
  (forall a r, P r -> (forall e r', r = String e r' -> P r') -> P (String a r)) ->
  forall s, P s.
Proof.
  intros H0 HS s.
  enough (H : P s /\ forall e r', s = String e r' -> P r') by apply H.
  induction s as [|a r [IH1 IH2]].
  - split; [exact H0|discriminate].
  - split; [exact (HS a r IH1 IH2)|]. intros e r' E. inversion E; subst. exact IH1.
Qed.

Theorem decode_correct : forall s t, c_decode s = Some t -> decode s = t.
Proof.
  induction s as [|a r IH IH2] using string_ind2; intros t H; cbn [c_decode] in H.
  - inversion H. reflexivity.
  - cbn [decode]. destruct (Ascii.eqb a "\").
    + destruct r as [|e r']; [discriminate|].
      destruct (c_escape e) as [k|] eqn:Ee; [|discriminate].
      destruct (c_decode r') as [t'|] eqn:Er; [|discriminate].
      inversion H; subst t.
      rewrite (escape_code_correct _ _ Ee), (IH2 e r' eq_refl t' Er). reflexivity.
    + destruct (Ascii.eqb a """"); [discriminate|].
      destruct (c_decode r) as [t'|]; [|discriminate].
      inversion H; subst t. rewrite (IH t' eq_refl). reflexivity.
Qed.
Print Assumptions decode_correct.

Theorem literal_bytes : forall pieces,
  compile_quoted_string pieces = String.concat "" (map decode pieces) ++ String (chr 0) "".
Proof. reflexivity. Qed.
Print Assumptions literal_bytes.

Theorem literal_single_nul_suffix : forall pieces, exists body,
  compile_quoted_string pieces = body ++ String (chr 0) "" /\
  body = String.concat "" (map decode pieces).
Proof. intros pieces. eexists. split; reflexivity. Qed.
Print Assumptions literal_single_nul_suffix.

Theorem literal_ends_with_nul : forall pieces,
  ends_with (String (chr 0) "") (compile_quoted_string pieces) = true.
Proof. intros. unfold compile_quoted_string. apply ends_with_app. Qed.
Print Assumptions literal_ends_with_nul.

Theorem literal_length : forall pieces,
  String.length (compile_quoted_string pieces)
  = S (String.length (String.concat "" (map decode pieces))).
Proof. intros. unfold compile_quoted_string. rewrite length_app_s. cbn [String.length]. lia. Qed.
Print Assumptions literal_length.

Theorem literal_bytes_c : forall s t, c_decode s = Some t ->
  compile_quoted_string [s] = t ++ String (chr 0) "".
Proof.
  intros s t H. unfold compile_quoted_string. cbn [map String.concat].
  rewrite (decode_correct _ _ H). reflexivity.
Qed.
Print Assumptions literal_bytes_c.

Theorem char_const_plain : forall c : ascii, c <> "\"%char -> quoted_character (String c "") = Some c.
Proof.
  intros c H. unfold quoted_character. cbn [decode].
  apply Ascii.eqb_neq in H. rewrite H. reflexivity.
Qed.
Print Assumptions char_const_plain.

Theorem char_const_escape : forall (e : ascii) (n : nat), c_escape e = Some n ->
  quoted_character ("\" ++ String e "") = Some (chr n).
Proof.
  intros e n H. unfold quoted_character. cbn [append decode].
  rewrite (escape_code_correct _ _ H). reflexivity.
Qed.
Print Assumptions char_const_escape.

(** the repaired defect: form feed is 12 (the code had 14) *)
Example formfeed_is_12 : c_escape "f" = Some 12 /\ escape_code "f" = chr 12 /\ chr 12 <> chr 14.
Proof. repeat split. vm_compute. discriminate. Qed.

Lemma scannable_of_c (body : string) : c_decode body <> None -> scannable body.
Proof.
  unfold scannable. induction body as [|a r IH IH2] using string_ind2; intros H; [reflexivity|].
  cbn [c_decode] in H. cbn [pair_wf].
  destruct (Ascii.eqb a "\").
  - destruct r as [|e r']; [contradiction|].
    apply (IH2 e r' eq_refl). intros E. rewrite E in H. destruct (c_escape e); contradiction.
  - destruct (Ascii.eqb a """"); [contradiction|].
    apply IH. intros E. rewrite E in H. contradiction.
Qed.

Lemma c_decode_pair_wf (s : string) : c_decode s <> None -> pair_wf s = true.
Proof. exact (scannable_of_c s). Qed.

Lemma scannableb_spec (body : string) : scannableb body = true <-> scannable body.
Proof. reflexivity. Qed.

Lemma split_once_char_spec (c : ascii) (s l r : string) :
  split_once (String c "") s = Some (l, r) ->
  s = l ++ String c "" ++ r /\ contains (String c "") l = false.
Proof.
  intros H. apply split_once_spec in H. destruct H as [Hs Ns]. split; [exact Hs|].
  destruct (contains (String c "") l) eqn:Cl; [|reflexivity].
  unfold contains in Cl. destruct (split_once (String c "") l) as [[x y]|] eqn:E; [|discriminate].
  apply split_once_spec in E. destruct E as [El _]. subst l.
  rewrite no_start_app in Ns. apply andb_true_iff in Ns. destruct Ns as [_ Ns].
  rewrite no_start_app in Ns. apply andb_true_iff in Ns. destruct Ns as [Ns _].
  cbn [no_start append starts_with] in Ns. rewrite Ascii.eqb_refl in Ns. discriminate.
Qed.

(** ** the parity rule: the model counts the backslashes that end the text before the quote;
    the parity of that number is [escaped_parity] *)
Lemma trailing_from_parity (s : string) : forall run,
  Nat.even (trailing_backslashes_from run s) = negb (escaped_parity (Nat.odd run) s).
Proof.
  induction s as [|a s IH]; intros run; cbn [trailing_backslashes_from escaped_parity].
  - rewrite Nat.negb_odd. reflexivity.
  - rewrite IH. destruct (Ascii.eqb a "\"); [|reflexivity].
    rewrite Nat.odd_succ, Nat.negb_odd. reflexivity.
Qed.

Lemma even_trailing (s : string) :
  Nat.even (trailing_backslashes s) = negb (escaped_parity false s).
Proof. apply (trailing_from_parity s 0). Qed.

Lemma trailing_from_app (s : string) (c : ascii) : forall run,
  trailing_backslashes_from run (s ++ String c "") =
  if Ascii.eqb c "\" then S (trailing_backslashes_from run s) else 0.
Proof.
  induction s as [|a s IH]; intros run; cbn [append trailing_backslashes_from]; [|apply IH].
  destruct (Ascii.eqb c "\"); reflexivity.
Qed.

Lemma trailing_from_app_bs (s : string) : forall run,
  trailing_backslashes_from run (s ++ "\") = S (trailing_backslashes_from run s).
Proof. exact (trailing_from_app s "\"). Qed.

Lemma trailing_from_app_other (s : string) (c : ascii) : forall run,
  Ascii.eqb c "\" = false -> trailing_backslashes_from run (s ++ String c "") = 0.
Proof. intros run Hc. rewrite trailing_from_app, Hc. reflexivity. Qed.

Theorem trailing_backslashes_spec :
  trailing_backslashes "" = 0
  /\ (forall s, trailing_backslashes (s ++ "\") = S (trailing_backslashes s))
  /\ (forall s c, c <> "\"%char -> trailing_backslashes (s ++ String c "") = 0).
Proof.
  split; [reflexivity|]. split.
  - intros s. apply trailing_from_app_bs.
  - intros s c Hc. apply trailing_from_app_other. apply Ascii.eqb_neq. exact Hc.
Qed.
Print Assumptions trailing_backslashes_spec.

Lemma escaped_parity_app (odd : bool) (a b : string) :
  escaped_parity odd (a ++ b) = escaped_parity (escaped_parity odd a) b.
Proof.
  revert odd. induction a as [|x a IH]; intros odd; [reflexivity|].
  cbn [append escaped_parity]. apply IH.
Qed.

Lemma first_close_cons (odd : bool) (a : ascii) (r : string) :
  first_close odd (String a r) =
  if Ascii.eqb a """" && negb odd then Some ("", r)
  else match first_close (if Ascii.eqb a "\" then negb odd else false) r with
       | Some (b, t) => Some (String a b, t)
       | None => None
       end.
Proof. reflexivity. Qed.

Lemma first_close_free (l s : string) : forall odd,
  contains """" l = false ->
  first_close odd (l ++ s) =
  match first_close (escaped_parity odd l) s with
  | Some (b, t) => Some (l ++ b, t)
  | None => None
  end.
Proof.
  induction l as [|a l IH]; intros odd C.
  - cbn [append escaped_parity]. destruct (first_close odd s) as [[b t]|]; reflexivity.
  - apply quote_absent_cons in C. destruct C as [C1 C2].
    cbn [append escaped_parity]. rewrite first_close_cons, C1. rewrite (IH _ C2).
    destruct (first_close (escaped_parity _ l) s) as [[b t]|]; reflexivity.
Qed.

Lemma first_close_none (s : string) : forall odd,
  contains """" s = false -> first_close odd s = None.
Proof. intros odd C. rewrite <- (app_empty_r s), (first_close_free s "" odd C). reflexivity. Qed.

(** up to the first quote: it closes when an even number of backslashes precedes it *)
Lemma first_close_skip (l rest : string) : forall odd,
  contains """" l = false ->
  first_close odd (l ++ """" ++ rest) =
  if escaped_parity odd l
  then match first_close false rest with
       | Some (b, t) => Some (l ++ """" ++ b, t)
       | None => None
       end
  else Some (l, rest).
Proof.
  intros odd C. rewrite (first_close_free l _ odd C). destruct (escaped_parity odd l); cbn.
  - destruct (first_close false rest) as [[b t]|]; reflexivity.
  - rewrite app_empty_r. reflexivity.
Qed.

Lemma first_close_sound (s : string) : forall odd b t,
  first_close odd s = Some (b, t) ->
  s = b ++ """" ++ t /\ escaped_parity odd b = false /\
  forall l r, b = l ++ """" ++ r -> escaped_parity odd l = true.
Proof.
  induction s as [|a s IH]; intros odd b t H; [discriminate|].
  rewrite first_close_cons in H.
  destruct (Ascii.eqb a """" && negb odd) eqn:T.
  - inversion H; subst b t. apply andb_true_iff in T. destruct T as [T1 T2].
    apply Ascii.eqb_eq in T1. subst a. apply negb_true_iff in T2. subst odd.
    split; [reflexivity|]. split; [reflexivity|].
    intros l r Hl. destruct l; discriminate.
  - destruct (first_close (if Ascii.eqb a "\" then negb odd else false) s) as [[b' t']|] eqn:F;
      [|discriminate].
    inversion H; subst b t. destruct (IH _ _ _ F) as [I1 [I2 I3]].
    split; [cbn [append]; f_equal; exact I1|].
    split; [cbn [escaped_parity]; exact I2|].
    intros l r Hl. destruct l as [|x l]; cbn [append] in Hl; inversion Hl.
    + subst a. rewrite Ascii.eqb_refl in T.
      apply negb_false_iff in T. exact T.
    + subst x. apply (I3 l r). assumption.
Qed.

Lemma first_close_complete (b : string) : forall odd t,
  escaped_parity odd b = false ->
  (forall l r, b = l ++ """" ++ r -> escaped_parity odd l = true) ->
  first_close odd (b ++ """" ++ t) = Some (b, t).
Proof.
  induction b as [|a b IH]; intros odd t P Q.
  - cbn [escaped_parity] in P. subst odd. reflexivity.
  - change (String a b ++ """" ++ t) with (String a (b ++ """" ++ t)). rewrite first_close_cons.
    assert (T : Ascii.eqb a """" && negb odd = false).
    { destruct (Ascii.eqb a """") eqn:Eq; [|reflexivity].
      apply Ascii.eqb_eq in Eq. subst a. specialize (Q "" b eq_refl).
      cbn [escaped_parity] in Q. rewrite Q. reflexivity. }
    rewrite T. rewrite (IH _ t P); [reflexivity|].
    intros l r Hl. specialize (Q (String a l) r).
    apply Q. rewrite Hl. reflexivity.
Qed.

(** C's bodies: after an escaped character the parity is even again *)
Lemma first_close_wf (rest body : string) :
  pair_wf body = true -> first_close false (body ++ """" ++ rest) = Some (body, rest).
Proof.
  induction body as [|a r IH IH2] using string_ind2; intros W; [reflexivity|].
  cbn [pair_wf] in W.
  change (String a r ++ """" ++ rest) with (String a (r ++ """" ++ rest)).
  destruct (Ascii.eqb a "\") eqn:Ea.
  - assert (Eq : Ascii.eqb a """" = false) by (apply Ascii.eqb_eq in Ea; subst a; reflexivity).
    destruct r as [|e r']; [discriminate|].
    rewrite first_close_cons, Eq, Ea.
    change (String e r' ++ """" ++ rest) with (String e (r' ++ """" ++ rest)).
    rewrite first_close_cons. cbn [negb]. rewrite andb_false_r.
    replace (if Ascii.eqb e "\" then false else false) with false
      by (destruct (Ascii.eqb e "\"); reflexivity).
    rewrite (IH2 e r' eq_refl W). reflexivity.
  - destruct (Ascii.eqb a """") eqn:Eq; [discriminate|].
    rewrite first_close_cons, Eq, Ea. rewrite (IH W). reflexivity.
Qed.

(** the fuel it needs: the length of the body (of the whole text when no quote closes) *)
Definition close_measure (s : string) : nat :=
  match first_close false s with
  | Some (b, _) => String.length b
  | None => String.length s
  end.

Lemma close_measure_le (s : string) : close_measure s <= String.length s.
Proof.
  unfold close_measure. destruct (first_close false s) as [[b t]|] eqn:F; [|lia].
  apply first_close_sound in F. destruct F as [Hs _]. rewrite Hs.
  rewrite length_app_s. lia.
Qed.

Theorem find_close_first_close : forall fuel s acc,
  close_measure s < fuel ->
  find_close fuel s acc =
  match first_close false s with
  | Some (b, t) => Some (rev_string acc ++ b, t)
  | None => None
  end.
Proof.
  induction fuel as [|f IH]; intros s acc Hf; [lia|].
  cbn [find_close]. destruct (split_once """" s) as [[l r]|] eqn:E.
  - apply split_once_char_spec in E. destruct E as [Es Cl]. subst s.
    unfold close_measure in Hf. rewrite (first_close_skip l r false Cl) in Hf.
    rewrite (first_close_skip l r false Cl), even_trailing.
    destruct (escaped_parity false l); cbn [negb]; [|reflexivity].
    rewrite IH.
    + destruct (first_close false r) as [[b t]|]; [|reflexivity].
      rewrite rev_string_app, rev_string_invol, !app_assoc_s. reflexivity.
    + unfold close_measure. destruct (first_close false r) as [[b t]|];
        rewrite !length_app_s in Hf; cbn [String.length] in Hf; lia.
  - rewrite first_close_none; [reflexivity|]. unfold contains. rewrite E. reflexivity.
Qed.
Print Assumptions find_close_first_close.

(** [find_close] returns the text up to the first quote preceded by an even number of backslashes,
    and the text after that quote: [closes_body body] says that an even number of backslashes ends
    [body] and that every quote inside it has an odd number of backslashes in front *)
Theorem find_close_parity : forall fuel s body rest,
  String.length s < fuel ->
  (find_close fuel s "" = Some (body, rest) <-> s = body ++ """" ++ rest /\ closes_body body).
Proof.
  intros fuel s body rest Hf.
  assert (Hm : close_measure s < fuel) by (pose proof (close_measure_le s); lia).
  rewrite (find_close_first_close fuel s "" Hm). split.
  - intros H. destruct (first_close false s) as [[b t]|] eqn:F; [|discriminate].
    cbn [rev_string rev_string_aux append] in H. inversion H; subst b t.
    exact (first_close_sound _ _ _ _ F).
  - intros [Hs [C1 C2]]. subst s. rewrite (first_close_complete body false rest C1 C2). reflexivity.
Qed.
Print Assumptions find_close_parity.

(** no closing quote is found exactly when no quote of the text has an even number of backslashes
    in front *)
Corollary find_close_none_parity : forall fuel s,
  String.length s < fuel ->
  (find_close fuel s "" = None <-> forall body rest, s = body ++ """" ++ rest -> ~ closes_body body).
Proof.
  intros fuel s Hf. split.
  - intros H body rest Hs Hc.
    pose proof (proj2 (find_close_parity fuel s body rest Hf) (conj Hs Hc)) as E.
    rewrite H in E. discriminate.
  - intros H. destruct (find_close fuel s "") as [[body rest]|] eqn:E; [|reflexivity].
    destruct (proj1 (find_close_parity fuel s body rest Hf) E) as [Hs Hc].
    destruct (H body rest Hs Hc).
Qed.
Print Assumptions find_close_none_parity.

Lemma wf_closes_body (body : string) : pair_wf body = true -> closes_body body.
Proof.
  intros W. exact (proj2 (first_close_sound _ _ _ _ (first_close_wf "" body W))).
Qed.

Theorem find_close_exact_fuel : forall body rest fuel acc, scannable body ->
  String.length body < fuel ->
  find_close fuel (body ++ """" ++ rest) acc = Some (rev_string acc ++ body, rest).
Proof.
  intros body rest fuel acc W Hf.
  pose proof (first_close_wf rest body W) as F.
  rewrite find_close_first_close; [rewrite F; reflexivity|].
  unfold close_measure. rewrite F. exact Hf.
Qed.
Print Assumptions find_close_exact_fuel.

Theorem find_close_exact : forall body rest, scannable body ->
  find_close (S (String.length (body ++ """" ++ rest))) (body ++ """" ++ rest) "" = Some (body, rest).
Proof.
  intros body rest W.
  rewrite (find_close_exact_fuel body rest _ "" W); [reflexivity|].
  rewrite length_app_s. lia.
Qed.
Print Assumptions find_close_exact.

(** [rem] is the whole remaining line: after "/*" the scanner goes on in the text that follows
    the "/*" in [rem], not in the tail of the text cut at the first "//" *)
Definition plain_of (f : nat) (asm : bool) (rem out : string) (ins : bool) (st : scan_state)
           (s2 : string) (tail : option string) : scan_res :=
  let out' := out ++ s2 in
  let ins' := if String.eqb out' "" then false else ins in
  match tail with
  | Some _ => scan_loop f asm (string_drop (String.length s2 + 2) rem) out' ins'
                        (mkScan true (sc_next_lit st) (sc_lits st))
  | None => ScanOk out' ins' st
  end.

Lemma scan_loop_code (f : nat) (asm : bool) (rem out : string) (ins : bool) (st : scan_state) :
  sc_in_comment st = false -> String.eqb rem "" = false ->
  scan_loop (S f) asm rem out ins st =
  let pre := before "//" rem in
  let '(s2, tail) := match split_once "/*" pre with
                     | Some (b, t) => (b, Some t)
                     | None => (pre, None)
                     end in
  if negb (is_include_line s2) && negb asm then
    match split_once """" s2 with
    | Some (lft, _) =>
        match find_close (S (String.length rem)) (string_drop (S (String.length lft)) rem) "" with
        | None => ScanUnterminated (out ++ lft) ins st
        | Some (body, rest) =>
            scan_loop f asm rest (out ++ lft ++ "@" ++ string_of_N (sc_next_lit st) ++ "@") ins
                      (mkScan false (sc_next_lit st + 1) (body :: sc_lits st))
        end
    | None => plain_of f asm rem out ins st s2 tail
    end
  else plain_of f asm rem out ins st s2 tail.
Proof. intros H1 H2. cbn [scan_loop]. rewrite H1, H2. reflexivity. Qed.

Lemma scan_loop_comment (f : nat) (asm : bool) (rem out : string) (ins : bool) (st : scan_state) :
  sc_in_comment st = true -> String.eqb rem "" = false ->
  scan_loop (S f) asm rem out ins st =
  match split_once "*/" rem with
  | Some (_, after) =>
      let st' := mkScan false (sc_next_lit st) (sc_lits st) in
      if String.eqb after "" then scan_loop f asm after out ins st'
      else if String.eqb after nl then scan_loop f asm "" out ins st'
      else scan_loop f asm after out true st'
  | None => ScanOk out ins st
  end.
Proof. intros H1 H2. cbn [scan_loop]. rewrite H1, H2. reflexivity. Qed.

Lemma scan_loop_empty (f : nat) (asm : bool) (out : string) (ins : bool) (st : scan_state) :
  scan_loop f asm "" out ins st = ScanOk out ins st.
Proof. destruct f; reflexivity. Qed.

Lemma scan_state_eta (st : scan_state) :
  sc_in_comment st = false -> mkScan false (sc_next_lit st) (sc_lits st) = st.
Proof. destruct st as [c n l]. cbn. intros ->. reflexivity. Qed.

Lemma scan_loop_plain (f : nat) (asm : bool) (p out : string) (ins : bool) (st : scan_state) :
  sc_in_comment st = false -> p <> "" ->
  contains """" p = false -> contains "//" p = false -> contains "/*" p = false ->
  scan_loop (S f) asm p out ins st
  = ScanOk (out ++ p) (if String.eqb (out ++ p) "" then false else ins) st.
Proof.
  intros Hc Hp Cq Cs Cb.
  rewrite scan_loop_code; [|exact Hc|apply String.eqb_neq; exact Hp].
  rewrite (before_none _ _ Cs). cbv zeta. rewrite (split_once_none _ _ Cb).
  rewrite (split_once_none _ _ Cq).
  destruct (negb (is_include_line p) && negb asm); reflexivity.
Qed.

(** one turn on marker-free text followed by a line comment: the text is copied, the comment
    dropped *)
Lemma scan_loop_line_comment (f : nat) (asm : bool) (p cmt out : string) (ins : bool) (st : scan_state) :
  sc_in_comment st = false ->
  contains """" p = false -> contains "//" p = false -> contains "/*" p = false ->
  ends_with "/" p = false ->
  scan_loop (S f) asm (p ++ "//" ++ cmt) out ins st
  = ScanOk (out ++ p) (if String.eqb (out ++ p) "" then false else ins) st.
Proof.
  intros Hc Cq Cs Cb He.
  rewrite scan_loop_code; [|exact Hc|apply eqb_app_nonempty; discriminate].
  unfold before. rewrite (split_once_2_same _ p cmt Cs He).
  rewrite (split_once_none _ _ Cb), (split_once_none _ _ Cq).
  destruct (negb (is_include_line p) && negb asm); reflexivity.
Qed.

Lemma starts_with_blocked (p a : string) (c : ascii) (z : string) :
  starts_with p a = false -> contains (String c "") p = false ->
  starts_with p (a ++ String c z) = false.
Proof.
  revert a. induction p as [|x p IH]; intros a H C; [discriminate|].
  apply contains_false_cons in C. destruct C as [C1 C2].
  cbn [starts_with] in C1. rewrite andb_true_r in C1.
  destruct a as [|y a]; cbn [append starts_with].
  - rewrite Ascii.eqb_sym, C1. reflexivity.
  - cbn [starts_with] in H. destruct (Ascii.eqb x y); [|reflexivity].
    cbn [andb] in *. apply IH; assumption.
Qed.

(** text that is not an #include line does not become one when a character that is neither white
    space nor a letter of "include" (nor '#') is appended *)
Lemma is_include_line_blocked (a : string) (c : ascii) (z : string) :
  is_ws c = false -> Ascii.eqb c "#" = false ->
  forall not_in_word : contains (String c "") "include" = false,
  is_include_line a = false -> is_include_line (a ++ String c z) = false.
Proof.
  intros Hw Hh Hc H. unfold is_include_line in *.
  rewrite (trim_start_app_nonws a c z Hw).
  destruct (trim_start a) as [|h r].
  - cbn [append]. rewrite Hh. reflexivity.
  - cbn [append]. destruct (Ascii.eqb h "#"); [|reflexivity]. cbn [andb] in *.
    rewrite (trim_start_app_nonws r c z Hw). apply starts_with_blocked; assumption.
Qed.

Theorem scan_literal_opaque : forall pre body post st fuel out ins,
  sc_in_comment st = false -> no_markers pre -> scannable body ->
  scan_loop (S fuel) false (pre ++ """" ++ body ++ """" ++ post) out ins st
  = scan_loop fuel false post (out ++ pre ++ "@" ++ string_of_N (sc_next_lit st) ++ "@") ins
              (mkScan false (sc_next_lit st + 1) (body :: sc_lits st)).
Proof.
  intros pre body post st fuel out ins Hc [Mq [Ms [Mb Mi]]] Hsc.
  set (R := body ++ """" ++ post).
  rewrite scan_loop_code; [|exact Hc|apply eqb_app_nonempty; discriminate].
  (* the text before "//" and before "/*" still starts with pre ++ quote *)
  assert (A : forall x y z, contains (String x (String y "")) pre = false ->
              Ascii.eqb y """" = false -> Ascii.eqb x """" = false ->
              no_start (String x (String y "")) (pre ++ """") z = true).
  { intros x y z C Ey Ex. rewrite no_start_app. apply andb_true_iff. split.
    - apply no_start_2; [exact C|right]. cbn [append starts_with]. rewrite Ey. reflexivity.
    - cbn [no_start append starts_with]. rewrite Ex. reflexivity. }
  replace (pre ++ """" ++ R) with ((pre ++ """") ++ R) by apply app_assoc_s.
  rewrite (before_skip "//" (pre ++ """") R (A _ _ _ Ms eq_refl eq_refl)).
  cbv zeta.
  rewrite (split_once_skip "/*" (pre ++ """") (before "//" R) (A _ _ _ Mb eq_refl eq_refl)).
  assert (B : forall z, is_include_line ((pre ++ """") ++ z) = false).
  { intros z. rewrite app_assoc_s. apply is_include_line_blocked; [reflexivity|reflexivity|reflexivity|exact Mi]. }
  assert (Q : forall z, split_once """" ((pre ++ """") ++ z) = Some (pre, z)).
  { intros z. rewrite app_assoc_s. apply split_once_char. exact Mq. }
  assert (F : find_close (S (String.length ((pre ++ """") ++ R)))
                         (string_drop (S (String.length pre)) ((pre ++ """") ++ R)) ""
              = Some (body, post)).
  { assert (L : S (String.length pre) = String.length (pre ++ """"))
      by (rewrite length_app_s; cbn [String.length]; lia).
    rewrite L, drop_length_app. unfold R.
    rewrite (find_close_exact_fuel body post _ "" Hsc); [reflexivity|].
    rewrite !length_app_s. lia. }
  destruct (split_once "/*" (before "//" R)) as [[x y]|];
    rewrite B, Q; cbn [negb andb]; rewrite F; reflexivity.
Qed.
Print Assumptions scan_literal_opaque.

Theorem scan_line_one_literal : forall pre body post st,
  sc_in_comment st = false -> no_markers pre -> scannable body ->
  contains """" post = false -> contains "//" post = false -> contains "/*" post = false ->
  scan_line false (pre ++ """" ++ body ++ """" ++ post) st
  = ScanOk (pre ++ "@" ++ string_of_N (sc_next_lit st) ++ "@" ++ post) true
           (mkScan false (sc_next_lit st + 1) (body :: sc_lits st)).
Proof.
  intros pre body post st Hc Hm Hsc Pq Ps Pb.
  unfold scan_line. rewrite Hc.
  rewrite (scan_literal_opaque pre body post st _ "" true Hc Hm Hsc).
  destruct (string_dec post "") as [->|Hp].
  - rewrite scan_loop_empty. reflexivity.
  - rewrite scan_loop_plain; [|reflexivity|exact Hp|exact Pq|exact Ps|exact Pb].
    rewrite !app_assoc_s. cbn [append].
    rewrite eqb_app_nonempty; [reflexivity|discriminate].
Qed.
Print Assumptions scan_line_one_literal.

(** the parity rule at work, and what remains refuted.  QQ = the quote, BS = one backslash *)
Local Notation QQ := """" (only parsing).
Local Notation BS := "\" (only parsing).
Definition st0 : scan_state := mkScan false 0 [].

(** the parity rule (the repaired defect).  The C literal made of a, escaped backslash, escaped
    quote, b is ONE literal: three backslashes precede its inner quote, which is therefore
    escaped (the unrepaired scanner took it for the closing quote because two backslashes precede
    it, and rejected the line as an unterminated string) *)
Example scan_backslash_parity :
  scan_line false ("s = " ++ QQ ++ "a" ++ BS ++ BS ++ BS ++ QQ ++ "b" ++ QQ ++ ";" ++ nl) st0
  = ScanOk ("s = @0@;" ++ nl) true (mkScan false 1 ["a" ++ BS ++ BS ++ BS ++ QQ ++ "b"])
  /\ c_decode ("a" ++ BS ++ BS ++ BS ++ QQ ++ "b") = Some ("a" ++ BS ++ QQ ++ "b")
  /\ scannableb ("a" ++ BS ++ BS ++ BS ++ QQ ++ "b") = true
  /\ find_close 20 ("a" ++ BS ++ BS ++ BS ++ QQ ++ "b" ++ QQ ++ ";") ""
     = Some ("a" ++ BS ++ BS ++ BS ++ QQ ++ "b", ";").
Proof. vm_compute. repeat split. Qed.

(** a literal that ends in an escaped backslash closes at its quote (two backslashes: even),
    and the text that follows is scanned as code, a second literal included *)
Example scan_backslash_parity_even :
  scan_line false ("s = " ++ QQ ++ "a" ++ BS ++ BS ++ QQ ++ " + x; t = " ++ QQ ++ "b" ++ QQ ++ ";" ++ nl) st0
  = ScanOk ("s = @0@ + x; t = @1@;" ++ nl) true (mkScan false 2 ["b"; "a" ++ BS ++ BS])
  /\ find_close 30 ("a" ++ BS ++ BS ++ QQ ++ " + x;") "" = Some ("a" ++ BS ++ BS, " + x;")
  /\ trailing_backslashes ("a" ++ BS ++ BS) = 2.
Proof. vm_compute. repeat split. Qed.

(** two escaped backslashes and an escaped quote: five backslashes precede the inner quote (odd:
    escaped), none the last one *)
Example scan_backslash_parity_five :
  scan_line false ("s = " ++ QQ ++ BS ++ BS ++ BS ++ BS ++ BS ++ QQ ++ QQ ++ ";" ++ nl) st0
  = ScanOk ("s = @0@;" ++ nl) true (mkScan false 1 [BS ++ BS ++ BS ++ BS ++ BS ++ QQ])
  /\ c_decode (BS ++ BS ++ BS ++ BS ++ BS ++ QQ) = Some (BS ++ BS ++ QQ)
  /\ trailing_backslashes (BS ++ BS ++ BS ++ BS ++ BS) = 5
  /\ escaped_parity false (BS ++ BS ++ BS ++ BS ++ BS) = true.
Proof. vm_compute. repeat split. Qed.

(** two such literals on a line: the bodies are the right ones (the unrepaired scanner
    succeeded here and recorded the bodies a\\\ and c) *)
Example scan_backslash_parity_two :
  scan_line false ("s = " ++ QQ ++ "a" ++ BS ++ BS ++ BS ++ QQ ++ "b" ++ BS ++ BS ++ BS ++ QQ ++ "c" ++ QQ ++ ";" ++ nl) st0
  = ScanOk ("s = @0@;" ++ nl) true
           (mkScan false 1 ["a" ++ BS ++ BS ++ BS ++ QQ ++ "b" ++ BS ++ BS ++ BS ++ QQ ++ "c"]).
Proof. vm_compute. reflexivity. Qed.

(** the character constant that holds a double quote *)
Example char_quote_refuted :
  scan_line false ("c = '" ++ QQ ++ "';" ++ nl) st0 = ScanUnterminated "c = '" true st0.
Proof. vm_compute. reflexivity. Qed.

(** what a literal may contain *)
Example scan_literal_contents :
  scan_line false ("s = " ++ QQ ++ "a//b /* c */ #d @1@ " ++ BS ++ QQ ++ "e" ++ BS ++ BS ++ QQ ++ "; // x" ++ nl) st0
  = ScanOk "s = @0@; " true (mkScan false 1 ["a//b /* c */ #d @1@ " ++ BS ++ QQ ++ "e" ++ BS ++ BS]).
Proof. vm_compute. reflexivity. Qed.

Theorem line_comment_dropped : forall asm pre cmt st,
  sc_in_comment st = false -> no_markers pre -> pre <> "" ->
  forall no_trailing_slash : ends_with "/" pre = false,
  scan_line asm (pre ++ "//" ++ cmt) st = ScanOk pre true st.
Proof.
  intros asm pre cmt st Hc [Mq [Ms [Mb Mi]]] Hp He.
  unfold scan_line. rewrite Hc.
  rewrite scan_loop_line_comment by assumption. cbn [append].
  apply String.eqb_neq in Hp. rewrite Hp. reflexivity.
Qed.
Print Assumptions line_comment_dropped.

(** without the extra hypothesis: "a / // c" is fine but in "a///c" the first "//" starts one
    character earlier *)
Example line_comment_dropped_needs_no_trailing_slash :
  no_markers "a/" /\ scan_line false ("a/" ++ "//" ++ "c") st0 = ScanOk "a" true st0.
Proof. vm_compute. repeat split. Qed.

Theorem line_comment_only : forall asm cmt st,
  sc_in_comment st = false -> scan_line asm ("//" ++ cmt) st = ScanOk "" false st.
Proof.
  intros asm cmt st Hc. unfold scan_line. rewrite Hc.
  rewrite scan_loop_code; [|exact Hc|reflexivity].
  unfold before. rewrite (split_once_here "//" cmt). destruct asm; reflexivity.
Qed.
Print Assumptions line_comment_only.

Lemma no_slashes_around_open (pre z : string) :
  contains "//" pre = false -> ends_with "/" pre = false ->
  no_start "//" (pre ++ "/*") z = true.
Proof.
  intros Ms He. rewrite no_start_app. apply andb_true_iff. split.
  - apply no_start_2; [exact Ms|left; exact He].
  - reflexivity.
Qed.

Lemma drop_after_open (pre z : string) :
  string_drop (String.length pre + 2) (pre ++ "/*" ++ z) = z.
Proof.
  replace (String.length pre + 2) with (String.length (pre ++ "/*"))
    by (rewrite length_app_s; reflexivity).
  rewrite <- app_assoc_s. apply drop_length_app.
Qed.

(** one turn at the opening of a block comment: the code before it is copied and the scanner goes
    on, in comment mode, in ALL the text that follows the "/*" (whatever it contains: a "//" in
    [z] cuts nothing) *)
Theorem scan_loop_open : forall asm pre z st f out ins,
  sc_in_comment st = false -> no_markers pre ->
  forall no_trailing_slash : ends_with "/" pre = false,
  scan_loop (S f) asm (pre ++ "/*" ++ z) out ins st
  = scan_loop f asm z (out ++ pre) (if String.eqb (out ++ pre) "" then false else ins)
              (mkScan true (sc_next_lit st) (sc_lits st)).
Proof.
  intros asm pre z st f out ins Hc [Mq [Ms [Mb Mi]]] He.
  rewrite scan_loop_code; [|exact Hc|apply eqb_app_nonempty; discriminate].
  (* the first "//" of the line, if any, comes after the "/*" *)
  assert (B : before "//" (pre ++ "/*" ++ z) = pre ++ "/*" ++ before "//" z).
  { rewrite <- !app_assoc_s. apply before_skip. apply no_slashes_around_open; assumption. }
  rewrite B. cbv zeta.
  rewrite (split_once_2_distinct "/" "*" pre (before "//" z) ltac:(discriminate) Mb).
  rewrite (split_once_none _ _ Mq).
  unfold plain_of. rewrite drop_after_open.
  destruct (negb (is_include_line pre) && negb asm); reflexivity.
Qed.
Print Assumptions scan_loop_open.

(** The comment is removed whatever it contains (a "//" inside it cuts nothing), and the
    scanner goes on with the WHOLE text after it: [post] is scanned by the next turn like any
    other text (its own literals, comments and "//" included) *)
Theorem block_comment_removed : forall asm pre body post st f out ins,
  sc_in_comment st = false -> no_markers pre ->
  forall no_trailing_slash : ends_with "/" pre = false,
  contains "*/" body = false ->
  scan_loop (S (S f)) asm (pre ++ "/*" ++ body ++ "*/" ++ post) out ins st =
    let out' := out ++ pre in
    let ins' := if String.eqb out' "" then false else ins in
    if String.eqb post "" || String.eqb post nl then ScanOk out' ins' st
    else scan_loop f asm post out' true st.
Proof.
  intros asm pre body post st f out ins Hc Hm He Cc.
  rewrite (scan_loop_open asm pre (body ++ "*/" ++ post) st (S f) out ins Hc Hm He).
  rewrite scan_loop_comment; [|reflexivity|apply eqb_app_nonempty; discriminate].
  rewrite (split_once_2_distinct "*" "/" body post ltac:(discriminate) Cc).
  cbn [sc_next_lit sc_lits]. rewrite (scan_state_eta st Hc).
  destruct (String.eqb post "") eqn:E1.
  - apply String.eqb_eq in E1. rewrite E1. apply scan_loop_empty.
  - destruct (String.eqb post nl); [apply scan_loop_empty|reflexivity].
Qed.
Print Assumptions block_comment_removed.

(** when something other than the newline follows the comment *)
Theorem block_comment_removed_simple : forall asm pre body post st f out ins,
  sc_in_comment st = false -> no_markers pre ->
  forall no_trailing_slash : ends_with "/" pre = false,
  contains "*/" body = false ->
  post <> "" -> post <> nl ->
  scan_loop (S (S f)) asm (pre ++ "/*" ++ body ++ "*/" ++ post) out ins st
  = scan_loop f asm post (out ++ pre) true st.
Proof.
  intros asm pre body post st f out ins Hc Hm He Cc P1 P2.
  rewrite block_comment_removed by assumption.
  apply String.eqb_neq in P1, P2. rewrite P1, P2. reflexivity.
Qed.
Print Assumptions block_comment_removed_simple.

(** a whole line  pre /* body */ post : the comment disappears, the code on both sides stays *)
Theorem scan_line_block_comment : forall asm pre body post st,
  sc_in_comment st = false -> no_markers pre ->
  forall no_trailing_slash : ends_with "/" pre = false,
  contains "*/" body = false ->
  contains """" post = false -> contains "//" post = false -> contains "/*" post = false ->
  post <> "" -> post <> nl ->
  scan_line asm (pre ++ "/*" ++ body ++ "*/" ++ post) st = ScanOk (pre ++ post) true st.
Proof.
  intros asm pre body post st Hc Hm He Cc Pq Ps Pb P1 P2.
  unfold scan_line.
  rewrite block_comment_removed_simple by assumption.
  destruct (length_app_S pre ("/*" ++ body ++ "*/" ++ post)) as [f ->]; [discriminate|].
  rewrite scan_loop_plain by assumption.
  rewrite eqb_app_nonempty by exact P1. reflexivity.
Qed.
Print Assumptions scan_line_block_comment.

(** the same line followed by a line comment: the block comment and the line comment go, the
    code on both sides of the block comment stays *)
Theorem scan_line_block_then_line_comment : forall asm pre body mid cmt st,
  sc_in_comment st = false -> no_markers pre ->
  forall no_trailing_slash : ends_with "/" pre = false,
  contains "*/" body = false ->
  contains """" mid = false -> contains "//" mid = false -> contains "/*" mid = false ->
  forall mid_no_trailing_slash : ends_with "/" mid = false,
  mid <> "" ->
  scan_line asm (pre ++ "/*" ++ body ++ "*/" ++ mid ++ "//" ++ cmt) st = ScanOk (pre ++ mid) true st.
Proof.
  intros asm pre body mid cmt st Hc Hm He Cc Mq Ms Mb Me M1.
  unfold scan_line.
  rewrite block_comment_removed_simple; [|exact Hc|exact Hm|exact He|exact Cc| |].
  - destruct (length_app_S pre ("/*" ++ body ++ "*/" ++ mid ++ "//" ++ cmt)) as [f ->]; [discriminate|].
    rewrite scan_loop_line_comment by assumption.
    rewrite eqb_app_nonempty by exact M1. reflexivity.
  - destruct mid; discriminate.
  - destruct mid as [|c [|d mid]]; discriminate.
Qed.
Print Assumptions scan_line_block_then_line_comment.

(** the repaired defect.  A "//" inside the comment no longer cuts the line before the
    scanner looks for the end of the comment: the comment is removed and the declaration that
    follows it survives (the unrepaired scanner returned [ScanOk "" false (mkScan true 0 [])]) *)
Example block_comment_slashes_fixed :
  scan_line false ("/* see http://x.org */ char a;" ++ nl) st0 = ScanOk (" char a;" ++ nl) true st0
  /\ scan_line false ("a /* http://x */ b // c" ++ nl) st0 = ScanOk "a  b " true st0.
Proof. vm_compute. split; reflexivity. Qed.

(** a literal that follows a block comment on the line is extracted like on a line of its own
    (the unrepaired scanner answered [ScanUnterminated]) *)
Example literal_after_block_comment_fixed :
  scan_line false ("/* c */ s = " ++ QQ ++ "http://x" ++ QQ ++ ";" ++ nl) st0
  = ScanOk (" s = @0@;" ++ nl) true (mkScan false 1 ["http://x"])
  /\ scan_line false ("s = " ++ QQ ++ "http://x" ++ QQ ++ ";" ++ nl) st0
     = ScanOk ("s = @0@;" ++ nl) true (mkScan false 1 ["http://x"]).
Proof. vm_compute. split; reflexivity. Qed.

(** the general form of the second example: code, a block comment, code with a literal *)
Theorem literal_after_block_comment : forall pre cbody mid body post st f out ins,
  sc_in_comment st = false -> no_markers pre ->
  forall no_trailing_slash : ends_with "/" pre = false,
  contains "*/" cbody = false ->
  no_markers mid -> scannable body ->
  scan_loop (S (S (S f))) false (pre ++ "/*" ++ cbody ++ "*/" ++ mid ++ QQ ++ body ++ QQ ++ post) out ins st
  = scan_loop f false post ((out ++ pre) ++ mid ++ "@" ++ string_of_N (sc_next_lit st) ++ "@") true
              (mkScan false (sc_next_lit st + 1) (body :: sc_lits st)).
Proof.
  intros pre cbody mid body post st f out ins Hc Hm He Cc Hmid Hsc.
  rewrite block_comment_removed_simple; [|exact Hc|exact Hm|exact He|exact Cc| |].
  - apply scan_literal_opaque; assumption.
  - destruct mid; discriminate.
  - destruct mid as [|c [|d mid]]; discriminate.
Qed.
Print Assumptions literal_after_block_comment.

(** a "/" right after the comment needs no hypothesis: it is an operator, as in C
    (C replaces the comment by a space, the scanner by nothing; the unrepaired scanner saw a
    "//" here and stayed in comment mode) *)
Example block_comment_then_slash :
  scan_line false ("a /* c *// x" ++ nl) st0 = ScanOk ("a / x" ++ nl) true st0.
Proof. vm_compute. reflexivity. Qed.
(** why [no_trailing_slash] is needed: "//*" is the start of a line comment, in the scanner
    and in C alike (the "//" comes first) *)
Example slash_then_block_comment :
  scan_line false ("a //* c */ x" ++ nl) st0 = ScanOk "a " true st0.
Proof. vm_compute. reflexivity. Qed.

Theorem comment_spans_lines_open : forall asm a c st,
  sc_in_comment st = false -> no_markers a ->
  forall no_trailing_slash : ends_with "/" a = false,
  contains "*/" c = false ->
  scan_line asm (a ++ "/*" ++ c) st
  = ScanOk a (negb (String.eqb a "")) (mkScan true (sc_next_lit st) (sc_lits st)).
Proof.
  intros asm a c st Hc Hm He Cc.
  unfold scan_line. rewrite Hc.
  rewrite (scan_loop_open asm a c st _ "" true Hc Hm He).
  replace (if String.eqb a "" then false else true) with (negb (String.eqb a ""))
    by (destruct (String.eqb a ""); reflexivity).
  destruct (string_dec c "") as [->|Hne].
  - apply scan_loop_empty.
  - rewrite scan_loop_comment; [|reflexivity|apply String.eqb_neq; exact Hne].
    rewrite (split_once_none _ _ Cc). reflexivity.
Qed.
Print Assumptions comment_spans_lines_open.

Theorem comment_spans_lines_close : forall asm c d st,
  sc_in_comment st = true -> contains "*/" c = false ->
  contains """" d = false -> contains "//" d = false -> contains "/*" d = false ->
  d <> "" -> d <> nl ->
  scan_line asm (c ++ "*/" ++ d) st = ScanOk d true (mkScan false (sc_next_lit st) (sc_lits st)).
Proof.
  intros asm c d st Hc Cc Dq Ds Db D1 D2.
  unfold scan_line. rewrite Hc.
  rewrite scan_loop_comment; [|exact Hc|apply eqb_app_nonempty; discriminate].
  rewrite (split_once_2_distinct "*" "/" c d ltac:(discriminate) Cc).
  rewrite (proj2 (String.eqb_neq _ _) D1), (proj2 (String.eqb_neq _ _) D2).
  rewrite scan_loop_plain; [|reflexivity|exact D1|exact Dq|exact Ds|exact Db].
  cbn [append]. rewrite (proj2 (String.eqb_neq _ _) D1). reflexivity.
Qed.
Print Assumptions comment_spans_lines_close.

(** when nothing, or only the newline, follows the end of the comment the line is dropped *)
Theorem comment_spans_lines_close_only : forall asm c d st,
  sc_in_comment st = true -> contains "*/" c = false -> d = "" \/ d = nl ->
  scan_line asm (c ++ "*/" ++ d) st = ScanOk "" false (mkScan false (sc_next_lit st) (sc_lits st)).
Proof.
  intros asm c d st Hc Cc D.
  unfold scan_line. rewrite Hc.
  rewrite scan_loop_comment; [|exact Hc|apply eqb_app_nonempty; discriminate].
  rewrite (split_once_2_distinct "*" "/" c d ltac:(discriminate) Cc).
  destruct D as [-> | ->]; cbn [String.eqb]; apply scan_loop_empty.
Qed.
Print Assumptions comment_spans_lines_close_only.

Theorem comment_line_inside : forall asm c st,
  sc_in_comment st = true -> contains "*/" c = false ->
  scan_line asm c st = ScanOk "" false st.
Proof.
  intros asm c st Hc Cc. unfold scan_line. rewrite Hc.
  destruct (string_dec c "") as [->|Hne]; [reflexivity|].
  rewrite scan_loop_comment; [|exact Hc|apply String.eqb_neq; exact Hne].
  rewrite (split_once_none _ _ Cc). reflexivity.
Qed.
Print Assumptions comment_line_inside.

Example comment_spans_lines_example :
  scan_line false ("a /* b" ++ nl) st0 = ScanOk "a " true (mkScan true 0 [])
  /\ scan_line false ("c */ d" ++ nl) (mkScan true 0 []) = ScanOk (" d" ++ nl) true st0.
Proof. vm_compute. split; reflexivity. Qed.

Theorem splice_none : forall fuel l rest extra,
  ends_with ("\" ++ nl) l = false -> ends_with ("\" ++ cr ++ nl) l = false ->
  splice fuel l rest extra = (l, extra, rest).
Proof.
  intros fuel l rest extra H1 H2. destruct fuel as [|f]; [reflexivity|].
  cbn [splice]. rewrite H1, H2. reflexivity.
Qed.
Print Assumptions splice_none.

(** one turn on a buffer that ends in a continuation [suf]: the continuation goes and the next
    physical line, if there is one, is joined *)
Lemma splice_cont (f : nat) (a suf : string) (rest : list string) (extra : N) :
  suf = "\" ++ nl \/ suf = "\" ++ cr ++ nl ->
  splice (S f) (a ++ suf) rest extra =
  match rest with
  | l :: r => splice f (a ++ l) r (extra + 1)
  | [] => (a, extra, [])
  end.
Proof.
  intros Hsuf.
  assert (E : ends_with ("\" ++ nl) (a ++ suf) || ends_with ("\" ++ cr ++ nl) (a ++ suf) = true
              /\ String.length (a ++ suf) - (if ends_with ("\" ++ cr ++ nl) (a ++ suf) then 3 else 2)
                 = String.length a).
  { unfold ends_with. rewrite (rev_string_app a), length_app_s.
    destruct Hsuf as [-> | ->]; (split; [reflexivity|cbn; lia]). }
  destruct E as [E1 E2]. cbn [splice]. rewrite E1, E2, take_length_app. reflexivity.
Qed.

Theorem splice_joins : forall fuel a l rest,
  forall joined_ends_plain : ends_with ("\" ++ nl) (a ++ l) = false,
  forall joined_ends_plain_crlf : ends_with ("\" ++ cr ++ nl) (a ++ l) = false,
  splice (S (S fuel)) (a ++ "\" ++ nl) (l :: rest) 0%N = (a ++ l, 1%N, rest).
Proof.
  intros fuel a l rest H1 H2. rewrite splice_cont by (left; reflexivity).
  apply splice_none; assumption.
Qed.
Print Assumptions splice_joins.

Theorem splice_joins_crlf : forall fuel a l rest,
  forall joined_ends_plain : ends_with ("\" ++ nl) (a ++ l) = false,
  forall joined_ends_plain_crlf : ends_with ("\" ++ cr ++ nl) (a ++ l) = false,
  splice (S (S fuel)) (a ++ "\" ++ cr ++ nl) (l :: rest) 0%N = (a ++ l, 1%N, rest).
Proof.
  intros fuel a l rest H1 H2. rewrite splice_cont by (right; reflexivity).
  apply splice_none; assumption.
Qed.
Print Assumptions splice_joins_crlf.

(** the hypothesis is about the joined text: the next line alone is not enough *)
Example splice_joins_needs_joined :
  ends_with ("\" ++ nl) nl = false /\ ends_with ("\" ++ cr ++ nl) nl = false
  /\ splice 3 ("x\" ++ "\" ++ nl) [nl; "y"] 0%N = ("xy", 2%N, []).
Proof. vm_compute. repeat split. Qed.

(** the last line of a file ending in a splice: the backslash-newline is removed *)
Theorem splice_at_eof : forall fuel a,
  splice (S fuel) (a ++ "\" ++ nl) [] 0%N = (a, 0%N, []).
Proof. intros fuel a. apply splice_cont. left. reflexivity. Qed.
Print Assumptions splice_at_eof.

(** a comment is removed, not replaced by a space: the neighbours are pasted together *)
Example comment_pastes_tokens :
  scan_line false ("int/**/x;" ++ nl) st0 = ScanOk ("intx;" ++ nl) true st0.
Proof. vm_compute. reflexivity. Qed.

(** on an #include line nothing is extracted; a // in the file name starts a comment *)
Example include_line_not_extracted :
  scan_line false ("#include " ++ QQ ++ "a//b.h" ++ QQ ++ nl) st0 = ScanOk ("#include " ++ QQ ++ "a") true st0.
Proof. vm_compute. reflexivity. Qed.

Definition TAB : string := String (ascii_of_nat 9) "".

Lemma split_blank_first (w : string) (c : ascii) (r : string) :
  split_blank w = None -> is_blank_or_tab c = true -> split_blank (w ++ String c r) = Some (w, r).
Proof.
  intros Hw Hc. induction w as [|a w IH].
  - cbn [append split_blank]. rewrite Hc. reflexivity.
  - cbn [split_blank] in Hw. cbn [append split_blank].
    destruct (is_blank_or_tab a); [discriminate|].
    destruct (split_blank w) as [[b t]|]; [discriminate|].
    rewrite (IH eq_refl). reflexivity.
Qed.

Theorem directive_parts_blank_or_tab : forall w c z,
  split_blank w = None -> is_blank_or_tab c = true ->
  contains "//" (w ++ String c z) = false ->
  directive_parts (w ++ String c z) = (w, if String.eqb (trim z) "" then None else Some (trim z)).
Proof.
  intros w c z Hw Hc Hs. unfold directive_parts.
  rewrite (before_none _ _ Hs), (split_blank_first w c z Hw Hc). reflexivity.
Qed.
Print Assumptions directive_parts_blank_or_tab.

Corollary directive_parts_tab_like_blank : forall w z,
  split_blank w = None ->
  contains "//" (w ++ TAB ++ z) = false -> contains "//" (w ++ " " ++ z) = false ->
  directive_parts (w ++ TAB ++ z) = directive_parts (w ++ " " ++ z).
Proof.
  intros w z Hw H1 H2.
  exact (eq_trans (directive_parts_blank_or_tab w (ascii_of_nat 9) z Hw eq_refl H1)
                  (eq_sym (directive_parts_blank_or_tab w " " z Hw eq_refl H2))).
Qed.
Print Assumptions directive_parts_tab_like_blank.

(** the repaired defect: "#ifdef<TAB>FOO" was the word "#ifdef<TAB>FOO" without argument
    ("Expected something after `#ifdef`"); it selects like "#ifdef FOO", and so do the other
    directives *)
Example ifdef_tab_example :
  directive_parts ("#ifdef" ++ TAB ++ "FOO") = ("#ifdef", Some "FOO")
  /\ (forall defs,
        defs = [("FOO", "1")] \/ defs = [] ->
        run_cpp [] "m.c" defs ["#ifdef" ++ TAB ++ "FOO" ++ nl; "x" ++ nl; "#else" ++ nl; "y" ++ nl; "#endif" ++ nl]
        = run_cpp [] "m.c" defs ["#ifdef FOO" ++ nl; "x" ++ nl; "#else" ++ nl; "y" ++ nl; "#endif" ++ nl])
  /\ match run_cpp [] "m.c" [("FOO", "1")] ["#ifdef" ++ TAB ++ "FOO" ++ nl; "x" ++ nl; "#else" ++ nl; "y" ++ nl; "#endif" ++ nl] with
     | POk p => p_out p = "x" ++ nl
     | PErr _ => False
     end
  /\ match run_cpp [] "m.c" [] ["#ifdef" ++ TAB ++ "FOO" ++ nl; "x" ++ nl; "#else" ++ nl; "y" ++ nl; "#endif" ++ nl] with
     | POk p => p_out p = "y" ++ nl
     | PErr _ => False
     end
  /\ match run_cpp [] "m.c" [] ["#define" ++ TAB ++ "A" ++ TAB ++ "1" ++ nl; "#if" ++ TAB ++ "A" ++ nl; "A;" ++ nl;
                                "#endif" ++ nl; "#undef" ++ TAB ++ "A" ++ nl; "#ifndef" ++ TAB ++ "A" ++ nl; "A;" ++ nl; "#endif" ++ nl] with
     | POk p => p_out p = "1;" ++ nl ++ "A;" ++ nl
     | PErr _ => False
     end.
Proof.
  split; [reflexivity|]. split; [intros defs [-> | ->]; vm_compute; reflexivity|].
  vm_compute. repeat split; reflexivity.
Qed.

(** ** an #include line keeps its quotes, whatever white space precedes the '#' or follows it *)
Theorem include_line_not_scanned_gen : forall asm l st,
  sc_in_comment st = false ->
  is_include_line l = true ->
  contains "//" l = false -> contains "/*" l = false ->
  scan_line asm l st = ScanOk l true st.
Proof.
  intros asm l st Hc Hi Cs Cb.
  assert (E : String.eqb l "" = false) by (destruct l; [discriminate|reflexivity]).
  unfold scan_line. rewrite Hc.
  rewrite scan_loop_code; [|exact Hc|exact E].
  rewrite (before_none _ _ Cs). cbv zeta. rewrite (split_once_none _ _ Cb).
  rewrite Hi. unfold plain_of. cbn [append]. rewrite E. reflexivity.
Qed.
Print Assumptions include_line_not_scanned_gen.

Lemma is_include_line_tight (l : string) :
  starts_with "#include" (trim_start l) = true -> is_include_line l = true.
Proof.
  unfold is_include_line. intros H. rewrite (starts_with_decomp _ _ H). reflexivity.
Qed.

Theorem include_line_not_scanned : forall asm l st,
  sc_in_comment st = false ->
  starts_with "#include" (trim_start l) = true ->
  contains "//" l = false -> contains "/*" l = false ->
  scan_line asm l st = ScanOk l true st.
Proof.
  intros asm l st Hc Hi Cs Cb.
  apply include_line_not_scanned_gen; try assumption. apply is_include_line_tight. exact Hi.
Qed.
Print Assumptions include_line_not_scanned.

(** the repaired defect: with leading blanks the file name used to be taken for a string literal
    (a marker replaced it, a literal was recorded and the directive failed with "Expected < or
    quote"); the file is included and no literal is recorded *)
Example include_leading_blanks_example :
  scan_line false ("   #include " ++ """" ++ "f.h" ++ """" ++ nl) st0
  = ScanOk ("   #include " ++ """" ++ "f.h" ++ """" ++ nl) true st0
  /\ match run_cpp [("f.h", ["int x;" ++ nl])] "m.c" [] ["   #include " ++ """" ++ "f.h" ++ """" ++ nl; "int y;" ++ nl] with
     | POk p => p_out p = "int x;" ++ nl ++ "int y;" ++ nl
                /\ c_scan (p_ctx p) = mkScan false 0 []
                /\ rev (p_map p) = [("f.h", 1%N, Some ("m.c", 1%N)); ("m.c", 2%N, None)]
     | PErr _ => False
     end
  /\ run_cpp [("f.h", ["int x;" ++ nl])] "m.c" [] [TAB ++ " #include " ++ """" ++ "f.h" ++ """" ++ nl]
     = run_cpp [("f.h", ["int x;" ++ nl])] "m.c" [] ["#include " ++ """" ++ "f.h" ++ """" ++ nl].
Proof. vm_compute. repeat split; reflexivity. Qed.

(** [trim_start b = ""]: [b] is made of white space only *)
Lemma trim_start_ws_app (b s : string) : trim_start b = "" -> trim_start (b ++ s) = trim_start s.
Proof.
  induction b as [|a b IH]; intros H; [reflexivity|].
  cbn [trim_start] in H. cbn [append trim_start].
  destruct (is_ws a); [exact (IH H)|discriminate].
Qed.

Lemma trim_start_idem (s : string) : trim_start (trim_start s) = trim_start s.
Proof.
  induction s as [|a s IH]; [reflexivity|].
  cbn [trim_start]. destruct (is_ws a) eqn:E; [exact IH|].
  cbn [trim_start]. rewrite E. reflexivity.
Qed.

(** a '#' after white space only: the blanks that follow it decide *)
Lemma hash_blanks_hash (b1 r : string) :
  trim_start b1 = "" ->
  hash_blanks (b1 ++ "#" ++ r) =
  if Nat.eqb (String.length (trim_start r)) (String.length r) then b1 ++ "#" ++ r
  else "#" ++ trim_start r.
Proof. intros H1. unfold hash_blanks. rewrite (trim_start_ws_app b1 _ H1). reflexivity. Qed.

Theorem hash_blanks_removes : forall b1 b2 rest,
  trim_start b1 = "" -> trim_start b2 = "" -> b2 <> "" -> trim_start rest = rest ->
  hash_blanks (b1 ++ "#" ++ b2 ++ rest) = "#" ++ rest.
Proof.
  intros b1 b2 rest H1 H2 Hne Hr.
  rewrite (hash_blanks_hash b1 _ H1), (trim_start_ws_app b2 _ H2), Hr, length_app_s.
  destruct b2 as [|c b2]; [contradiction|]. cbn [String.length].
  rewrite (proj2 (Nat.eqb_neq _ _)) by lia. reflexivity.
Qed.
Print Assumptions hash_blanks_removes.

Theorem hash_blanks_keeps : forall b1 rest,
  trim_start b1 = "" -> trim_start rest = rest ->
  hash_blanks (b1 ++ "#" ++ rest) = b1 ++ "#" ++ rest.
Proof.
  intros b1 rest H1 Hr. rewrite (hash_blanks_hash b1 _ H1), Hr, Nat.eqb_refl. reflexivity.
Qed.
Print Assumptions hash_blanks_keeps.

Theorem hash_blanks_other : forall out,
  starts_with "#" (trim_start out) = false -> hash_blanks out = out.
Proof.
  intros out H. unfold hash_blanks. destruct (trim_start out) as [|h r]; [reflexivity|].
  cbn [starts_with] in H. rewrite andb_true_r, Ascii.eqb_sym in H. rewrite H. reflexivity.
Qed.
Print Assumptions hash_blanks_other.

Theorem hash_blanks_idem : forall out, hash_blanks (hash_blanks out) = hash_blanks out.
Proof.
  intros out.
  assert (Hc : hash_blanks out = out \/ exists r, hash_blanks out = String "#" (trim_start r)).
  { unfold hash_blanks. destruct (trim_start out) as [|h rest]; [left; reflexivity|].
    destruct (Ascii.eqb h "#"); [|left; reflexivity].
    destruct (Nat.eqb (String.length (trim_start rest)) (String.length rest));
      [left; reflexivity|right; exists rest; reflexivity]. }
  destruct Hc as [Hc|[r Hc]]; rewrite Hc; [exact Hc|].
  exact (hash_blanks_keeps "" (trim_start r) eq_refl (trim_start_idem r)).
Qed.
Print Assumptions hash_blanks_idem.

(** processing a scanned line is processing its normalised form *)
Theorem line_body_hash_blanks : forall rec fs fname inc p line buf out ins sc,
  line_body rec fs fname inc p line buf out ins sc
  = line_body rec fs fname inc p line buf (hash_blanks out) ins sc.
Proof.
  intros. unfold line_body. rewrite hash_blanks_idem. reflexivity.
Qed.
Print Assumptions line_body_hash_blanks.

(** blanks around the '#' do not count: a scanned line  blanks # blanks rest  (at least one blank
    after the '#') is processed exactly like  #rest : same directive, same argument, same errors,
    in selected and in skipped groups alike *)
Theorem directive_blank_after_hash : forall rec fs fname inc p line buf b1 b2 rest ins sc,
  trim_start b1 = "" -> trim_start b2 = "" -> b2 <> "" -> trim_start rest = rest ->
  line_body rec fs fname inc p line buf (b1 ++ "#" ++ b2 ++ rest) ins sc
  = line_body rec fs fname inc p line buf ("#" ++ rest) ins sc.
Proof.
  intros rec fs fname inc p line buf b1 b2 rest ins sc H1 H2 Hne Hr.
  rewrite (line_body_hash_blanks rec fs fname inc p line buf (b1 ++ "#" ++ b2 ++ rest)).
  rewrite (line_body_hash_blanks rec fs fname inc p line buf ("#" ++ rest)).
  rewrite (hash_blanks_removes b1 b2 rest H1 H2 Hne Hr).
  rewrite (hash_blanks_keeps "" rest eq_refl Hr : hash_blanks ("#" ++ rest) = _). reflexivity.
Qed.
Print Assumptions directive_blank_after_hash.

Example define_blank_after_hash_example :
  run_cpp [] "m.c" [] ["# define N 1" ++ nl; "N" ++ nl]
  = run_cpp [] "m.c" [] ["#define N 1" ++ nl; "N" ++ nl]
  /\ match run_cpp [] "m.c" [] ["# define N 1" ++ nl; "N" ++ nl] with
     | POk p => p_out p = "1" ++ nl /\ c_macros (p_ctx p) = [("N", MObj "1")]
     | PErr _ => False
     end
  /\ match run_cpp [] "m.c" [] ["  #" ++ TAB ++ " define N 1" ++ nl; "#  ifdef N" ++ nl; "N" ++ nl; "#   else" ++ nl; "x" ++ nl;
                                " # endif" ++ nl; "#" ++ nl; "# undef N" ++ nl; "N" ++ nl] with
     | POk p => False
     | PErr e => er_line e = 7%N /\ er_msg e = "Unrecognised preprocessor directive"
     end
  /\ match run_cpp [] "m.c" [] ["  #" ++ TAB ++ " define N 1" ++ nl; "#  ifdef N" ++ nl; "N" ++ nl; "#   else" ++ nl; "x" ++ nl;
                                " # endif" ++ nl; "# undef N" ++ nl; "N" ++ nl] with
     | POk p => p_out p = "1" ++ nl ++ "N" ++ nl
     | PErr _ => False
     end.
Proof. vm_compute. repeat split; reflexivity. Qed.

Lemma take_alpha_stop (rest : string) : fst (take_alpha rest) = "" -> take_alpha rest = ("", rest).
Proof.
  destruct rest as [|a r]; [reflexivity|]. cbn [take_alpha].
  destruct (is_alpha a); [|reflexivity]. destruct (take_alpha r); discriminate.
Qed.

Lemma take_alpha_app (w rest : string) :
  take_alpha w = (w, "") -> fst (take_alpha rest) = "" -> take_alpha (w ++ rest) = (w, rest).
Proof.
  intros Hw Hr. apply take_alpha_stop in Hr. revert Hw. induction w as [|a w IH]; intros Hw; [exact Hr|].
  cbn [take_alpha] in Hw. cbn [append take_alpha].
  destruct (is_alpha a); [|discriminate].
  destruct (take_alpha w) as [w' t']. inversion Hw; subst w' t'.
  rewrite (IH eq_refl). reflexivity.
Qed.

Theorem directive_name_arg_letters : forall h w rest,
  take_alpha w = (w, "") -> fst (take_alpha rest) = "" ->
  contains "//" (String h (w ++ rest)) = false ->
  directive_name_arg (String h (w ++ rest))
  = (String h w, if String.eqb (trim rest) "" then None else Some (trim rest)).
Proof.
  intros h w rest Hw Hr Hs. unfold directive_name_arg. rewrite (before_none _ _ Hs).
  cbv beta iota zeta. rewrite (take_alpha_app w rest Hw Hr). reflexivity.
Qed.
Print Assumptions directive_name_arg_letters.

Example directive_name_arg_examples :
  directive_name_arg "#if!FOO" = ("#if", Some "!FOO")
  /\ directive_name_arg "#if(A) // c" = ("#if", Some "(A)")
  /\ directive_name_arg ("#include" ++ """" ++ "f.h" ++ """") = ("#include", Some ("""" ++ "f.h" ++ """"))
  /\ directive_name_arg "#else" = ("#else", None)
  /\ directive_name_arg ("#if" ++ TAB ++ "1 ") = ("#if", Some "1")
  /\ directive_name_arg "#if_x" = ("#if", Some "_x")
  /\ directive_name_arg "#" = ("#", None).
Proof. vm_compute. repeat split. Qed.

Example include_blank_after_hash_example :
  is_include_line ("  #  include " ++ """" ++ "f.h" ++ """" ++ nl) = true
  /\ scan_line false ("  #  include " ++ """" ++ "f.h" ++ """" ++ nl) st0
     = ScanOk ("  #  include " ++ """" ++ "f.h" ++ """" ++ nl) true st0
  /\ match run_cpp [("f.h", ["int x;" ++ nl])] "m.c" [] ["  #  include " ++ """" ++ "f.h" ++ """" ++ nl; "int y;" ++ nl] with
     | POk p => p_out p = "int x;" ++ nl ++ "int y;" ++ nl
                /\ c_scan (p_ctx p) = mkScan false 0 []
                /\ rev (p_map p) = [("f.h", 1%N, Some ("m.c", 1%N)); ("m.c", 2%N, None)]
     | PErr _ => False
     end
  /\ run_cpp [("f.h", ["int x;" ++ nl])] "m.c" [] ["#include" ++ """" ++ "f.h" ++ """" ++ nl]
     = run_cpp [("f.h", ["int x;" ++ nl])] "m.c" [] ["#include " ++ """" ++ "f.h" ++ """" ++ nl].
Proof. vm_compute. repeat split; reflexivity. Qed.
