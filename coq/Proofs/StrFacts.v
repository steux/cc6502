(** Lemmas about [String.append], [String.concat] and the string functions of Base/Str.v
    (reversal, prefixes and suffixes, drop / take, decimal printing); lists of names without
    duplicates. *)
From Coq Require Import String Ascii List Bool Arith NArith Lia.
From CC Require Import Base.Str.
Import ListNotations.
Open Scope list_scope.
Open Scope string_scope.

Lemma app_empty_r (a : string) : a ++ "" = a.
Proof. induction a as [|x a IH]; cbn [append]; [reflexivity|]. rewrite IH. reflexivity. Qed.

Lemma app_assoc_s (a b c : string) : (a ++ b) ++ c = a ++ b ++ c.
Proof. induction a as [|x a IH]; cbn [append]; [reflexivity|]. rewrite IH. reflexivity. Qed.

Lemma length_app_s (a b : string) : String.length (a ++ b) = String.length a + String.length b.
Proof. induction a as [|x a IH]; cbn [append String.length]; [reflexivity|]. rewrite IH. reflexivity. Qed.

Lemma concat_cons (x : string) (l : list string) : String.concat "" (x :: l) = x ++ String.concat "" l.
Proof. destruct l; cbn [String.concat]; [rewrite app_empty_r|]; reflexivity. Qed.

Lemma concat_app (a b : list string) :
  String.concat "" (a ++ b)%list = String.concat "" a ++ String.concat "" b.
Proof.
  induction a as [|x a IH]; [reflexivity|].
  cbn [app]. rewrite !concat_cons, IH, app_assoc_s. reflexivity.
Qed.

Lemma rev_aux_app (s acc : string) : rev_string_aux s acc = rev_string_aux s "" ++ acc.
Proof.
  revert acc. induction s as [|a s IH]; intros acc; cbn [rev_string_aux]; [reflexivity|].
  rewrite IH, (IH (String a "")), app_assoc_s. reflexivity.
Qed.

Lemma rev_string_nil : rev_string "" = "".
Proof. reflexivity. Qed.

Lemma rev_string_cons (a : ascii) (s : string) : rev_string (String a s) = rev_string s ++ String a "".
Proof. unfold rev_string. cbn [rev_string_aux]. apply rev_aux_app. Qed.

Lemma rev_string_app (a b : string) : rev_string (a ++ b) = rev_string b ++ rev_string a.
Proof.
  induction a as [|x a IH]; cbn [append].
  - rewrite rev_string_nil, app_empty_r. reflexivity.
  - rewrite !rev_string_cons, IH, app_assoc_s. reflexivity.
Qed.

Lemma rev_string_invol (s : string) : rev_string (rev_string s) = s.
Proof.
  induction s as [|x s IH]; [reflexivity|].
  rewrite rev_string_cons, rev_string_app, IH. reflexivity.
Qed.

Lemma rev_string_length (s : string) : String.length (rev_string s) = String.length s.
Proof.
  induction s as [|x s IH]; [reflexivity|].
  rewrite rev_string_cons, length_app_s, IH. cbn [String.length]. lia.
Qed.

Lemma starts_with_app (p s : string) : starts_with p (p ++ s) = true.
Proof.
  induction p as [|c p IH]; cbn [append starts_with]; [reflexivity|].
  rewrite Ascii.eqb_refl, IH. reflexivity.
Qed.

Lemma starts_with_decomp (p s : string) :
  starts_with p s = true -> s = p ++ string_drop (String.length p) s.
Proof.
  revert s. induction p as [|c p IH]; intros s H; [reflexivity|].
  destruct s as [|d s]; cbn [starts_with] in H; [discriminate|].
  apply andb_true_iff in H. destruct H as [H1 H2].
  apply Ascii.eqb_eq in H1. subst d.
  cbn [String.length string_drop append]. rewrite <- (IH _ H2). reflexivity.
Qed.

Lemma starts_with_app_l (p s x : string) : starts_with p s = true -> starts_with p (s ++ x) = true.
Proof.
  intros H. rewrite (starts_with_decomp _ _ H), app_assoc_s. apply starts_with_app.
Qed.

Lemma starts_with_app_long (p a b : string) :
  String.length p <= String.length a -> starts_with p (a ++ b) = starts_with p a.
Proof.
  revert a. induction p as [|c p IH]; intros a H; [reflexivity|].
  destruct a as [|d a]; cbn [String.length] in H; [lia|].
  cbn [append starts_with]. rewrite IH by lia. reflexivity.
Qed.

Lemma starts_with_prefix_false (p q s : string) :
  starts_with p s = false -> starts_with (p ++ q) s = false.
Proof.
  revert s. induction p as [|a p IH]; intros s H; [discriminate|].
  destruct s as [|b s]; [reflexivity|]. cbn [append starts_with] in *.
  destruct (Ascii.eqb a b); [exact (IH s H)|reflexivity].
Qed.

Lemma drop_length_app (a b : string) : string_drop (String.length a) (a ++ b) = b.
Proof. induction a as [|x a IH]; cbn [String.length append string_drop]; [reflexivity|exact IH]. Qed.

Lemma take_length_app (a b : string) : string_take (String.length a) (a ++ b) = a.
Proof.
  induction a as [|x a IH]; cbn [String.length append string_take]; [reflexivity|].
  rewrite IH. reflexivity.
Qed.

Lemma str_app_inv_head (p a b : string) : p ++ a = p ++ b -> a = b.
Proof. intros H. rewrite <- (drop_length_app p a), H. apply drop_length_app. Qed.

Lemma drop_suffix (n : nat) (s : string) : exists x, s = x ++ string_drop n s.
Proof.
  revert s. induction n as [|n IH]; intros s; [exists ""; reflexivity|].
  destruct s as [|a s]; [exists ""; reflexivity|]. destruct (IH s) as [x Hx].
  exists (String a x). cbn [string_drop append]. rewrite <- Hx. reflexivity.
Qed.

Lemma take_prefix (n : nat) (s : string) : exists x, s = string_take n s ++ x.
Proof.
  revert s. induction n as [|n IH]; intros s; [exists s; reflexivity|].
  destruct s as [|a s]; [exists ""; reflexivity|]. destruct (IH s) as [x Hx].
  exists x. cbn [string_take append]. rewrite <- Hx. reflexivity.
Qed.

Lemma ends_with_app (suf a : string) : ends_with suf (a ++ suf) = true.
Proof. unfold ends_with. rewrite rev_string_app. apply starts_with_app. Qed.

Lemma ends_with_inv (suf s : string) : ends_with suf s = true -> exists p, s = p ++ suf.
Proof.
  unfold ends_with. intros H. apply starts_with_decomp in H.
  exists (rev_string (string_drop (String.length (rev_string suf)) (rev_string s))).
  rewrite <- (rev_string_invol suf) at 2. rewrite <- rev_string_app, <- H, rev_string_invol.
  reflexivity.
Qed.

Lemma strip_suffix_app (b suf : string) : strip_suffix suf (b ++ suf) = Some b.
Proof.
  unfold strip_suffix.
  rewrite ends_with_app, length_app_s, Nat.add_sub, take_length_app. reflexivity.
Qed.

Fixpoint pow10 (k : nat) : N :=
  match k with O => 1%N | S k' => (10 * pow10 k')%N end.

Lemma pos_lt_pow10 : forall p, (Npos p < pow10 (Pos.size_nat p))%N.
Proof.
  induction p as [p IH|p IH|]; cbn [Pos.size_nat pow10].
  - change (N.pos p~1) with (2 * N.pos p + 1)%N. lia.
  - change (N.pos p~0) with (2 * N.pos p)%N. lia.
  - lia.
Qed.

Lemma N_lt_pow10 : forall n, (n < pow10 (S (N.size_nat n)))%N.
Proof.
  intros [|p]; cbn [N.size_nat pow10]; [lia|].
  pose proof (pos_lt_pow10 p). lia.
Qed.

(** [dec_digits f n acc] (Base/Str.v) puts digits of [n] in front of [acc], the last one first, and
    stops after [f] of them; [f] is enough for every [n] below [pow10 f] ([dec_digits_fold],
    [dec_digits_lead]).  One round, with the quotient and the remainder of [n] by 10 as variables: *)
Lemma dec_digits_S : forall f n acc, exists q d, n = (10 * q + d)%N /\ (d < 10)%N /\
  dec_digits (S f) n acc =
    if N.eqb q 0
    then String (ascii_of_N (48 + d)) acc
    else dec_digits f q (String (ascii_of_N (48 + d)) acc).
Proof.
  intros f n acc. exists (n / 10)%N, (n mod 10)%N.
  split; [apply N.div_mod; lia|]. split; [apply N.mod_lt; lia|reflexivity].
Qed.

Lemma digit_char : forall d, (d < 10)%N ->
  is_digit (ascii_of_N (48 + d)) = true /\ N_of_ascii (ascii_of_N (48 + d)) = (48 + d)%N.
Proof.
  intros d Hd. unfold is_digit. rewrite N_ascii_embedding by lia.
  split; [|reflexivity]. apply andb_true_iff. split; apply N.leb_le; lia.
Qed.

(** what holds of [acc] and is kept when a digit is put in front holds of the result *)
Lemma dec_digits_ind (Q : string -> Prop) :
  (forall d s, (d < 10)%N -> Q s -> Q (String (ascii_of_N (48 + d)) s)) ->
  forall f n acc, Q acc -> Q (dec_digits f n acc).
Proof.
  intros HQ. induction f as [|f IH]; intros n acc H; [exact H|].
  destruct (dec_digits_S f n acc) as (q & d & _ & Hd & ->).
  pose proof (HQ d acc Hd H) as H'. destruct (N.eqb q 0); [exact H'|apply IH, H'].
Qed.

(** a reader [g] that goes from left to right and takes a digit [d] as [a * 10 + d] reads [n] *)
Lemma dec_digits_fold (A : Type) (g : string -> N -> A) :
  (forall d s a, (d < 10)%N -> g (String (ascii_of_N (48 + d)) s) a = g s (a * 10 + d)%N) ->
  forall f n acc, (n < pow10 f)%N -> g (dec_digits f n acc) 0%N = g acc n.
Proof.
  intros Hg. induction f as [|f IH]; intros n acc Hn; cbn [pow10] in Hn.
  - f_equal. lia.
  - destruct (dec_digits_S f n acc) as (q & d & -> & Hd & ->).
    destruct (N.eqb_spec q 0) as [E|E]; [|rewrite IH by lia];
      rewrite Hg by exact Hd; f_equal; lia.
Qed.

Lemma dec_digits_lead : forall f n acc, (0 < n)%N -> (n < pow10 f)%N ->
  exists d r, dec_digits f n acc = String (ascii_of_N (48 + d)) r /\ (0 < d)%N /\ (d < 10)%N.
Proof.
  induction f as [|f IH]; intros n acc Hpos Hn; cbn [pow10] in Hn; [lia|].
  destruct (dec_digits_S f n acc) as (q & d & -> & Hd & ->).
  destruct (N.eqb_spec q 0) as [E|E].
  - exists d, acc. split; [reflexivity|lia].
  - apply IH; lia.
Qed.

Lemma existsb_eqb_In : forall x l, existsb (String.eqb x) l = true <-> In x l.
Proof.
  intros x l. rewrite existsb_exists. split.
  - intros [y [Hin E]]. apply String.eqb_eq in E. subst y. exact Hin.
  - intros Hin. exists x. split; [exact Hin|apply String.eqb_refl].
Qed.

(** [NoDup] of a given list of names by evaluation *)
Fixpoint nodupb (l : list string) : bool :=
  match l with
  | [] => true
  | x :: r => negb (existsb (String.eqb x) r) && nodupb r
  end.

Lemma nodupb_sound : forall l, nodupb l = true -> NoDup l.
Proof.
  induction l as [|x l IH]; intros H; [constructor|].
  apply andb_true_iff in H as [Hx Hl]. apply negb_true_iff in Hx.
  constructor; [|exact (IH Hl)].
  intros Hin. apply existsb_eqb_In in Hin. congruence.
Qed.

Lemma nodup_app_disj : forall (a b : list string) t, NoDup (a ++ b) -> In t a -> In t b -> False.
Proof.
  intros a b t Hnd Ha Hb. apply in_split in Ha as [a1 [a2 ->]].
  rewrite <- app_assoc in Hnd. apply NoDup_remove_2 in Hnd.
  apply Hnd. rewrite app_assoc. apply in_or_app. right. exact Hb.
Qed.
