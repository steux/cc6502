(** Output order (property C05).  Tables kept in a hash map are written out sorted by the counter each
    entry got at insertion ([Model/Order.v]).  With distinct counters the sorted sequence does not depend
    on the iteration order; [build] gives distinct counters for every insertion history, so the output
    follows first declaration; [build_old], the code before the repair, does so only for histories
    without re-insertion; [sort_by_order] is a stable sort. *)
From Coq Require Import String List Bool Arith Lia Sorting.Permutation Sorting.Sorted.
From CC Require Import Model.Order.
Import ListNotations.

Lemma insert_sorted_comm : forall (s : list entry) (x y : entry),
    snd x <> snd y ->
    insert_sorted x (insert_sorted y s) = insert_sorted y (insert_sorted x s).
Proof.
  induction s as [|a r IHr]; intros x y Hne; cbn [insert_sorted];
    repeat match goal with
           | |- context [Nat.leb ?u ?v] => destruct (Nat.leb_spec u v); cbn [insert_sorted]
           end; try reflexivity; try lia.
  rewrite (IHr x y Hne). reflexivity.
Qed.

(** if all order numbers are distinct, the sorted sequence does not depend on the iteration order of the table *)
Theorem sort_perm_invariant : forall l1 l2 : list entry,
  Permutation l1 l2 -> NoDup (map snd l1) -> sort_by_order l1 = sort_by_order l2.
Proof.
  intros l1 l2 Hperm. induction Hperm as [| x l l' Hp IH | x y l | l l' l'' Hp1 IH1 Hp2 IH2];
    intros Hnd.
  - reflexivity.
  - simpl. rewrite IH; [reflexivity|]. simpl in Hnd. inversion Hnd; assumption.
  - simpl. apply insert_sorted_comm.
    simpl in Hnd. inversion Hnd as [|a b Hnotin Hnd']. subst.
    intros Heq. apply Hnotin. left. symmetry. exact Heq.
  - rewrite (IH1 Hnd). apply IH2.
    apply Permutation_NoDup with (l := map snd l); [|exact Hnd].
    apply Permutation_map. exact Hp1.
Qed.
Print Assumptions sort_perm_invariant.

Lemma map_snd_combine : forall (A B : Type) (l : list A) (l' : list B),
    length l = length l' -> map snd (combine l l') = l'.
Proof.
  intros A B. induction l as [|a l IHl]; intros l' Hlen; destruct l' as [|b l']; simpl in *;
    try reflexivity; try discriminate.
  f_equal. apply IHl. lia.
Qed.

Lemma map_fst_combine : forall (A B : Type) (l : list A) (l' : list B),
    length l = length l' -> map fst (combine l l') = l.
Proof.
  intros A B. induction l as [|a l IHl]; intros l' Hlen; destruct l' as [|b l']; simpl in *;
    try reflexivity; try discriminate.
  f_equal. apply IHl. lia.
Qed.

Lemma sort_combine_seq : forall (ks : list string) (a : nat),
    sort_by_order (combine ks (seq a (length ks))) = combine ks (seq a (length ks)).
Proof.
  induction ks as [|k ks IHks]; intros a.
  - reflexivity.
  - cbn [length seq combine]. unfold sort_by_order. cbn [fold_right].
    fold (sort_by_order (combine ks (seq (S a) (length ks)))). rewrite IHks.
    destruct ks as [|k' ks].
    + reflexivity.
    + cbn [length seq combine insert_sorted snd].
      assert (Hle : Nat.leb a (S a) = true) by (apply Nat.leb_le; lia).
      rewrite Hle. reflexivity.
Qed.

(** every table of the shape [rev (combine N (seq 0 (length N)))] has distinct orders and sorts
    to the key sequence [N], whatever the iteration order *)
Lemma shape_orders_distinct : forall (N : list string),
    NoDup (map snd (rev (combine N (seq 0 (length N))))).
Proof.
  intros N. rewrite map_rev.
  rewrite map_snd_combine by (rewrite seq_length; reflexivity).
  apply Permutation_NoDup with (l := seq 0 (length N)).
  - apply Permutation_rev.
  - apply seq_NoDup.
Qed.

Lemma shape_sorted : forall (N : list string) (l : list entry),
    Permutation l (rev (combine N (seq 0 (length N)))) ->
    map fst (sort_by_order l) = N.
Proof.
  intros N l Hperm. pose proof (shape_orders_distinct N) as Hd.
  rewrite <- (sort_perm_invariant _ l (Permutation_sym Hperm) Hd).
  rewrite (sort_perm_invariant (rev (combine N (seq 0 (length N)))) (combine N (seq 0 (length N))));
    [| apply Permutation_sym, Permutation_rev | exact Hd].
  rewrite sort_combine_seq. apply map_fst_combine. rewrite seq_length. reflexivity.
Qed.

Lemma existsb_eqb_In : forall (k : string) (l : list string),
    existsb (String.eqb k) l = true <-> In k l.
Proof.
  intros k l. rewrite existsb_exists. split.
  - intros [x [Hin Heq]]. apply String.eqb_eq in Heq. subst x. exact Hin.
  - intros Hin. exists k. split; [exact Hin | apply String.eqb_refl].
Qed.

Lemma existsb_eqb_notIn : forall (k : string) (l : list string),
    existsb (String.eqb k) l = false <-> ~ In k l.
Proof.
  intros k l. rewrite <- existsb_eqb_In. destruct (existsb (String.eqb k) l); intuition congruence.
Qed.

Lemma nodup_first_from_In : forall (ks seen : list string) (x : string),
    In x (nodup_first_from seen ks) <-> In x ks /\ ~ In x seen.
Proof.
  induction ks as [|k r IHr]; intros seen x; cbn [nodup_first_from].
  - cbn [In]. tauto.
  - destruct (existsb (String.eqb k) seen) eqn:Hex.
    + apply existsb_eqb_In in Hex. rewrite IHr. cbn [In].
      split; [tauto | intros [[<-|H1] H2]; tauto].
    + apply existsb_eqb_notIn in Hex. cbn [In]. rewrite IHr. cbn [In].
      destruct (string_dec k x) as [<-|E]; tauto.
Qed.

Lemma nodup_first_from_NoDup : forall (ks seen : list string), NoDup (nodup_first_from seen ks).
Proof.
  induction ks as [|k r IHr]; intros seen; cbn [nodup_first_from].
  - constructor.
  - destruct (existsb (String.eqb k) seen).
    + apply IHr.
    + constructor; [|apply IHr].
      intros Hin. apply nodup_first_from_In in Hin. destruct Hin as [_ Hn].
      apply Hn. left. reflexivity.
Qed.

Lemma nodup_first_from_id : forall (ks seen : list string),
    NoDup ks -> (forall k, In k ks -> ~ In k seen) -> nodup_first_from seen ks = ks.
Proof.
  induction ks as [|k r IHr]; intros seen Hnd Hfresh; cbn [nodup_first_from].
  - reflexivity.
  - inversion Hnd as [|k' r' Hnotin Hnd']. subst.
    assert (Hex : existsb (String.eqb k) seen = false).
    { apply existsb_eqb_notIn. apply Hfresh. left. reflexivity. }
    rewrite Hex. f_equal. apply IHr; [exact Hnd'|].
    intros k' Hk' [E|E].
    + apply Hnotin. rewrite E. exact Hk'.
    + apply (Hfresh k'); [right; exact Hk' | exact E].
Qed.

Theorem nodup_first_In : forall (ks : list string) (x : string), In x (nodup_first ks) <-> In x ks.
Proof.
  intros ks x. unfold nodup_first. rewrite nodup_first_from_In. simpl. tauto.
Qed.
Print Assumptions nodup_first_In.

Theorem nodup_first_NoDup : forall ks : list string, NoDup (nodup_first ks).
Proof. intros ks. apply nodup_first_from_NoDup. Qed.
Print Assumptions nodup_first_NoDup.

Theorem nodup_first_id : forall ks : list string, NoDup ks -> nodup_first ks = ks.
Proof.
  intros ks Hnd. apply nodup_first_from_id; [exact Hnd|]. intros k _ H. destruct H.
Qed.
Print Assumptions nodup_first_id.

(** * The current code: shape of [build] for ANY history *)

Lemma existsb_fst_map : forall (tbl : list entry) (k : string),
    existsb (fun e => String.eqb (fst e) k) tbl = existsb (String.eqb k) (map fst tbl).
Proof.
  induction tbl as [|a tbl IHtbl]; intros k; simpl.
  - reflexivity.
  - rewrite IHtbl. rewrite (String.eqb_sym (fst a) k). reflexivity.
Qed.

Lemma fold_insert_shape : forall (ks : list string) (tbl : list entry),
    fold_left insert_key ks tbl
    = rev (combine (nodup_first_from (map fst tbl) ks)
                   (seq (length tbl) (length (nodup_first_from (map fst tbl) ks)))) ++ tbl.
Proof.
  induction ks as [|k ks IHks]; intros tbl.
  - reflexivity.
  - cbn [fold_left nodup_first_from]. unfold insert_key at 2. rewrite existsb_fst_map.
    destruct (existsb (String.eqb k) (map fst tbl)).
    + apply IHks.
    + rewrite IHks. cbn [map fst length seq combine rev]. rewrite <- app_assoc. reflexivity.
Qed.

Lemma build_shape : forall ks : list string,
    build ks = rev (combine (nodup_first ks) (seq 0 (length (nodup_first ks)))).
Proof.
  intros ks. unfold build, nodup_first. rewrite fold_insert_shape. apply app_nil_r.
Qed.

(** the current code gives distinct orders for every history, re-insertions included *)
Theorem build_orders_distinct : forall ks, NoDup (map snd (build ks)).
Proof.
  intros ks. rewrite build_shape. apply shape_orders_distinct.
Qed.
Print Assumptions build_orders_distinct.

Theorem build_keys_distinct : forall ks, NoDup (map fst (build ks)).
Proof.
  intros ks. rewrite build_shape. rewrite map_rev.
  rewrite map_fst_combine by (rewrite seq_length; reflexivity).
  apply Permutation_NoDup with (l := nodup_first ks).
  - apply Permutation_rev.
  - apply nodup_first_NoDup.
Qed.
Print Assumptions build_keys_distinct.

(** the output order is the order of FIRST declaration, whatever the hash seed, for every history *)
Theorem build_sorted_is_first_declaration_order : forall ks l,
  Permutation l (build ks) -> map fst (sort_by_order l) = nodup_first ks.
Proof.
  intros ks l Hperm. rewrite build_shape in Hperm. apply shape_sorted. exact Hperm.
Qed.
Print Assumptions build_sorted_is_first_declaration_order.

Theorem build_sorted_is_declaration_order : forall ks (l : list entry), NoDup ks -> Permutation l (build ks) ->
  map fst (sort_by_order l) = ks.
Proof.
  intros ks l Hnd Hperm. rewrite (build_sorted_is_first_declaration_order ks l Hperm).
  apply nodup_first_id. exact Hnd.
Qed.
Print Assumptions build_sorted_is_declaration_order.

(** the history that broke the code before the repair *)
Example reinsertion_keeps_order :
  build ["f"; "f"; "g"]%string = [("g", 1); ("f", 0)]%string.
Proof. reflexivity. Qed.
Print Assumptions reinsertion_keeps_order.

(** * The code before the repair: correct only on histories without re-insertion *)

Lemma filter_fresh : forall (tbl : list entry) (k : string),
    ~ In k (map fst tbl) ->
    filter (fun e => negb (String.eqb (fst e) k)) tbl = tbl.
Proof.
  induction tbl as [|a tbl IHtbl]; intros k Hk; simpl.
  - reflexivity.
  - simpl in Hk.
    assert (Hne : fst a <> k) by (intros E; apply Hk; left; exact E).
    apply String.eqb_neq in Hne. rewrite Hne. simpl.
    rewrite IHtbl; [reflexivity|]. intros Hin. apply Hk. right. exact Hin.
Qed.

(** on a history without re-insertion the old code is the new code *)
Lemma fold_old_is_new : forall (ks : list string) (tbl : list entry),
    NoDup ks -> (forall k, In k ks -> ~ In k (map fst tbl)) ->
    fold_left insert_key_old ks tbl = fold_left insert_key ks tbl.
Proof.
  induction ks as [|k ks IHks]; intros tbl Hnd Hfresh; [reflexivity|].
  inversion Hnd as [|k' ks' Hnotin Hnd']. subst.
  assert (Hk : ~ In k (map fst tbl)) by (apply Hfresh; left; reflexivity).
  cbn [fold_left]. unfold insert_key_old at 2, insert_key at 2.
  rewrite (filter_fresh _ _ Hk), existsb_fst_map, (proj2 (existsb_eqb_notIn _ _) Hk).
  apply IHks; [exact Hnd'|].
  intros k' Hk' [E|E]; [apply Hnotin; cbn in E; rewrite E; exact Hk' | exact (Hfresh k' (or_intror Hk') E)].
Qed.

Lemma build_old_is_build : forall ks, NoDup ks -> build_old ks = build ks.
Proof. intros ks Hnd. apply fold_old_is_new; [exact Hnd | intros k _ []]. Qed.

Theorem old_build_orders_distinct : forall ks, NoDup ks -> NoDup (map snd (build_old ks)).
Proof. intros ks Hnd. rewrite (build_old_is_build ks Hnd). apply build_orders_distinct. Qed.
Print Assumptions old_build_orders_distinct.

Theorem old_build_sorted_is_declaration_order : forall ks (l : list entry),
  NoDup ks -> Permutation l (build_old ks) -> map fst (sort_by_order l) = ks.
Proof.
  intros ks l Hnd Hperm. rewrite (build_old_is_build ks Hnd) in Hperm.
  exact (build_sorted_is_declaration_order ks l Hnd Hperm).
Qed.
Print Assumptions old_build_sorted_is_declaration_order.

(** The defect: re-insertion makes the length-based counter repeat a number.
    Prototype of f (order 0), then definition of f (replaces the entry, order = length = 1), then g
   (order = length = 1 again): the two entries of the final table share order 1. *)
Example old_reinsertion_ties :
  build_old ["f"; "f"; "g"]%string = [("g", 1); ("f", 1)]%string /\
  map snd (build_old ["f"; "f"; "g"]%string) = [1; 1].
Proof. split; reflexivity. Qed.
Print Assumptions old_reinsertion_ties.

(** two iteration orders of that same table give two different outputs *)
Example old_reinsertion_order_depends_on_iteration :
  exists l1 l2, Permutation l1 (build_old ["f"; "f"; "g"]%string) /\
                Permutation l2 (build_old ["f"; "f"; "g"]%string) /\
                map fst (sort_by_order l1) <> map fst (sort_by_order l2).
Proof.
  exists [("g", 1); ("f", 1)]%string, [("f", 1); ("g", 1)]%string.
  split; [apply Permutation_refl|].
  split; [apply perm_swap|].
  vm_compute. intros H. discriminate H.
Qed.
Print Assumptions old_reinsertion_order_depends_on_iteration.

(** * [sort_by_order] really is a stable sort (documentation of the choice made in Model/Order.v) *)

Lemma insert_sorted_perm : forall (e : entry) (l : list entry),
    Permutation (e :: l) (insert_sorted e l).
Proof.
  intros e. induction l as [|x r IHr]; cbn [insert_sorted].
  - apply Permutation_refl.
  - destruct (Nat.leb (snd e) (snd x)).
    + apply Permutation_refl.
    + eapply perm_trans; [apply perm_swap|]. apply perm_skip. exact IHr.
Qed.

Theorem sort_by_order_perm : forall l : list entry, Permutation l (sort_by_order l).
Proof.
  induction l as [|x l IHl]; simpl.
  - apply perm_nil.
  - eapply perm_trans; [apply perm_skip; exact IHl|]. apply insert_sorted_perm.
Qed.
Print Assumptions sort_by_order_perm.

Definition le_order (a b : entry) : Prop := snd a <= snd b.

Lemma insert_sorted_sorted : forall (e : entry) (l : list entry),
    Sorted le_order l -> Sorted le_order (insert_sorted e l).
Proof.
  intros e. induction l as [|x r IHr]; intros Hs; cbn [insert_sorted].
  - constructor; constructor.
  - destruct (Nat.leb (snd e) (snd x)) eqn:Hleb.
    + apply Nat.leb_le in Hleb. constructor; [exact Hs|]. constructor. exact Hleb.
    + apply Nat.leb_gt in Hleb. inversion Hs as [|x' r' Hsr Hhd]. subst.
      constructor; [apply IHr; exact Hsr|].
      destruct r as [|y r]; cbn [insert_sorted].
      * constructor. unfold le_order. lia.
      * destruct (Nat.leb (snd e) (snd y)).
        -- constructor. unfold le_order. lia.
        -- constructor. inversion Hhd. assumption.
Qed.

Theorem sort_by_order_sorted : forall l : list entry, Sorted le_order (sort_by_order l).
Proof.
  induction l as [|x l IHl]; simpl.
  - constructor.
  - apply insert_sorted_sorted. exact IHl.
Qed.
Print Assumptions sort_by_order_sorted.

(** stability: for every order number n, the entries carrying n appear in the output in exactly
   the sequence in which they appeared in the input *)
Lemma insert_sorted_filter : forall (n : nat) (e : entry) (l : list entry),
    filter (fun x => Nat.eqb (snd x) n) (insert_sorted e l)
    = filter (fun x => Nat.eqb (snd x) n) (e :: l).
Proof.
  intros n e. induction l as [|x r IHr]; cbn [insert_sorted].
  - reflexivity.
  - destruct (Nat.leb (snd e) (snd x)) eqn:Hleb.
    + reflexivity.
    + apply Nat.leb_gt in Hleb. cbn [filter] in *. rewrite IHr.
      destruct (Nat.eqb (snd e) n) eqn:He; [|reflexivity].
      apply Nat.eqb_eq in He.
      assert (Hx : Nat.eqb (snd x) n = false) by (apply Nat.eqb_neq; lia).
      rewrite Hx. reflexivity.
Qed.

Theorem sort_by_order_stable : forall (n : nat) (l : list entry),
    filter (fun x => Nat.eqb (snd x) n) (sort_by_order l)
    = filter (fun x => Nat.eqb (snd x) n) l.
Proof.
  intros n. induction l as [|x l IHl]; simpl.
  - reflexivity.
  - rewrite insert_sorted_filter. cbn [filter]. rewrite IHl. reflexivity.
Qed.
Print Assumptions sort_by_order_stable.
