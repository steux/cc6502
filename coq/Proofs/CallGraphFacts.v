(** Facts about the depth-first marking of [Model/CallGraph.v]:
    the published in-use set is exactly reachability, and it has no duplicates. *)
From Coq Require Import String List Bool Arith Lia.
From CC Require Import Model.CallGraph.
Import ListNotations.

Lemma mem_In : forall (f : string) (l : list string), mem f l = true <-> In f l.
Proof.
  intros f l. unfold mem. rewrite existsb_exists. split.
  - intros [x [Hin Heq]]. apply String.eqb_eq in Heq. subst x. exact Hin.
  - intros Hin. exists f. split; [exact Hin | apply String.eqb_refl].
Qed.

Lemma mem_false : forall (f : string) (l : list string), mem f l = false <-> ~ In f l.
Proof.
  intros f l. rewrite <- mem_In. destruct (mem f l); intuition congruence.
Qed.

Lemma mem_cons : forall (a f : string) (seen : list string),
  mem a (f :: seen) = (String.eqb a f || mem a seen)%bool.
Proof. intros a f seen. reflexivity. Qed.

(** an invariant of the accumulator is an invariant of the fold *)
Lemma fold_left_inv : forall (A B : Type) (f : A -> B -> A) (P : A -> Prop) (l : list B) (a : A),
    P a -> (forall a b, In b l -> P a -> P (f a b)) -> P (fold_left f l a).
Proof.
  intros A B f P l. induction l as [|b l IHl]; intros a Ha Hstep; cbn [fold_left]; [exact Ha|].
  apply IHl.
  - apply Hstep; [left; reflexivity | exact Ha].
  - intros a' b' Hb'. apply Hstep. right. exact Hb'.
Qed.

(** * Soundness: everything marked satisfies any predicate closed under [children]
      that holds of the start node and of the already-marked nodes.  No fuel condition. *)

Section Sound.
  Variable t : tree.
  Variable P : string -> Prop.
  Hypothesis P_step : forall x g, P x -> In g (children t x) -> P g.

  Lemma visit_sound : forall (k : nat) (f : string) (seen : list string),
      P f -> (forall x, In x seen -> P x) ->
      forall x, In x (visit k t f seen) -> P x.
  Proof.
    induction k as [|k IHk]; intros f seen Hf Hseen; cbn [visit]; [exact Hseen|].
    destruct (mem f seen); [exact Hseen|].
    apply (fold_left_inv _ _ _ (fun acc => forall x, In x acc -> P x)).
    - intros y [<-|Hy]; [exact Hf | apply Hseen; exact Hy].
    - intros acc g Hg Hacc. apply IHk; [apply (P_step f); assumption | exact Hacc].
  Qed.
End Sound.

Lemma visit_nodup : forall (t : tree) (k : nat) (f : string) (seen : list string),
    NoDup seen -> NoDup (visit k t f seen).
Proof.
  intros t. induction k as [|k IHk]; intros f seen Hnd; cbn [visit]; [exact Hnd|].
  destruct (mem f seen) eqn:Hm; [exact Hnd|].
  apply fold_left_inv.
  - constructor; [apply mem_false; exact Hm | exact Hnd].
  - intros acc g _. apply IHk.
Qed.

(** * Completeness of [visit] with enough fuel.  The marked list has no duplicates and stays inside
      the universe [U], so its length is the measure ([NoDup_incl_length]). *)

Section Complete.
  Variable t : tree.
  Variable U : list string.
  Hypothesis U_closed : forall x g, In g (children t x) -> In g U.

  (** every node of [R] that was not already in [seen] has all its children in [R] *)
  Definition newclosed (seen R : list string) : Prop :=
    forall x, In x R -> ~ In x seen -> forall g, In g (children t x) -> In g R.

  Definition room (k : nat) (seen : list string) : Prop :=
    NoDup seen /\ incl seen U /\ length U < k + length seen.

  Lemma room_visit : forall k j f seen,
      room k seen -> In f U -> incl seen (visit j t f seen) -> room k (visit j t f seen).
  Proof.
    intros k j f seen (N & I & L) Hf Hincl. split; [apply visit_nodup; exact N|]. split.
    - intros x. apply (visit_sound t (fun x => In x U) (fun y g _ => U_closed y g)); [exact Hf | exact I].
    - pose proof (NoDup_incl_length N Hincl). lia.
  Qed.

  Lemma fold_complete : forall (k : nat)
      (IH : forall f seen, In f U -> room k seen ->
              incl seen (visit k t f seen) /\ In f (visit k t f seen) /\
              newclosed seen (visit k t f seen))
      (gs acc : list string),
      (forall g, In g gs -> In g U) -> room k acc ->
      incl acc (fold_left (fun acc g => visit k t g acc) gs acc) /\
      (forall g, In g gs -> In g (fold_left (fun acc g => visit k t g acc) gs acc)) /\
      newclosed acc (fold_left (fun acc g => visit k t g acc) gs acc).
  Proof.
    intros k IH gs. induction gs as [|a gs IHgs]; intros acc Hgs Hfuel; simpl.
    - split; [apply incl_refl|]. split.
      + intros g Hg. destruct Hg.
      + intros x Hx Hnx. contradiction.
    - assert (Ha : In a U) by (apply Hgs; left; reflexivity).
      destruct (IH a acc Ha Hfuel) as (I1 & I2 & I3).
      destruct (IHgs (visit k t a acc)) as (J1 & J2 & J3).
      { intros g Hg. apply Hgs. right. exact Hg. }
      { apply room_visit; assumption. }
      split.
      { eapply incl_tran; eassumption. }
      split.
      { intros g [Hg|Hg].
        - subst g. apply J1. exact I2.
        - apply J2. exact Hg. }
      intros x Hx Hnx g Hg.
      destruct (in_dec string_dec x (visit k t a acc)) as [Hin|Hnin].
      + apply J1. apply (I3 x Hin Hnx g Hg).
      + apply (J3 x Hx Hnin g Hg).
  Qed.

  Lemma visit_complete : forall (k : nat) (f : string) (seen : list string),
      In f U -> room k seen ->
      incl seen (visit k t f seen) /\ In f (visit k t f seen) /\
      newclosed seen (visit k t f seen).
  Proof.
    induction k as [|k IHk]; intros f seen HfU (N & I & L).
    - pose proof (NoDup_incl_length N I). lia.
    - simpl. destruct (mem f seen) eqn:Hm.
      + split; [apply incl_refl|]. split.
        * apply mem_In. exact Hm.
        * intros x Hx Hnx. contradiction.
      + apply mem_false in Hm.
        destruct (fold_complete k IHk (children t f) (f :: seen)) as (J1 & J2 & J3).
        { intros g Hg. apply U_closed with (x := f). exact Hg. }
        { split; [constructor; assumption|]. split; [|cbn [length]; lia].
          intros x [<-|Hx]; [exact HfU | apply I; exact Hx]. }
        split.
        { intros x Hx. apply J1. right. exact Hx. }
        split.
        { apply J1. left. reflexivity. }
        intros x Hx Hnx g Hg.
        destruct (string_dec x f) as [Heq|Hne].
        * subst x. apply J2. exact Hg.
        * apply (J3 x Hx).
          { intros [E|E]; [apply Hne; symmetry; exact E | apply Hnx; exact E]. }
          exact Hg.
  Qed.
End Complete.
Lemma children_in_names : forall (t : tree) (x g : string),
    In g (children t x) -> In g (names t).
Proof.
  induction t as [|[h cs] t IHt]; intros x g Hg; simpl in Hg.
  - destruct Hg.
  - unfold names. simpl. fold (names t).
    destruct (String.eqb x h).
    + right. apply in_or_app. left. exact Hg.
    + right. apply in_or_app. right. apply IHt with (x := x). exact Hg.
Qed.

(** soundness and completeness of the depth-first marking: the published in-use set is exactly the
   set of functions reachable from the roots through the call tree, for every finite tree (cycles,
   self-calls, names missing from the tree, duplicates included) *)
Theorem in_use_is_reachability : forall (t : tree) (roots : list string) (f : string),
  In f (in_use t roots) <-> reach t roots f.
Proof.
  intros t roots f. unfold in_use.
  set (K := S (length (names t) + length roots)).
  split.
  - (* soundness *)
    revert f. apply (fold_left_inv _ _ _ (fun acc => forall x, In x acc -> reach t roots x)).
    + intros x [].
    + intros acc r Hr Hacc.
      apply (visit_sound t _ (reach_step t roots)); [apply reach_root; exact Hr | exact Hacc].
  - (* completeness *)
    intros Hreach.
    set (U := names t ++ roots).
    assert (U_closed : forall x g, In g (children t x) -> In g U).
    { intros x g Hg. apply in_or_app. left. apply children_in_names with (x := x). exact Hg. }
    destruct (fold_complete t U U_closed K (visit_complete t U U_closed K) roots []) as (J1 & J2 & J3).
    { intros g Hg. apply in_or_app. right. exact Hg. }
    { split; [constructor|]. split; [intros x []|]. unfold K, U. rewrite app_length. cbn [length]. lia. }
    induction Hreach as [r Hr | x g Hx IHx Hg].
    + apply J2. exact Hr.
    + apply (J3 x IHx (fun H => H) g Hg).
Qed.
Print Assumptions in_use_is_reachability.

Theorem in_use_nodup : forall t roots, NoDup (in_use t roots).
Proof.
  intros t roots. unfold in_use.
  apply fold_left_inv; [constructor | intros acc r _; apply visit_nodup].
Qed.
Print Assumptions in_use_nodup.
