(** Facts about the comparison-lowering tables of the generator (Model/GenTables.v): the flags
    after CMP, correctness of the emitted branch sequences w.r.t. the 6502 semantics
    ([branch_taken], through [frag_flow]) for unsigned comparisons, for signed comparisons under
    the no-overflow hypothesis (and the refutation without it), the CMP-less comparison with 0,
    and the negation / operand-swap tables. *)
From Coq Require Import String List Bool NArith ZArith Lia ZifyBool.
From CC Require Import Base.Str Asm.Lines M6502.Isa Asm.Operand M6502.Sem Model.CheckBranches
  Model.CbSpec Model.GenTables Proofs.ExecFacts.
Import ListNotations.
Open Scope Z_scope.

Lemma cmp_fC : forall s a b, fC (cmp s a b) = (b <=? a).
Proof. intros s a b. unfold cmp, set_nz, set_c; cbn [fC]. lia. Qed.
Print Assumptions cmp_fC.

Lemma cmp_fZ : forall s a b, 0 <= a < 256 -> 0 <= b < 256 -> fZ (cmp s a b) = (a =? b).
Proof. intros s. exact byte_sub_eq0. Qed.
Print Assumptions cmp_fZ.

Lemma cmp_fN : forall s a b, fN (cmp s a b) = bit7 (byte (a - b)).
Proof. intros s a b. reflexivity. Qed.
Print Assumptions cmp_fN.

Theorem cmp_flags_spec : forall s a b, 0 <= a < 256 -> 0 <= b < 256 ->
  fC (cmp s a b) = (b <=? a) /\ fZ (cmp s a b) = (a =? b) /\ fN (cmp s a b) = bit7 (byte (a - b)).
Proof.
  intros s a b Ha Hb. split; [apply cmp_fC | split; [apply cmp_fZ; assumption | apply cmp_fN]].
Qed.
Print Assumptions cmp_flags_spec.

Lemma cmp_fN_signed : forall s a b, 0 <= a < 256 -> 0 <= b < 256 ->
  -128 <= sgn a - sgn b <= 127 ->
  fN (cmp s a b) = (sgn a <? sgn b).
Proof.
  intros s a b Ha Hb. rewrite cmp_fN. unfold sgn. arith_tac.
Qed.
Print Assumptions cmp_fN_signed.

Lemma sgn_eqb : forall a b, 0 <= a < 256 -> 0 <= b < 256 -> (sgn a =? sgn b) = (a =? b).
Proof.
  intros a b Ha Hb. unfold sgn. arith_tac.
Qed.
Print Assumptions sgn_eqb.

Definition seq_cond (o : relop) (signed : bool) (st : mstate) : bool :=
  match o with
  | REq => fZ st
  | RNeq => negb (fZ st)
  | RLt => if signed then fN st else negb (fC st)
  | RGt => negb (fZ st) && (if signed then negb (fN st) else fC st)
  | RLte => (if signed then fN st else negb (fC st)) || fZ st
  | RGte => if signed then negb (fN st) else fC st
  end.

Lemma eqb_here_label : forall label here : string, label <> here -> String.eqb here label = false.
Proof. intros label here Hne. apply String.eqb_neq. congruence. Qed.

(** one-step equations for [frag_flow] / [drop_to_label]: the fragments are unfolded by rewriting
    (reducing [frag_flow] on a fragment guarded by a stuck string comparison blows up) *)
Lemma ff_nil : forall f st, frag_flow (S f) st [] = ExitFall.
Proof. reflexivity. Qed.
Lemma ff_lbl : forall f st l r, frag_flow (S f) st (Lbl l :: r) = frag_flow f st r.
Proof. reflexivity. Qed.
Lemma ff_br : forall f st m l p r, is_cond_branch m = true ->
  frag_flow (S f) st (br m l p :: r)
  = if branch_taken m st
    then match drop_to_label l r with Some r' => frag_flow f st r' | None => ExitLabel l end
    else frag_flow f st r.
Proof. intros f st m l p r Hm. cbn [frag_flow br i_mn i_op]. rewrite Hm. reflexivity. Qed.
Lemma dl_nil : forall l, drop_to_label l [] = None.
Proof. reflexivity. Qed.
Lemma dl_br : forall l m l' p r, drop_to_label l (br m l' p :: r) = drop_to_label l r.
Proof. reflexivity. Qed.
Lemma dl_lbl_eq : forall l r, drop_to_label l (Lbl l :: r) = Some r.
Proof. intros l r. cbn [drop_to_label defines]. rewrite String.eqb_refl. reflexivity. Qed.
Lemma dl_lbl_ne : forall l l' r, String.eqb l' l = false ->
  drop_to_label l (Lbl l' :: r) = drop_to_label l r.
Proof. intros l l' r Hne. cbn [drop_to_label defines]. rewrite Hne. reflexivity. Qed.

#[local] Hint Rewrite ff_nil ff_lbl dl_nil dl_br dl_lbl_eq : ff.
#[local] Hint Rewrite ff_br using reflexivity : ff.
#[local] Hint Rewrite dl_lbl_ne using assumption : ff.

Lemma branch_seq_flow : forall o signed st label here, label <> here ->
  frag_flow 8 st (branch_seq o signed label here)
  = if seq_cond o signed st then ExitLabel label else ExitFall.
Proof.
  intros o signed st label here Hne.
  pose proof (eqb_here_label label here Hne) as Hhl.
  destruct o, signed; cbn [branch_seq seq_cond]; autorewrite with ff; cbn [branch_taken];
    destruct (fZ st), (fN st), (fC st); reflexivity.
Qed.
Print Assumptions branch_seq_flow.

Definition alt_cond (o : relop) (signed : bool) (st : mstate) : bool :=
  match o with
  | REq => fZ st
  | RNeq => negb (fZ st)
  | RLt => fN st
  | RGt => if signed then negb (fZ st) && negb (fN st) else false
  | RLte => (if signed then fN st else false) || fZ st
  | RGte => negb (fN st)
  end.

Lemma branch_seq_alt_flow : forall o signed st label here, label <> here ->
  frag_flow 8 st (branch_seq_alt o signed label here)
  = if alt_cond o signed st then ExitLabel label else ExitFall.
Proof.
  intros o signed st label here Hne.
  pose proof (eqb_here_label label here Hne) as Hhl.
  destruct o, signed; cbn [branch_seq_alt alt_cond app]; autorewrite with ff; cbn [branch_taken];
    destruct (fZ st), (fN st); reflexivity.
Qed.
Print Assumptions branch_seq_alt_flow.

Lemma seq_cond_cmp : forall o s a b, 0 <= a < 256 -> 0 <= b < 256 ->
  seq_cond o false (cmp s a b) = rel_holds o a b.
Proof.
  intros o s a b Ha Hb.
  destruct o; cbn [seq_cond rel_holds]; rewrite ?cmp_fC, ?(cmp_fZ s a b Ha Hb); lia.
Qed.

Theorem branch_seq_unsigned_correct : forall o s a b label here,
  0 <= a < 256 -> 0 <= b < 256 -> label <> here ->
  frag_flow 8 (cmp s a b) (branch_seq o false label here)
  = if rel_holds o a b then ExitLabel label else ExitFall.
Proof.
  intros o s a b label here Ha Hb Hne.
  rewrite (branch_seq_flow o false (cmp s a b) label here Hne), (seq_cond_cmp o s a b Ha Hb).
  reflexivity.
Qed.
Print Assumptions branch_seq_unsigned_correct.

Theorem branch_seq_signed_correct : forall o s a b label here,
  0 <= a < 256 -> 0 <= b < 256 -> label <> here ->
  -128 <= sgn a - sgn b <= 127 ->
  frag_flow 8 (cmp s a b) (branch_seq o true label here)
  = if rel_holds o (sgn a) (sgn b) then ExitLabel label else ExitFall.
Proof.
  intros o s a b label here Ha Hb Hne Hnov.
  rewrite (branch_seq_flow o true (cmp s a b) label here Hne).
  assert (Hc : seq_cond o true (cmp s a b) = rel_holds o (sgn a) (sgn b)).
  { destruct o; cbn [seq_cond rel_holds];
      rewrite ?(cmp_fN_signed s a b Ha Hb Hnov), ?(cmp_fZ s a b Ha Hb), <- ?(sgn_eqb a b Ha Hb); lia. }
  rewrite Hc. reflexivity.
Qed.
Print Assumptions branch_seq_signed_correct.

(** * the known defect: without the no-overflow hypothesis the signed sequence is wrong.
    a = 128 (i.e. -128), b = 1, "<": C says -128 < 1 holds, the emitted BMI is not taken
    (128 - 1 = 127 has bit 7 clear) and control falls through. *)
Definition st0 : mstate := mkS 0 0 0 255 false false false false mem_empty.

Example branch_seq_signed_refuted :
  0 <= 128 < 256 /\ 0 <= 1 < 256 /\ "label"%string <> "here"%string /\
  rel_holds RLt (sgn 128) (sgn 1) = true /\
  frag_flow 8 (cmp st0 128 1) (branch_seq RLt true "label" "here") = ExitFall /\
  ~ (-128 <= sgn 128 - sgn 1 <= 127).
Proof.
  repeat split; try discriminate.
  vm_compute. intros [H _]. apply H. reflexivity.
Qed.
Print Assumptions branch_seq_signed_refuted.

(** the general statement (G3 without the hypothesis) is therefore false *)
Theorem branch_seq_signed_needs_no_overflow :
  ~ (forall o s a b label here, 0 <= a < 256 -> 0 <= b < 256 -> label <> here ->
       frag_flow 8 (cmp s a b) (branch_seq o true label here)
       = if rel_holds o (sgn a) (sgn b) then ExitLabel label else ExitFall).
Proof.
  intros H. destruct branch_seq_signed_refuted as (Ha & Hb & Hne & Hrel & Hflow & _).
  rewrite (H _ _ _ _ _ _ Ha Hb Hne), Hrel in Hflow. discriminate Hflow.
Qed.
Print Assumptions branch_seq_signed_needs_no_overflow.

(** and the failure is not confined to "<": every ordering operator has an overflow witness *)
Example branch_seq_signed_refuted_all_orderings :
  frag_flow 8 (cmp st0 128 1) (branch_seq RLt true "label" "here") = ExitFall
    /\ rel_holds RLt (sgn 128) (sgn 1) = true /\
  frag_flow 8 (cmp st0 128 1) (branch_seq RLte true "label" "here") = ExitFall
    /\ rel_holds RLte (sgn 128) (sgn 1) = true /\
  frag_flow 8 (cmp st0 1 128) (branch_seq RGt true "label" "here") = ExitFall
    /\ rel_holds RGt (sgn 1) (sgn 128) = true /\
  frag_flow 8 (cmp st0 1 128) (branch_seq RGte true "label" "here") = ExitFall
    /\ rel_holds RGte (sgn 1) (sgn 128) = true.
Proof. vm_compute. repeat split; reflexivity. Qed.
Print Assumptions branch_seq_signed_refuted_all_orderings.

(** * comparison with the constant 0 without CMP; the flags describe the loaded byte [v] *)

Lemma set_nz_fN : forall s v, fN (set_nz s v) = (128 <=? v).
Proof. reflexivity. Qed.
Lemma set_nz_fZ : forall s v, fZ (set_nz s v) = (v =? 0).
Proof. reflexivity. Qed.

Theorem branch_seq_alt_signed_correct : forall o s v label here, 0 <= v < 256 -> label <> here ->
  frag_flow 8 (set_nz s v) (branch_seq_alt o true label here)
  = if rel_holds o (sgn v) 0 then ExitLabel label else ExitFall.
Proof.
  intros o s v label here Hv Hne.
  rewrite (branch_seq_alt_flow o true (set_nz s v) label here Hne).
  assert (Hc : alt_cond o true (set_nz s v) = rel_holds o (sgn v) 0).
  { destruct o; cbn [alt_cond rel_holds]; rewrite ?set_nz_fN, ?set_nz_fZ; unfold sgn; arith_tac. }
  rewrite Hc. reflexivity.
Qed.
Print Assumptions branch_seq_alt_signed_correct.

(** which unsigned cells of the alt table are right: ==, != and <= (v <= 0 iff v = 0) *)
Definition alt_unsigned_ok (o : relop) : bool :=
  match o with REq | RNeq | RLte => true | RLt | RGt | RGte => false end.

Theorem branch_seq_alt_unsigned_correct : forall o s v label here,
  alt_unsigned_ok o = true -> 0 <= v < 256 -> label <> here ->
  frag_flow 8 (set_nz s v) (branch_seq_alt o false label here)
  = if rel_holds o v 0 then ExitLabel label else ExitFall.
Proof.
  intros o s v label here Hok Hv Hne.
  rewrite (branch_seq_alt_flow o false (set_nz s v) label here Hne).
  assert (Hc : alt_cond o false (set_nz s v) = rel_holds o v 0).
  { destruct o; try discriminate Hok; cbn [alt_cond rel_holds];
      rewrite ?set_nz_fN, ?set_nz_fZ; arith_tac. }
  rewrite Hc. reflexivity.
Qed.
Print Assumptions branch_seq_alt_unsigned_correct.

(** the three other cells are wrong:
    - "<" : unsigned v < 0 never holds, but BMI is taken for v = 128;
    - ">" : unsigned v > 0 holds for v = 1, but the sequence [BEQ here; here:] never branches;
    - ">=": unsigned v >= 0 always holds, but BPL is not taken for v = 128. *)
Example branch_seq_alt_unsigned_lt_refuted :
  rel_holds RLt 128 0 = false /\
  frag_flow 8 (set_nz st0 128) (branch_seq_alt RLt false "label" "here") = ExitLabel "label".
Proof. vm_compute. split; reflexivity. Qed.
Print Assumptions branch_seq_alt_unsigned_lt_refuted.

Example branch_seq_alt_unsigned_gt_refuted :
  rel_holds RGt 1 0 = true /\
  frag_flow 8 (set_nz st0 1) (branch_seq_alt RGt false "label" "here") = ExitFall.
Proof. vm_compute. split; reflexivity. Qed.
Print Assumptions branch_seq_alt_unsigned_gt_refuted.

Theorem branch_seq_alt_unsigned_gt_never_branches : forall st label here, label <> here ->
  frag_flow 8 st (branch_seq_alt RGt false label here) = ExitFall.
Proof.
  intros st label here Hne. rewrite (branch_seq_alt_flow RGt false st label here Hne). reflexivity.
Qed.
Print Assumptions branch_seq_alt_unsigned_gt_never_branches.

Example branch_seq_alt_unsigned_gte_refuted :
  rel_holds RGte 128 0 = true /\
  frag_flow 8 (set_nz st0 128) (branch_seq_alt RGte false "label" "here") = ExitFall.
Proof. vm_compute. split; reflexivity. Qed.
Print Assumptions branch_seq_alt_unsigned_gte_refuted.

Theorem branch_seq_alt_unsigned_cells : forall o,
  (forall s v label here, 0 <= v < 256 -> label <> here ->
     frag_flow 8 (set_nz s v) (branch_seq_alt o false label here)
     = if rel_holds o v 0 then ExitLabel label else ExitFall)
  <-> alt_unsigned_ok o = true.
Proof.
  intros o. split.
  - intros H.
    assert (R : forall v, 0 <= v < 256 ->
              frag_flow 8 (set_nz st0 v) (branch_seq_alt o false "label" "here")
              = if rel_holds o v 0 then ExitLabel "label" else ExitFall)
      by (intros v Hv; apply H; [exact Hv | discriminate]).
    destruct o; try reflexivity; exfalso.
    + destruct branch_seq_alt_unsigned_lt_refuted as [Hrel Hflow].
      rewrite R, Hrel in Hflow by lia. discriminate Hflow.
    + destruct branch_seq_alt_unsigned_gt_refuted as [Hrel Hflow].
      rewrite R, Hrel in Hflow by lia. discriminate Hflow.
    + destruct branch_seq_alt_unsigned_gte_refuted as [Hrel Hflow].
      rewrite R, Hrel in Hflow by lia. discriminate Hflow.
  - intros Hok s v label here Hv Hne.
    apply branch_seq_alt_unsigned_correct; assumption.
Qed.
Print Assumptions branch_seq_alt_unsigned_cells.

(** the unsigned alt sequences for "<" and ">=" are right on the bytes below 128 only *)
Theorem branch_seq_alt_unsigned_small : forall o s v label here,
  o <> RGt -> 0 <= v < 128 -> label <> here ->
  frag_flow 8 (set_nz s v) (branch_seq_alt o false label here)
  = if rel_holds o v 0 then ExitLabel label else ExitFall.
Proof.
  intros o s v label here Ho Hv Hne.
  rewrite (branch_seq_alt_flow o false (set_nz s v) label here Hne).
  assert (Hc : alt_cond o false (set_nz s v) = rel_holds o v 0).
  { destruct o; try congruence; cbn [alt_cond rel_holds];
      rewrite ?set_nz_fN, ?set_nz_fZ; arith_tac. }
  rewrite Hc. reflexivity.
Qed.
Print Assumptions branch_seq_alt_unsigned_small.

Theorem negate_op_correct : forall o a b, rel_holds (negate_op o) a b = negb (rel_holds o a b).
Proof. intros o a b. destruct o; cbn [negate_op rel_holds]; lia. Qed.
Print Assumptions negate_op_correct.

Theorem switch_op_correct : forall o a b, rel_holds (switch_op o) b a = rel_holds o a b.
Proof. intros o a b. destruct o; cbn [switch_op rel_holds]; lia. Qed.
Print Assumptions switch_op_correct.

Theorem negate_op_involutive : forall o, negate_op (negate_op o) = o.
Proof. destruct o; reflexivity. Qed.
Print Assumptions negate_op_involutive.

Theorem switch_op_involutive : forall o, switch_op (switch_op o) = o.
Proof. destruct o; reflexivity. Qed.
Print Assumptions switch_op_involutive.
