(** Semantic facts about inlining, on the executable 6502 semantics of [M6502/Sem.v]:

    (A) renaming the local labels of a piece of code injectively does not change its behaviour
        (the renaming keeps the [protected] flag of every instruction, so that the two traces
        have the same events in the same order; the only difference is the raw operand text
        inside the events of the renamed, protected, branch/JMP instructions);
    (B) a closed piece of code whose labels are fresh behaves inside a larger code exactly as
        it behaves standalone, until it reaches its end;
    (C) the block that [push_code] appends to its destination executes like the body it was
        made from and arrives just after the [.endofinline<n>] label.

    "Standalone" execution is given by [runb], the interpreter [run] of [Sem.v] written as the
    iteration of a one-step function, with a call depth: at depth 0, running past the last line
    is a result of its own ([BEnd]) instead of [Halt]/[Faulted].  [run_runb] shows that [runb]
    is [run] (for the depth [length stack]). *)
From Coq Require Import String Ascii List Bool NArith ZArith Lia.
From CC Require Import Base.Str Asm.Lines M6502.Isa Asm.Operand M6502.Sem.
From CC Require Import Model.InlineRename Model.CbSpec Model.WfCode.
From CC Require Import Proofs.StrFacts Proofs.ExecFacts Proofs.CbFacts Proofs.InlineFacts.
Import ListNotations.
Open Scope string_scope.
Open Scope list_scope.
Open Scope nat_scope.

Lemma Forall2_nth_error : forall (A B : Type) (R : A -> B -> Prop) l l' n,
  Forall2 R l l' ->
  match nth_error l n, nth_error l' n with
  | Some x, Some x' => R x x'
  | None, None => True
  | _, _ => False
  end.
Proof.
  intros A B R l l' n H. revert n.
  induction H as [|a b l l' Hab H IH]; intros [|n]; cbn [nth_error]; [exact I|exact I|exact Hab|apply IH].
Qed.

Lemma Forall2_len : forall (A B : Type) (R : A -> B -> Prop) l l',
  Forall2 R l l' -> length l = length l'.
Proof.
  intros A B R l l' H. induction H as [|a b l l' _ _ IH]; [reflexivity|].
  cbn [length]. rewrite IH. reflexivity.
Qed.

Lemma Forall2_map_same : forall (A B : Type) (R : A -> B -> Prop) (f : A -> B) l,
  (forall x, In x l -> R x (f x)) -> Forall2 R l (map f l).
Proof.
  intros A B R f l. induction l as [|a l IH]; intros H; cbn [map]; constructor.
  - apply H. left. reflexivity.
  - apply IH. intros x Hx. apply H. right. exact Hx.
Qed.

Lemma filter_rev_eq : forall (A : Type) (f : A -> bool) l, filter f (rev l) = rev (filter f l).
Proof.
  intros A f l. induction l as [|a l IH]; [reflexivity|].
  cbn [rev filter]. rewrite filter_app, IH. cbn [filter].
  destruct (f a); cbn [rev]; [reflexivity|]. rewrite app_nil_r. reflexivity.
Qed.

Lemma Forall2_rev_intro : forall (A B : Type) (R : A -> B -> Prop) l l',
  Forall2 R l l' -> Forall2 R (rev l) (rev l').
Proof.
  intros A B R l l' H. induction H as [|a b l l' Hab H IH]; [constructor|].
  cbn [rev]. apply Forall2_app; [exact IH|]. constructor; [exact Hab|constructor].
Qed.

Lemma Forall2_map_eq : forall (A B C : Type) (R : A -> B -> Prop) (f : A -> C) (g : B -> C) l l',
  (forall a b, R a b -> f a = g b) -> Forall2 R l l' -> map f l = map g l'.
Proof.
  intros A B C R f g l l' HR H. induction H as [|a b l l' Hab H IH]; [reflexivity|].
  cbn [map]. rewrite (HR a b Hab), IH. reflexivity.
Qed.

Lemma Forall2_eq_eq : forall (A : Type) (l l' : list A), Forall2 eq l l' -> l = l'.
Proof.
  intros A l l' H. rewrite <- (map_id l), <- (map_id l').
  apply (Forall2_map_eq _ _ _ eq); [intros a b E; exact E|exact H].
Qed.

Lemma Forall2_same : forall (A : Type) (R : A -> A -> Prop) (l : list A),
  (forall x, R x x) -> Forall2 R l l.
Proof. intros A R l H. induction l as [|a l IH]; constructor; [apply H|exact IH]. Qed.

Lemma filter_true : forall (A : Type) (l : list A), filter (fun _ => true) l = l.
Proof. intros A l. induction l as [|a l IH]; [reflexivity|]. cbn [filter]. rewrite IH. reflexivity. Qed.

Definition slabels (c : list sline) : list string :=
  flat_map (fun x => match x with SLbl l => [l] | _ => [] end) c.

(** targets of the branches and [JMP]s (not of [JSR]) *)
Definition stargets (c : list sline) : list string :=
  flat_map (fun x => match x with
                     | SIns m (OLbl l) _ _ => if renames_operand m then [l] else []
                     | _ => [] end) c.

Definition sclosed (c : list sline) : Prop := forall l, In l (stargets c) -> In l (slabels c).

Lemma slabels_app : forall a b, slabels (a ++ b) = slabels a ++ slabels b.
Proof. intros a b. unfold slabels. apply flat_map_app. Qed.

Lemma stargets_app : forall a b, stargets (a ++ b) = stargets a ++ stargets b.
Proof. intros a b. unfold stargets. apply flat_map_app. Qed.

Lemma in_stargets : forall c m l p raw,
  In (SIns m (OLbl l) p raw) c -> renames_operand m = true -> In l (stargets c).
Proof.
  intros c m l p raw Hin Hm. unfold stargets. apply in_flat_map.
  exists (SIns m (OLbl l) p raw). split; [exact Hin|]. rewrite Hm. left. reflexivity.
Qed.

Lemma find_label_notin : forall l a k, ~ In l (slabels a) -> find_label l a k = None.
Proof.
  intros l a. induction a as [|x a IH]; intros k Hn; [reflexivity|].
  unfold slabels in Hn. cbn [flat_map] in Hn. rewrite in_app_iff in Hn. cbn [find_label].
  destruct x as [y|m o p raw|t|]; try (apply IH; tauto).
  destruct (String.eqb_spec y l) as [E|E]; [exfalso; apply Hn; left; left; exact E|apply IH; tauto].
Qed.

Lemma find_label_in : forall l a k, In l (slabels a) -> exists j, find_label l a k = Some j.
Proof.
  intros l a. induction a as [|x a IH]; intros k H; [destruct H|].
  unfold slabels in H. cbn [flat_map] in H. cbn [find_label].
  destruct x as [y|m o p raw|t|]; try (apply IH; exact H).
  destruct (String.eqb_spec y l) as [E|E]; [eauto|].
  apply IH. destruct H as [H|H]; [contradiction|exact H].
Qed.

Lemma exec_jump : forall cfg m l s,
  renames_operand m = true ->
  exec cfg m (OLbl l) s = if jump_taken m s then XOk s 3%N (FGoto l) else XOk s 2%N FNext.
Proof.
  intros cfg m l s H. destruct m; try discriminate H; reflexivity.
Qed.

Lemma exec_goto : forall cfg m o s s' k l,
  exec cfg m o s = XOk s' k (FGoto l) -> o = OLbl l /\ renames_operand m = true.
Proof.
  intros cfg m o s s' k l H. destruct (exec_flow _ _ _ _ _ _ _ H) as [Hm ->].
  split; [reflexivity|]. destruct Hm as [Hm | ->]; [destruct m; try discriminate Hm|]; reflexivity.
Qed.

Inductive sres :=
| SNext (fname : string) (c : list sline) (pc : nat) (stack : list frame) (depth : nat)
        (s : mstate) (tr : list event) (cy : N)
| SEnd (s : mstate) (tr : list event) (cy : N)      (* past the last line at depth 0: nothing done *)
| SHalt (s : mstate) (tr : list event) (cy : N)     (* [RTS] with the empty stack, or [RTI] *)
| SLeave (fname : string) (c : list sline) (pc : nat) (stack : list frame)
         (s : mstate) (tr : list event) (cy : N)    (* [RTS] at depth 0 into the enclosing frame *)
| SFault (depth : nat) (why : string) (fname : string) (pc : nat) (s : mstate).

Inductive bres :=
| BEnd (fuel : nat) (s : mstate) (tr : list event) (cy : N)
    (* arrived past the last line at depth 0 with [fuel] steps left, state [s], trace [tr]
       (most recent event first, as the accumulator of [run]), [cy] cycles *)
| BFault0 (why : string) (fname : string) (pc : nat) (s : mstate)   (* fault at depth 0 *)
| BOut (o : outcome).                                               (* any other end *)

Definition bfault (depth : nat) (why fname : string) (pc : nat) (s : mstate) : bres :=
  match depth with
  | O => BFault0 why fname pc s
  | S _ => BOut (Faulted why fname pc s)
  end.

Definition out_of (r : bres) : outcome :=
  match r with
  | BEnd _ s tr cy => Halt s (rev tr) cy
  | BFault0 why fname pc s => Faulted why fname pc s
  | BOut o => o
  end.

Lemma out_of_bfault : forall d why fn pc s, out_of (bfault d why fn pc s) = Faulted why fn pc s.
Proof. intros [|d] why fn pc s; reflexivity. Qed.

Section Sem.
  Variable cfg : config.
  Variable prog : sprogram.
  Variable inl_sem : string -> mstate -> option mstate.
  Variable ext_call : string -> mstate -> option mstate.

  Definition step (fname : string) (c : list sline) (pc : nat) (stack : list frame) (depth : nat)
             (s : mstate) (tr : list event) (cy : N) : sres :=
    match nth_error c pc with
    | None =>
        match depth with
        | O => SEnd s tr cy
        | S _ => SFault depth "fell off the end of a called function" fname pc s
        end
    | Some (SLbl _) | Some SSkip => SNext fname c (S pc) stack depth s tr cy
    | Some (SInl t) =>
        match inl_sem t s with
        | Some s' => SNext fname c (S pc) stack depth s' (EvN t :: tr) cy
        | None => SFault depth "unknown inline assembly" fname pc s
        end
    | Some (SIns m o prot raw) =>
        let tr' := if prot then EvI m raw :: tr else tr in
        match exec cfg m o s with
        | XFault why => SFault depth why fname pc s
        | XOk s' k fl =>
            let cy' := (cy + k)%N in
            match fl with
            | FNext => SNext fname c (S pc) stack depth s' tr' cy'
            | FGoto l =>
                match find_label l c 0 with
                | Some k' => SNext fname c k' stack depth s' tr' cy'
                | None => SFault depth "undefined label" fname pc s
                end
            | FCall f =>
                match find_func f prog with
                | Some c' =>
                    let d := (Z.of_nat (length stack) + 1)%Z in
                    let s1 := push (push s' (byte d)) (byte (255 - d)) in
                    SNext f c' 0 ((fname, c, S pc) :: stack) (S depth) s1 tr' cy'
                | None =>
                    match ext_call f s' with
                    | Some s2 => SNext fname c (S pc) stack depth s2 tr' cy'
                    | None => SFault depth "call of an unknown function" fname pc s
                    end
                end
            | FRet =>
                match stack with
                | [] => SHalt s' tr' cy'
                | (fn, c0, pc0) :: st' =>
                    let d := Z.of_nat (length stack) in
                    let '(s1, lo) := pull s' in
                    let '(s2, hi) := pull s1 in
                    if ((lo =? byte (255 - d)) && (hi =? byte d))%Z
                    then match depth with
                         | O => SLeave fn c0 pc0 st' s2 tr' cy'
                         | S d' => SNext fn c0 pc0 st' d' s2 tr' cy'
                         end
                    else SFault depth "RTS with a corrupted stack" fname pc s
                end
            | FRti => SHalt s' tr' cy'
            end
        end
    end.

  Fixpoint runb (fuel : nat) (fname : string) (c : list sline) (pc : nat) (stack : list frame)
           (depth : nat) (s : mstate) (tr : list event) (cy : N) : bres :=
    match fuel with
    | O => BOut (OutOfFuel s (rev tr) cy)
    | S fuel' =>
        match step fname c pc stack depth s tr cy with
        | SNext fn c1 pc1 st1 d1 s1 tr1 cy1 => runb fuel' fn c1 pc1 st1 d1 s1 tr1 cy1
        | SEnd s1 tr1 cy1 => BEnd fuel s1 tr1 cy1
        | SHalt s1 tr1 cy1 => BOut (Halt s1 (rev tr1) cy1)
        | SLeave fn c1 pc1 st1 s1 tr1 cy1 =>
            BOut (run cfg prog inl_sem ext_call fuel' fn c1 pc1 st1 s1 tr1 cy1)
        | SFault d why fn pc1 s1 => bfault d why fn pc1 s1
        end
    end.

  Definition after (fuel : nat) (r : sres) : bres :=
    match r with
    | SNext fn c1 pc1 st1 d1 s1 tr1 cy1 => runb fuel fn c1 pc1 st1 d1 s1 tr1 cy1
    | SEnd s1 tr1 cy1 => BEnd (S fuel) s1 tr1 cy1
    | SHalt s1 tr1 cy1 => BOut (Halt s1 (rev tr1) cy1)
    | SLeave fn c1 pc1 st1 s1 tr1 cy1 =>
        BOut (run cfg prog inl_sem ext_call fuel fn c1 pc1 st1 s1 tr1 cy1)
    | SFault d why fn pc1 s1 => bfault d why fn pc1 s1
    end.

  Lemma runb_S : forall fuel fname c pc stack depth s tr cy,
    runb (S fuel) fname c pc stack depth s tr cy = after fuel (step fname c pc stack depth s tr cy).
  Proof. reflexivity. Qed.

  (** [runb] at the depth [length stack] is [run]: at depth 0 the stack is then empty, so that
      [BEnd] stands for the [Halt] of "fell off the end of the function" *)
  Theorem run_runb : forall fuel fname c pc stack s tr cy,
    run cfg prog inl_sem ext_call fuel fname c pc stack s tr cy
    = out_of (runb fuel fname c pc stack (length stack) s tr cy).
  Proof.
    induction fuel as [|fuel IH]; intros fname c pc stack s tr cy; [reflexivity|].
    rewrite runb_S. cbn [run]. unfold step.
    destruct (nth_error c pc) as [[y|m o p raw|t|]|].
    - apply IH.
    - destruct (exec cfg m o s) as [s' k fl|why]; [|symmetry; apply out_of_bfault].
      destruct fl as [|l|f| |].
      + apply IH.
      + destruct (find_label l c 0) as [k'|]; [apply IH|symmetry; apply out_of_bfault].
      + destruct (find_func f prog) as [c'|].
        * rewrite IH. reflexivity.
        * destruct (ext_call f s') as [s2|]; [apply IH|symmetry; apply out_of_bfault].
      + destruct stack as [|[[fn c0] pc0] st']; [reflexivity|].
        destruct (pull s') as [s1 lo]. destruct (pull s1) as [s2 hi].
        cbn [length].
        destruct ((lo =? byte (255 - Z.of_nat (S (length st'))))
                  && (hi =? byte (Z.of_nat (S (length st')))))%Z;
          [apply IH|reflexivity].
      + reflexivity.
    - destruct (inl_sem t s) as [s'|]; [apply IH|symmetry; apply out_of_bfault].
    - apply IH.
    - destruct stack as [|fr st]; reflexivity.
  Qed.

End Sem.
Print Assumptions run_runb.

Definition evs (p : bool) (m : mnem) (raw : string) : list event :=
  if p then [EvI m raw] else [].

(** ** Relations between traces

    [run] and [runb] are compared up to a relation [R] between events, applied pointwise: the two
    traces have the same length and their events are related one by one, in order. *)

Definition erase_jump_raw (e : event) : event :=
  match e with
  | EvI m raw => if renames_operand m then EvI m "" else e
  | EvN _ => e
  end.

(** [e'] is [e], or [e] is the event of a branch/JMP and [e'] is that event with its raw operand
    text renamed by [r] *)
Inductive ev_ren (r : string -> string) : event -> event -> Prop :=
| er_same : forall e, ev_ren r e e
| er_jump : forall m raw, renames_operand m = true -> ev_ren r (EvI m raw) (EvI m (r raw)).

Definition keep_nonjump (e : event) : bool :=
  match e with EvI m _ => negb (renames_operand m) | EvN _ => true end.

(** the traces are equal once the raw text of the branch/JMP events is erased (same events, same
    mnemonics, same order, same number) *)
Definition same_erased (t t' : list event) : Prop := map erase_jump_raw t = map erase_jump_raw t'.
(** the traces are equal once the branch/JMP events are removed altogether *)
Definition same_nonjump (t t' : list event) : Prop := filter keep_nonjump t = filter keep_nonjump t'.

Lemma filter_nonjump_erase : forall t,
  filter keep_nonjump (map erase_jump_raw t) = filter keep_nonjump t.
Proof.
  induction t as [|e t IH]; [reflexivity|]. cbn [map filter]. rewrite IH.
  destruct e as [m raw|x]; [|reflexivity]. cbn [erase_jump_raw keep_nonjump].
  destruct (renames_operand m) eqn:Em; cbn [keep_nonjump]; rewrite Em; reflexivity.
Qed.

Lemma same_erased_nonjump : forall t t', same_erased t t' -> same_nonjump t t'.
Proof.
  intros t t' H. unfold same_nonjump. rewrite <- (filter_nonjump_erase t), H.
  apply filter_nonjump_erase.
Qed.

Lemma same_erased_length : forall t t', same_erased t t' -> length t = length t'.
Proof.
  intros t t' H. apply (f_equal (@length event)) in H. rewrite !map_length in H. exact H.
Qed.

(** outcomes: same kind, same machine state, same cycles, same fault; traces related by [T] *)
Definition outcome_rel (T : list event -> list event -> Prop) (o o' : outcome) : Prop :=
  match o, o' with
  | Halt s t cy, Halt s' t' cy' => s = s' /\ cy = cy' /\ T t t'
  | OutOfFuel s t cy, OutOfFuel s' t' cy' => s = s' /\ cy = cy' /\ T t t'
  | Faulted w f p s, Faulted w' f' p' s' => w = w' /\ f = f' /\ p = p' /\ s = s'
  | _, _ => False
  end.

Lemma outcome_rel_mono : forall (T T' : list event -> list event -> Prop) o o',
  (forall t t', T t t' -> T' t t') -> outcome_rel T o o' -> outcome_rel T' o o'.
Proof.
  intros T T' [s t cy|s t cy|w f p s] [s' t' cy'|s' t' cy'|w' f' p' s'] HT H; cbn in H |- *;
    try contradiction; try exact H.
  - destruct H as [Hs [Hc Ht]]. repeat split; try assumption. apply HT. exact Ht.
  - destruct H as [Hs [Hc Ht]]. repeat split; try assumption. apply HT. exact Ht.
Qed.

Section Sim.
  Variable cfg : config.
  Variable prog : sprogram.
  Variable inl_sem : string -> mstate -> option mstate.
  Variable ext_call : string -> mstate -> option mstate.
  Variable R : event -> event -> Prop.
  Hypothesis R_refl : forall e, R e e.

  Definition tsim (t t' : list event) : Prop := Forall2 R t t'.

  (** operands: equal, except that the label operands of a branch/JMP may differ provided they
      denote the same position *)
  Definition op_sim (c c' : list sline) (m : mnem) (o o' : operand) : Prop :=
    match o, o' with
    | OLbl l, OLbl l' =>
        if renames_operand m then find_label l c 0 = find_label l' c' 0 else l = l'
    | _, _ => o = o'
    end.

  Inductive sline_sim (c c' : list sline) : sline -> sline -> Prop :=
  | ss_lbl : forall l l', sline_sim c c' (SLbl l) (SLbl l')
  | ss_inl : forall t, sline_sim c c' (SInl t) (SInl t)
  | ss_skip : sline_sim c c' SSkip SSkip
  | ss_ins : forall m o o' p p' raw raw',
      tsim (evs p m raw) (evs p' m raw') -> op_sim c c' m o o' ->
      sline_sim c c' (SIns m o p raw) (SIns m o' p' raw').

  Definition code_sim (c c' : list sline) : Prop := Forall2 (sline_sim c c') c c'.

  Definition frame_sim (f f' : frame) : Prop :=
    fst (fst f) = fst (fst f') /\ snd f = snd f' /\ code_sim (snd (fst f)) (snd (fst f')).

  Definition stack_sim (st st' : list frame) : Prop := Forall2 frame_sim st st'.

  Definition outcome_sim (o o' : outcome) : Prop := outcome_rel tsim o o'.

  Definition bres_sim (r r' : bres) : Prop :=
    match r, r' with
    | BEnd f s t cy, BEnd f' s' t' cy' => f = f' /\ s = s' /\ cy = cy' /\ tsim t t'
    | BFault0 w f p s, BFault0 w' f' p' s' => w = w' /\ f = f' /\ p = p' /\ s = s'
    | BOut o, BOut o' => outcome_sim o o'
    | _, _ => False
    end.

  Inductive sres_sim : sres -> sres -> Prop :=
  | rs_next : forall fn c c' pc st st' d s tr tr' cy,
      code_sim c c' -> stack_sim st st' -> tsim tr tr' ->
      sres_sim (SNext fn c pc st d s tr cy) (SNext fn c' pc st' d s tr' cy)
  | rs_end : forall s tr tr' cy, tsim tr tr' -> sres_sim (SEnd s tr cy) (SEnd s tr' cy)
  | rs_halt : forall s tr tr' cy, tsim tr tr' -> sres_sim (SHalt s tr cy) (SHalt s tr' cy)
  | rs_leave : forall fn c c' pc st st' s tr tr' cy,
      code_sim c c' -> stack_sim st st' -> tsim tr tr' ->
      sres_sim (SLeave fn c pc st s tr cy) (SLeave fn c' pc st' s tr' cy)
  | rs_fault : forall d w fn pc s, sres_sim (SFault d w fn pc s) (SFault d w fn pc s).

  Lemma tsim_refl : forall t, tsim t t.
  Proof. intros t. apply Forall2_same. exact R_refl. Qed.

  Lemma tsim_rev : forall t t', tsim t t' -> tsim (rev t) (rev t').
  Proof. intros t t' H. apply Forall2_rev_intro. exact H. Qed.

  Lemma tsim_evs : forall p p' m raw raw' t t',
    tsim (evs p m raw) (evs p' m raw') -> tsim t t' ->
    tsim (if p then EvI m raw :: t else t) (if p' then EvI m raw' :: t' else t').
  Proof.
    intros p p' m raw raw' t t' He Ht.
    assert (E : forall (q : bool) r u, (if q then EvI m r :: u else u) = evs q m r ++ u)
      by (intros [|] r u; reflexivity).
    rewrite !E. apply Forall2_app; assumption.
  Qed.

  Lemma out_of_sim : forall r r', bres_sim r r' -> outcome_sim (out_of r) (out_of r').
  Proof.
    intros [f s t cy|w f p s|o] [f' s' t' cy'|w' f' p' s'|o'] H; cbn in H; try contradiction.
    - destruct H as [_ [Hs [Hc Ht]]]. cbn. repeat split; try assumption. apply tsim_rev. exact Ht.
    - exact H.
    - exact H.
  Qed.

  Lemma code_sim_refl : forall c, code_sim c c.
  Proof.
    intros c. apply Forall2_same. intros x.
    destruct x as [l|m o p raw|t|]; constructor.
    - apply tsim_refl.
    - unfold op_sim. destruct o; try reflexivity. destruct (renames_operand m); reflexivity.
  Qed.

  Lemma stack_sim_refl : forall st, stack_sim st st.
  Proof.
    intros st. apply Forall2_same. intros f. repeat split. apply code_sim_refl.
  Qed.

  (** the two instructions of similar lines do the same, or are two jumps to the same place *)
  Lemma exec_sim : forall c c' m o o' s,
    op_sim c c' m o o' ->
    (exec cfg m o s = exec cfg m o' s /\
     forall s' k l, exec cfg m o s <> XOk s' k (FGoto l))
    \/ (exists l l', renames_operand m = true /\ o = OLbl l /\ o' = OLbl l' /\
                     find_label l c 0 = find_label l' c' 0).
  Proof.
    intros c c' m o o' s H. unfold op_sim in H.
    destruct (renames_operand m) eqn:Em.
    - destruct o as [|v|y k ix|y k|l].
      1-4: subst o'; left; split; [reflexivity|];
        intros s' k0 l0 Hx; apply exec_goto in Hx; destruct Hx as [Hx _]; discriminate Hx.
      destruct o' as [|v|y k ix|y k|l']; try discriminate H.
      right. exists l, l'. repeat split. exact H.
    - left.
      assert (Ho : o = o').
      { destruct o; try exact H. destruct o'; try exact H. f_equal. exact H. }
      subst o'. split; [reflexivity|].
      intros s' k0 l0 Hx. apply exec_goto in Hx. destruct Hx as [_ Hx]. congruence.
  Qed.

  Notation stepx := (step cfg prog inl_sem ext_call).
  Notation runbx := (runb cfg prog inl_sem ext_call).
  Notation runx := (run cfg prog inl_sem ext_call).

  Lemma step_sim : forall fn c c' pc st st' d s tr tr' cy,
    code_sim c c' -> stack_sim st st' -> tsim tr tr' ->
    sres_sim (stepx fn c pc st d s tr cy) (stepx fn c' pc st' d s tr' cy).
  Proof.
    intros fn c c' pc st st' d s tr tr' cy Hc Hst Htr. unfold step.
    pose proof (Forall2_nth_error _ _ _ _ _ pc Hc) as Hx.
    destruct (nth_error c pc) as [x|]; destruct (nth_error c' pc) as [x'|]; try contradiction.
    2:{ destruct d; constructor. exact Htr. }
    destruct Hx as [l l'|t| |m o o' p p' raw raw' Hev Hop].
    - constructor; assumption.
    - destruct (inl_sem t s) as [s'|]; constructor; try assumption. constructor; [apply R_refl|exact Htr].
    - constructor; assumption.
    - pose proof (tsim_evs _ _ _ _ _ _ _ Hev Htr) as Htr1.
      assert (Hlen : length st = length st') by (apply (Forall2_len _ _ _ _ _ Hst)).
      destruct (exec_sim c c' m o o' s Hop) as [[He Hng]|[l [l' [Hm [-> [-> Hfl]]]]]].
      + rewrite <- He.
        destruct (exec cfg m o s) as [s' k fl|why]; [|constructor].
        destruct fl as [|l|f| |].
        * constructor; assumption.
        * exfalso. exact (Hng s' k l eq_refl).
        * destruct (find_func f prog) as [cf|].
          -- rewrite <- Hlen. constructor; [apply code_sim_refl| |exact Htr1].
             constructor; [|exact Hst]. repeat split. exact Hc.
          -- destruct (ext_call f s') as [s2|]; constructor; assumption.
        * destruct Hst as [|[[f0 c0] p0] [[f0' c0'] p0'] st st' Hf Hst].
          -- constructor. exact Htr1.
          -- destruct Hf as [Hf1 [Hf2 Hf3]]. cbn [fst snd] in Hf1, Hf2, Hf3. subst f0' p0'.
             cbn [length] in Hlen |- *. rewrite <- Hlen.
             destruct (pull s') as [s1 lo]. destruct (pull s1) as [s2 hi].
             destruct (_ && _)%bool; [|constructor].
             destruct d; constructor; assumption.
        * constructor. exact Htr1.
      + rewrite !exec_jump by exact Hm.
        destruct (jump_taken m s).
        * rewrite <- Hfl. destruct (find_label l c 0); constructor; assumption.
        * constructor; assumption.
  Qed.

  Theorem runb_sim : forall fuel fn c c' pc st st' d s tr tr' cy,
    code_sim c c' -> stack_sim st st' -> tsim tr tr' ->
    bres_sim (runbx fuel fn c pc st d s tr cy) (runbx fuel fn c' pc st' d s tr' cy).
  Proof.
    induction fuel as [|fuel IH]; intros fn c c' pc st st' d s tr tr' cy Hc Hst Htr.
    - cbn. repeat split. apply tsim_rev. exact Htr.
    - rewrite !runb_S.
      destruct (step_sim fn c c' pc st st' d s tr tr' cy Hc Hst Htr)
        as [fn1 c1 c1' pc1 st1 st1' d1 s1 tr1 tr1' cy1 Hc1 Hst1 Htr1
           |s1 tr1 tr1' cy1 Htr1|s1 tr1 tr1' cy1 Htr1
           |fn1 c1 c1' pc1 st1 st1' s1 tr1 tr1' cy1 Hc1 Hst1 Htr1
           |d1 w fn1 pc1 s1].
      + apply IH; assumption.
      + cbn. repeat split. exact Htr1.
      + cbn. repeat split. apply tsim_rev. exact Htr1.
      + cbn [after bres_sim]. rewrite !run_runb.
        rewrite <- (Forall2_len _ _ _ _ _ Hst1).
        apply out_of_sim. apply IH; assumption.
      + destruct d1; cbn; repeat split.
  Qed.

  Theorem run_sim : forall fuel fn c c' pc st st' s tr tr' cy,
    code_sim c c' -> stack_sim st st' -> tsim tr tr' ->
    outcome_sim (runx fuel fn c pc st s tr cy) (runx fuel fn c' pc st' s tr' cy).
  Proof.
    intros fuel fn c c' pc st st' s tr tr' cy Hc Hst Htr.
    rewrite !run_runb. rewrite <- (Forall2_len _ _ _ _ _ Hst).
    apply out_of_sim. apply runb_sim; assumption.
  Qed.

End Sim.
Print Assumptions runb_sim.
Print Assumptions run_sim.

Definition rename_op (r : string -> string) (o : operand) : operand :=
  match o with OLbl l => OLbl (r l) | _ => o end.

(** the semantic counterpart of [rename_line]: labels, and the label operand and the raw operand
    text of branches and [JMP]s (not of [JSR]); the [protected] flag is kept *)
Definition rename_sline (r : string -> string) (x : sline) : sline :=
  match x with
  | SLbl l => SLbl (r l)
  | SIns m o p raw => if renames_operand m then SIns m (rename_op r o) p (r raw) else x
  | _ => x
  end.

Definition inj_on (r : string -> string) (c : list sline) : Prop :=
  forall l1 l2, In l1 (slabels c ++ stargets c) -> In l2 (slabels c ++ stargets c) ->
                r l1 = r l2 -> l1 = l2.

Definition unprot_jumps (c : list sline) : Prop :=
  forall m o p raw, In (SIns m o p raw) c -> renames_operand m = true -> p = false.

Lemma slabels_rename : forall r c, slabels (map (rename_sline r) c) = map r (slabels c).
Proof.
  intros r c. unfold slabels. induction c as [|x c IH]; [reflexivity|].
  cbn [map flat_map]. rewrite IH, map_app. f_equal.
  destruct x as [l|m o p raw|t|]; cbn [rename_sline]; try reflexivity.
  destruct (renames_operand m); reflexivity.
Qed.

Lemma stargets_rename : forall r c, stargets (map (rename_sline r) c) = map r (stargets c).
Proof.
  intros r c. unfold stargets. induction c as [|x c IH]; [reflexivity|].
  cbn [map flat_map]. rewrite IH, map_app. f_equal.
  destruct x as [l|m o p raw|t|]; cbn [rename_sline]; try reflexivity.
  destruct (renames_operand m) eqn:Em.
  - destruct o; cbn [rename_op]; try reflexivity. rewrite Em. reflexivity.
  - destruct o; try reflexivity. rewrite Em. reflexivity.
Qed.

Lemma sclosed_rename : forall r c, sclosed c -> sclosed (map (rename_sline r) c).
Proof.
  intros r c H l Hl. rewrite stargets_rename in Hl. rewrite slabels_rename.
  apply in_map_iff in Hl. destruct Hl as [l0 [<- Hl0]]. apply in_map. apply H. exact Hl0.
Qed.

Lemma find_label_rename : forall r l c k,
  (forall l0, In l0 (slabels c) -> r l0 = r l -> l0 = l) ->
  find_label (r l) (map (rename_sline r) c) k = find_label l c k.
Proof.
  intros r l c. induction c as [|x c IH]; intros k Hinj; [reflexivity|].
  assert (Hinj' : forall l0, In l0 (slabels c) -> r l0 = r l -> l0 = l).
  { intros l0 H0. apply Hinj. unfold slabels. cbn [flat_map]. apply in_or_app. right. exact H0. }
  cbn [map].
  destruct x as [y|m o p raw|t|]; cbn [rename_sline find_label].
  - destruct (String.eqb_spec y l) as [E|E].
    + subst y. rewrite String.eqb_refl. reflexivity.
    + destruct (String.eqb_spec (r y) (r l)) as [E'|E'].
      * exfalso. apply E. apply Hinj; [|exact E']. unfold slabels. cbn [flat_map]. left. reflexivity.
      * apply IH. exact Hinj'.
  - destruct (renames_operand m); cbn [find_label]; apply IH; exact Hinj'.
  - apply IH. exact Hinj'.
  - apply IH. exact Hinj'.
Qed.

Section Rename.
  Variable cfg : config.
  Variable prog : sprogram.
  Variable inl_sem : string -> mstate -> option mstate.
  Variable ext_call : string -> mstate -> option mstate.

  Notation runbx := (runb cfg prog inl_sem ext_call).
  Notation runx := (run cfg prog inl_sem ext_call).

  (** a renamed code simulates the original, for every reflexive comparison of events that
      relates the event of a protected branch/JMP to the same event with the renamed text *)
  Lemma rename_code_sim_gen : forall (R : event -> event -> Prop) r c,
    (forall e, R e e) ->
    inj_on r c ->
    (forall m o p raw, In (SIns m o p raw) c -> renames_operand m = true ->
                       tsim R (evs p m raw) (evs p m (r raw))) ->
    code_sim R c (map (rename_sline r) c).
  Proof.
    intros R r c Hrefl Hinj Hev. unfold code_sim. apply Forall2_map_same. intros x Hx.
    destruct x as [l|m o p raw|t|]; cbn [rename_sline]; try constructor.
    destruct (renames_operand m) eqn:Em.
    - constructor; [apply (Hev m o p raw Hx Em)|].
      unfold op_sim. destruct o as [|v|y k ix|y k|l]; cbn [rename_op]; try reflexivity.
      rewrite Em. symmetry. apply find_label_rename.
      intros l0 H0 Hr. apply Hinj; [apply in_or_app; left; exact H0| |exact Hr].
      apply in_or_app. right. apply (in_stargets c m l p raw Hx Em).
    - constructor; [apply tsim_refl; exact Hrefl|].
      unfold op_sim. destruct o; try reflexivity. rewrite Em. reflexivity.
  Qed.

  Theorem rename_code_sim : forall r c,
    inj_on r c -> code_sim (ev_ren r) c (map (rename_sline r) c).
  Proof.
    intros r c Hinj. apply rename_code_sim_gen; [apply er_same|exact Hinj|].
    intros m o p raw _ Hm. unfold tsim, evs. destruct p; constructor; [|constructor].
    apply er_jump. exact Hm.
  Qed.

  Theorem rename_code_sim_strict : forall r c,
    inj_on r c -> unprot_jumps c -> code_sim eq c (map (rename_sline r) c).
  Proof.
    intros r c Hinj Hup. apply rename_code_sim_gen; [reflexivity|exact Hinj|].
    intros m o p raw Hin Hm. rewrite (Hup m o p raw Hin Hm). constructor.
  Qed.

  (** (A), general form: same kind of outcome, same machine state, same cycles, same fault;
      the two traces have the same events in the same order, except that the raw operand text in
      the event of a (protected) branch/JMP of [c] is renamed by [r] *)
  Theorem run_rename : forall r c, inj_on r c ->
    forall fuel fname pc stack s tr cy,
    outcome_sim (ev_ren r)
      (runx fuel fname c pc stack s tr cy)
      (runx fuel fname (map (rename_sline r) c) pc stack s tr cy).
  Proof.
    intros r c Hinj fuel fname pc stack s tr cy. apply run_sim.
    - apply er_same.
    - apply rename_code_sim. exact Hinj.
    - apply stack_sim_refl. apply er_same.
    - apply tsim_refl. apply er_same.
  Qed.

  Lemma tsim_ren_erased : forall r t t', tsim (ev_ren r) t t' -> same_erased t t'.
  Proof.
    intros r t t' H. apply (Forall2_map_eq _ _ _ (ev_ren r)); [|exact H].
    intros e e' [e0|m raw Hm]; [reflexivity|]. cbn [erase_jump_raw]. rewrite Hm. reflexivity.
  Qed.

  (** corollary: the traces are equal once the raw operand text of the branch/JMP events is
      erased (in particular they have the same length) *)
  Theorem run_rename_erased : forall r c, inj_on r c ->
    forall fuel fname pc stack s tr cy,
    outcome_rel same_erased
      (runx fuel fname c pc stack s tr cy)
      (runx fuel fname (map (rename_sline r) c) pc stack s tr cy).
  Proof.
    intros r c Hinj fuel fname pc stack s tr cy.
    apply (outcome_rel_mono (tsim (ev_ren r))); [apply tsim_ren_erased|].
    apply run_rename. exact Hinj.
  Qed.

  (** weaker still: the traces are equal once the events of branches and [JMP]s are removed *)
  Theorem run_rename_weak : forall r c, inj_on r c ->
    forall fuel fname pc stack s tr cy,
    outcome_rel same_nonjump
      (runx fuel fname c pc stack s tr cy)
      (runx fuel fname (map (rename_sline r) c) pc stack s tr cy).
  Proof.
    intros r c Hinj fuel fname pc stack s tr cy.
    apply (outcome_rel_mono same_erased); [apply same_erased_nonjump|].
    apply run_rename_erased. exact Hinj.
  Qed.

  Lemma outcome_sim_all_eq : forall o o', outcome_sim eq o o' -> o = o'.
  Proof.
    intros [s t cy|s t cy|w f p s] [s' t' cy'|s' t' cy'|w' f' p' s'] H; cbn in H;
      try contradiction.
    - destruct H as [-> [-> H]]. apply Forall2_eq_eq in H. subst t'. reflexivity.
    - destruct H as [-> [-> H]]. apply Forall2_eq_eq in H. subst t'. reflexivity.
    - destruct H as [-> [-> [-> ->]]]. reflexivity.
  Qed.

  (** (A), exact form, when no branch or [JMP] of [c] is protected *)
  Theorem run_rename_eq : forall r c, inj_on r c -> unprot_jumps c ->
    forall fuel fname pc stack s tr cy,
    runx fuel fname (map (rename_sline r) c) pc stack s tr cy
    = runx fuel fname c pc stack s tr cy.
  Proof.
    intros r c Hinj Hup fuel fname pc stack s tr cy. symmetry. apply outcome_sim_all_eq.
    apply run_sim.
    - reflexivity.
    - apply rename_code_sim_strict; assumption.
    - apply stack_sim_refl. reflexivity.
    - apply tsim_refl. reflexivity.
  Qed.

  Theorem runb_rename : forall r c, inj_on r c ->
    forall fuel fname pc stack d s tr cy,
    bres_sim (ev_ren r)
      (runbx fuel fname c pc stack d s tr cy)
      (runbx fuel fname (map (rename_sline r) c) pc stack d s tr cy).
  Proof.
    intros r c Hinj fuel fname pc stack d s tr cy. apply runb_sim.
    - apply er_same.
    - apply rename_code_sim. exact Hinj.
    - apply stack_sim_refl. apply er_same.
    - apply tsim_refl. apply er_same.
  Qed.

  (** ... whose outcome, in particular: when the body reaches its end, the renamed body
      reaches its end with the same fuel left, state and cycles, and a trace that differs only in
      the raw text of branch/JMP events *)
  Theorem runb_rename_end : forall r c, inj_on r c ->
    forall fuel fname pc stack d s tr cy f s' tr' cy',
    runbx fuel fname c pc stack d s tr cy = BEnd f s' tr' cy' ->
    exists tr'', runbx fuel fname (map (rename_sline r) c) pc stack d s tr cy = BEnd f s' tr'' cy'
                 /\ tsim (ev_ren r) tr' tr'' /\ same_erased tr' tr''.
  Proof.
    intros r c Hinj fuel fname pc stack d s tr cy f s' tr' cy' H.
    pose proof (runb_rename r c Hinj fuel fname pc stack d s tr cy) as HA. rewrite H in HA.
    destruct (runbx fuel fname (map (rename_sline r) c) pc stack d s tr cy)
      as [f2 s2 t2 cy2|w fn pc2 s2|o]; cbn [bres_sim] in HA; try contradiction.
    destruct HA as [<- [<- [<- Ht]]]. exists t2. split; [reflexivity|]. split; [exact Ht|].
    apply (tsim_ren_erased r). exact Ht.
  Qed.

End Rename.
Print Assumptions rename_code_sim.
Print Assumptions rename_code_sim_strict.
Print Assumptions run_rename.
Print Assumptions run_rename_erased.
Print Assumptions run_rename_weak.
Print Assumptions run_rename_eq.
Print Assumptions runb_rename.
Print Assumptions runb_rename_end.

(** the operand of every branch and [JMP] is not empty (an empty operand is not a label for
    [parse_operand], but its suffixed form is) *)
Definition jump_ops_nonempty (c : code) : Prop :=
  forall i, In (Ins i) c -> renames_operand (i_mn i) = true -> i_op i <> ""%string.

Lemma suffix_nonempty : forall n l, String.eqb (l ++ inline_suffix n)%string "" = false.
Proof. intros n [|a l]; reflexivity. Qed.

Lemma renames_takes_label : forall m, renames_operand m = true -> takes_label m = true.
Proof. intros m H. destruct m; try discriminate H; reflexivity. Qed.

Lemma sline_of_rename : forall n x sx,
  sline_of x = Some sx ->
  (forall i, x = Ins i -> renames_operand (i_mn i) = true -> i_op i <> ""%string) ->
  sline_of (rename_line n x) = Some (rename_sline (suffix_of n) sx).
Proof.
  intros n x sx H Hne.
  destruct x as [l|i|t sz|cm|]; cbn [sline_of rename_line] in *.
  - injection H as <-. reflexivity.
  - destruct (renames_operand (i_mn i)) eqn:Em.
    + cbn [sline_of i_mn i_op i_prot].
      unfold parse_operand in *.
      rewrite suffix_nonempty, (renames_takes_label _ Em) in *.
      destruct (String.eqb_spec (i_op i) "") as [E|E]; [exfalso; exact (Hne i eq_refl Em E)|].
      injection H as <-. cbn [rename_sline]. rewrite Em. reflexivity.
    + cbn [sline_of].
      destruct (parse_operand (i_mn i) (i_op i)) as [o|]; [|discriminate H].
      injection H as <-. cbn [rename_sline]. rewrite Em. reflexivity.
  - injection H as <-. reflexivity.
  - injection H as <-. reflexivity.
  - injection H as <-. reflexivity.
Qed.

Theorem slines_of_rename : forall n c sc,
  slines_of c = Some sc -> jump_ops_nonempty c ->
  slines_of (map (rename_line n) c) = Some (map (rename_sline (suffix_of n)) sc).
Proof.
  intros n.
  apply (slines_of_ind (fun c sc => jump_ops_nonempty c ->
           slines_of (map (rename_line n) c) = Some (map (rename_sline (suffix_of n)) sc)));
    [reflexivity|].
  intros x sx c sc Ex _ IH Hne. cbn [map]. apply slines_of_cons.
  - apply (sline_of_rename n x sx Ex). intros i ->. apply Hne. left. reflexivity.
  - apply IH. intros i Hi. apply Hne. right. exact Hi.
Qed.
Print Assumptions slines_of_rename.

Lemma suffix_inj_on : forall n c, inj_on (suffix_of n) c.
Proof. intros n c l1 l2 _ _ H. exact (suffix_of_inj_same n l1 l2 H). Qed.

Section Embed.
  Variable cfg : config.
  Variable prog : sprogram.
  Variable inl_sem : string -> mstate -> option mstate.
  Variable ext_call : string -> mstate -> option mstate.

  Notation stepx := (step cfg prog inl_sem ext_call).
  Notation runbx := (runb cfg prog inl_sem ext_call).
  Notation runx := (run cfg prog inl_sem ext_call).

  (** the function [fname0], whose code is [pre ++ body ++ post], runs with the stack [base] *)
  Variable fname0 : string.
  Variable pre body post : list sline.
  Variable base : list frame.

  Hypothesis body_closed : sclosed body.
  Hypothesis body_fresh : forall l, In l (slabels body) -> ~ In l (slabels pre).

  Let BIG := pre ++ body ++ post.
  Let off := length pre.

  Lemma find_label_big : forall l, In l (stargets body) ->
    exists j, find_label l body 0 = Some j /\ find_label l BIG 0 = Some (off + j) /\ j < length body.
  Proof.
    intros l Hl. pose proof (body_closed l Hl) as Hin.
    destruct (find_label_in l body 0 Hin) as [j Hj].
    exists j. split; [exact Hj|]. split; [|apply (find_label_some_bound _ _ _ _ Hj)].
    unfold BIG. rewrite find_label_app, (find_label_notin l pre 0 (body_fresh l Hin)), find_label_app, Hj.
    reflexivity.
  Qed.

  (** stacks of a callee (transitively) called from the body, [d] frames above the bottom local
      frame, which returns into the body, resp. into the big code at the shifted position *)
  Inductive stk_emb : nat -> list frame -> list frame -> Prop :=
  | se_base : forall p, p <= length body ->
      stk_emb 0 ((fname0, body, p) :: base) ((fname0, BIG, off + p) :: base)
  | se_cons : forall d f l L, stk_emb d l L -> stk_emb (S d) (f :: l) (f :: L).

  Inductive conf_emb : string -> list sline -> nat -> list frame -> nat ->
                       string -> list sline -> nat -> list frame -> Prop :=
  | ce_body : forall pc, pc <= length body ->
      conf_emb fname0 body pc base 0 fname0 BIG (off + pc) base
  | ce_callee : forall f c pc d l L, stk_emb d l L ->
      conf_emb f c pc l (S d) f c pc L.

  (** the depth of the embedded run is the length of its stack; that of its faults plays no part *)
  Inductive sres_emb : sres -> sres -> Prop :=
  | re_next : forall fn c pc st d fn' C PC ST s tr cy,
      conf_emb fn c pc st d fn' C PC ST ->
      sres_emb (SNext fn c pc st d s tr cy) (SNext fn' C PC ST (length ST) s tr cy)
  | re_halt : forall s tr cy, sres_emb (SHalt s tr cy) (SHalt s tr cy)
  | re_leave : forall fn c pc st s tr cy,
      sres_emb (SLeave fn c pc st s tr cy) (SNext fn c pc st (length st) s tr cy)
  | re_fault0 : forall D w fn pc s, sres_emb (SFault 0 w fn pc s) (SFault D w fn (off + pc) s)
  | re_faultS : forall d D w fn pc s, sres_emb (SFault (S d) w fn pc s) (SFault D w fn pc s).

  Lemma stk_emb_length : forall d l L, stk_emb d l L -> length l = length L.
  Proof.
    intros d l L H. induction H as [p Hp|d f l L H IH]; cbn [length]; congruence.
  Qed.

  Lemma step_body : forall pc s tr cy, pc < length body ->
    sres_emb (stepx fname0 body pc base 0 s tr cy)
             (stepx fname0 BIG (off + pc) base (length base) s tr cy).
  Proof.
    intros pc s tr cy Hpc. unfold step. rewrite (nth_embed _ pre body post pc Hpc : nth_error BIG (off + pc) = _).
    destruct (nth_error body pc) as [x|] eqn:Ex; [|apply nth_error_None in Ex; lia].
    assert (Hnext : forall s1 tr1 cy1,
      sres_emb (SNext fname0 body (S pc) base 0 s1 tr1 cy1)
               (SNext fname0 BIG (S (off + pc)) base (length base) s1 tr1 cy1)).
    { intros s1 tr1 cy1. rewrite <- Nat.add_succ_r. constructor. constructor. lia. }
    destruct x as [y|m o p raw|t|].
    - apply Hnext.
    - destruct (exec cfg m o s) as [s' k fl|why] eqn:Eexec; [|constructor].
      destruct fl as [|l|f| |].
      + apply Hnext.
      + apply exec_goto in Eexec. destruct Eexec as [-> Hm].
        destruct (find_label_big l) as [j [Hj [HJ Hlt]]].
        { apply (in_stargets body m l p raw); [|exact Hm]. apply (nth_error_In _ _ Ex). }
        rewrite Hj, HJ. constructor. constructor. lia.
      + destruct (find_func f prog) as [cf|].
        * change (S (length base)) with (length ((fname0, BIG, S (off + pc)) :: base)).
          rewrite <- Nat.add_succ_r.
          constructor. apply ce_callee. constructor. lia.
        * destruct (ext_call f s') as [s2|]; [apply Hnext|constructor].
      + destruct base as [|[[fn c0] pc0] st']; [constructor|].
        destruct (pull s') as [s1 lo]. destruct (pull s1) as [s2 hi].
        destruct (_ && _)%bool; constructor.
      + constructor.
    - destruct (inl_sem t s) as [s'|]; [apply Hnext|constructor].
    - apply Hnext.
  Qed.

  Lemma step_callee : forall f c pc d l L s tr cy, stk_emb d l L ->
    sres_emb (stepx f c pc l (S d) s tr cy) (stepx f c pc L (length L) s tr cy).
  Proof.
    intros f c pc d l L s tr cy H. pose proof (stk_emb_length d l L H) as Hlen.
    assert (Hnext : forall pc1 s1 tr1 cy1,
      sres_emb (SNext f c pc1 l (S d) s1 tr1 cy1) (SNext f c pc1 L (length L) s1 tr1 cy1)).
    { intros pc1 s1 tr1 cy1. constructor. constructor. exact H. }
    unfold step.
    destruct (nth_error c pc) as [[y|m o p raw|t|]|];
      [apply Hnext| | |apply Hnext|destruct H; constructor].
    - destruct (exec cfg m o s) as [s' k fl|why]; [|constructor].
      destruct fl as [|lb|g| |].
      + apply Hnext.
      + destruct (find_label lb c 0) as [k'|]; [apply Hnext|constructor].
      + destruct (find_func g prog) as [cg|].
        * rewrite Hlen. change (S (length L)) with (length ((f, c, S pc) :: L)).
          constructor. apply (ce_callee _ _ _ (S d)). constructor. exact H.
        * destruct (ext_call g s') as [s2|]; [apply Hnext|constructor].
      + rewrite Hlen. destruct H as [p0 Hp0|d0 [[fn c0] pc0] l L H]; cbn [length];
          destruct (pull s') as [s1 lo]; destruct (pull s1) as [s2 hi];
          (destruct (_ && _)%bool; [|constructor]); constructor; constructor; assumption.
      + constructor.
    - destruct (inl_sem t s) as [s'|]; [apply Hnext|constructor].
  Qed.

  (** what the embedded run does, given the result of the standalone run *)
  Definition emb_res (r : bres) (o : outcome) : Prop :=
    match r with
    | BEnd f s tr cy => o = runx f fname0 BIG (off + length body) base s tr cy
    | BFault0 w fn pc s => o = Faulted w fn (off + pc) s
    | BOut o0 => o = o0
    end.

  Notation after := (after cfg prog inl_sem ext_call).

  Lemma after_emb : forall fuel r R,
    (forall fn c pc st d fn' C PC ST s tr cy,
       conf_emb fn c pc st d fn' C PC ST ->
       emb_res (runbx fuel fn c pc st d s tr cy)
               (out_of (runbx fuel fn' C PC ST (length ST) s tr cy))) ->
    sres_emb r R -> emb_res (after fuel r) (out_of (after fuel R)).
  Proof.
    intros fuel r R IH H.
    destruct H as [fn c pc st d fn' C PC ST s tr cy H|s tr cy|fn c pc st s tr cy
                  |D w fn pc s|d D w fn pc s]; cbn [after].
    - apply IH. exact H.
    - reflexivity.
    - cbn [emb_res]. symmetry. apply run_runb.
    - cbn [bfault emb_res]. apply out_of_bfault.
    - cbn [bfault emb_res]. apply out_of_bfault.
  Qed.

  Lemma runb_emb : forall fuel fn c pc st d fn' C PC ST s tr cy,
    conf_emb fn c pc st d fn' C PC ST ->
    emb_res (runbx fuel fn c pc st d s tr cy)
            (out_of (runbx fuel fn' C PC ST (length ST) s tr cy)).
  Proof.
    induction fuel as [|fuel IH]; intros fn c pc st d fn' C PC ST s tr cy H; [reflexivity|].
    destruct H as [pc Hpc|f c pc d l L H].
    - destruct (Nat.eq_dec pc (length body)) as [E|E].
      + subst pc. rewrite (runb_S _ _ _ _ fuel fname0 body). unfold step.
        assert (Hn : nth_error body (length body) = None) by (apply nth_error_None; lia).
        rewrite Hn. cbn [after emb_res]. symmetry. apply run_runb.
      + rewrite !runb_S. apply after_emb; [exact IH|]. apply step_body. lia.
    - rewrite !runb_S. apply after_emb; [exact IH|]. apply step_callee. exact H.
  Qed.

  (** (B): the run of [pre ++ body ++ post] from the line [k] of the body, given the
      standalone run of the body from [k] (depth 0) with the same fuel, function name, stack,
      machine state, trace and cycles:
      - the body reaches its end with [f] steps left: the embedded run goes on from the first
        line after the body with that fuel and the same state, trace and cycles;
      - a fault inside the body: the same fault, at the shifted line;
      - anything else (out of fuel, [RTS] at depth 0 into the enclosing frame and what follows,
        [RTS] with the empty stack, [RTI], a fault inside a callee): the very same outcome. *)
  Theorem embed_run : forall fuel k s tr cy, k <= length body ->
    emb_res (runbx fuel fname0 body k base 0 s tr cy)
            (runx fuel fname0 BIG (off + k) base s tr cy).
  Proof.
    intros fuel k s tr cy Hk. rewrite run_runb. apply runb_emb. constructor. exact Hk.
  Qed.

End Embed.
Print Assumptions embed_run.

Lemma slines_of_length : forall c sc, slines_of c = Some sc -> length sc = length c.
Proof. exact slines_length. Qed.

Lemma slabels_of : forall c sc, slines_of c = Some sc -> slabels sc = all_labels c.
Proof.
  apply slines_of_ind; [reflexivity|].
  intros x sx c sc Ex _ IH. unfold slabels, all_labels in *. cbn [flat_map]. rewrite IH. f_equal.
  destruct x as [l|i|t sz|cm|]; cbn [sline_of] in Ex;
    [|destruct (parse_operand (i_mn i) (i_op i)); [|discriminate Ex]| | |];
    injection Ex as <-; reflexivity.
Qed.

Lemma stargets_of : forall c sc, slines_of c = Some sc ->
  forall l, In l (stargets sc) -> In l (local_targets c).
Proof.
  apply (slines_of_ind (fun c sc => forall l, In l (stargets sc) -> In l (local_targets c)));
    [intros l []|].
  intros x sx c sc Ex _ IH l Hl. unfold stargets in Hl. unfold local_targets.
  cbn [flat_map] in *. apply in_or_app. apply in_app_or in Hl.
  destruct Hl as [Hl|Hl]; [left|right; apply IH; exact Hl].
  destruct x as [y|i|t sz|cm|]; cbn [sline_of] in Ex;
    [|destruct (parse_operand (i_mn i) (i_op i)) as [o|] eqn:Ep; [|discriminate Ex]| | |];
    injection Ex as <-; try destruct Hl.
  rewrite local_target_renames. destruct (renames_operand (i_mn i)) eqn:Em; [|destruct o; destruct Hl].
  unfold parse_operand in Ep. rewrite (renames_takes_label _ Em) in Ep.
  destruct (String.eqb (i_op i) ""); injection Ep as <-; [destruct Hl|exact Hl].
Qed.

Section Inline.
  Variable cfg : config.
  Variable prog : sprogram.
  Variable inl_sem : string -> mstate -> option mstate.
  Variable ext_call : string -> mstate -> option mstate.

  Notation runbx := (runb cfg prog inl_sem ext_call).
  Notation runx := (run cfg prog inl_sem ext_call).

  (** (A) and (B) together, on semantic code: a block [blk'] that simulates [blk] (traces
      compared by [T]), is closed and has fresh labels, put between [pre] and [post] *)
  Definition block_spec (T : list event -> list event -> Prop)
             (pre blk' post blk : list sline) : Prop :=
    forall fname stack fuel s tr cy,
    match runbx fuel fname blk 0 stack 0 s tr cy with
    | BEnd f s' tr' cy' =>
        exists tr'', T tr' tr'' /\
          runx fuel fname (pre ++ blk' ++ post) (length pre) stack s tr cy
          = runx f fname (pre ++ blk' ++ post) (length pre + length blk') stack s' tr'' cy'
    | BFault0 w fn pc s' =>
        runx fuel fname (pre ++ blk' ++ post) (length pre) stack s tr cy
        = Faulted w fn (length pre + pc) s'
    | BOut o =>
        outcome_rel T o (runx fuel fname (pre ++ blk' ++ post) (length pre) stack s tr cy)
    end.

  Lemma block_spec_mono : forall (T T' : list event -> list event -> Prop) pre blk' post blk,
    (forall t t', T t t' -> T' t t') ->
    block_spec T pre blk' post blk -> block_spec T' pre blk' post blk.
  Proof.
    intros T T' pre blk' post blk HT H fname stack fuel s tr cy.
    specialize (H fname stack fuel s tr cy).
    destruct (runbx fuel fname blk 0 stack 0 s tr cy) as [f s1 t1 cy1|w fn pc s1|o].
    - destruct H as [t2 [Ht H]]. exists t2. split; [apply HT; exact Ht|exact H].
    - exact H.
    - apply (outcome_rel_mono T T' _ _ HT H).
  Qed.

  Theorem block_run : forall (R : event -> event -> Prop) pre blk blk' post,
    (forall e, R e e) ->
    code_sim R blk blk' -> sclosed blk' ->
    (forall l, In l (slabels blk') -> ~ In l (slabels pre)) ->
    block_spec (tsim R) pre blk' post blk.
  Proof.
    intros R pre blk blk' post Hrefl Hsim Hcl Hfr fname stack fuel s tr cy.
    pose proof (runb_sim cfg prog inl_sem ext_call R Hrefl fuel fname blk blk' 0 stack stack 0
                         s tr tr cy Hsim (stack_sim_refl R Hrefl stack) (tsim_refl R Hrefl tr))
      as HA.
    pose proof (embed_run cfg prog inl_sem ext_call fname pre blk' post stack Hcl Hfr
                          fuel 0 s tr cy (Nat.le_0_l _)) as HB.
    rewrite Nat.add_0_r in HB. unfold emb_res in HB.
    destruct (runbx fuel fname blk 0 stack 0 s tr cy) as [f s1 t1 cy1|w fn pc s1|o];
      destruct (runbx fuel fname blk' 0 stack 0 s tr cy) as [f' s1' t1' cy1'|w' fn' pc' s1'|o'];
      cbn [bres_sim] in HA; try contradiction.
    - destruct HA as [-> [-> [-> Ht]]]. exists t1'. split; [exact Ht|exact HB].
    - destruct HA as [-> [-> [-> ->]]]. exact HB.
    - rewrite HB. exact HA.
  Qed.

  Definition endof_label (n : N) : string := (".endofinline" ++ string_of_N n)%string.

  Lemma push_code_slines : forall (dst body : code) (n : N) sd sb,
    slines_of dst = Some sd -> slines_of body = Some sb -> jump_ops_nonempty body ->
    slines_of (push_code dst body n)
    = Some (sd ++ map (rename_sline (suffix_of n)) (sb ++ [SLbl ".endof"])).
  Proof.
    intros dst body n sd sb Hd Hb Hne. unfold push_code, append_code.
    rewrite map_app, app_assoc. apply slines_app.
    - apply slines_app; [exact Hd|]. apply slines_of_rename; assumption.
    - reflexivity.
  Qed.

  Lemma inlined_block_closed : forall (body : code) sb n,
    slines_of body = Some sb ->
    (forall t, In t (local_targets body) -> In t (all_labels body) \/ t = ".endof"%string) ->
    sclosed (map (rename_sline (suffix_of n)) (sb ++ [SLbl ".endof"])).
  Proof.
    intros body sb n Hb Hcl. apply sclosed_rename. intros l Hl.
    rewrite stargets_app in Hl. cbn in Hl. rewrite app_nil_r in Hl.
    rewrite slabels_app. apply in_or_app.
    destruct (Hcl l (stargets_of body sb Hb l Hl)) as [H|H].
    - left. rewrite (slabels_of body sb Hb). exact H.
    - right. left. symmetry. exact H.
  Qed.

  Lemma inlined_block_fresh : forall (dst : code) sd sbE n,
    slines_of dst = Some sd ->
    (forall l, In l (all_labels dst) -> forall l0, l <> suffix_of n l0) ->
    forall l, In l (slabels (map (rename_sline (suffix_of n)) sbE)) -> ~ In l (slabels sd).
  Proof.
    intros dst sd sbE n Hd Hfr l Hl Hin. rewrite slabels_rename in Hl.
    apply in_map_iff in Hl. destruct Hl as [l0 [Hl0 _]].
    rewrite (slabels_of dst sd Hd) in Hin. exact (Hfr l Hin l0 (eq_sym Hl0)).
  Qed.

  (** The code made by [push_code dst body n] (whatever follows it, [post]), started at its
      line [length dst], does what the body followed by its [.endof] label does standalone
      ([runb], depth 0, same fuel, function name, stack, state, trace, cycles), namely:
      - the body runs to its end (past [.endof]) with [f] steps left: the big code arrives just
        after the line [.endofinline<n>] with [f] steps left, the same machine state and cycles
        and the same trace up to the raw operand text (suffixed) of the events of the protected
        branches/JMPs of the body;
      - fault in the body: same fault at the shifted line;
      - any other end: similar outcomes. *)
  Theorem push_code_run : forall (dst body : code) (n : N) (sd sb : list sline),
    slines_of dst = Some sd -> slines_of body = Some sb ->
    jump_ops_nonempty body ->
    (forall t, In t (local_targets body) -> In t (all_labels body) \/ t = ".endof"%string) ->
    (forall l, In l (all_labels dst) -> forall l0, l <> suffix_of n l0) ->
    let blk' := map (rename_sline (suffix_of n)) (sb ++ [SLbl ".endof"]) in
    slines_of (push_code dst body n) = Some (sd ++ blk') /\
    nth_error (sd ++ blk') (length sd + length sb) = Some (SLbl (endof_label n)) /\
    length blk' = S (length sb) /\
    forall post, block_spec (tsim (ev_ren (suffix_of n))) sd blk' post (sb ++ [SLbl ".endof"]).
  Proof.
    intros dst body n sd sb Hd Hb Hne Hcl Hfr blk'. split; [|split; [|split]].
    - apply push_code_slines; assumption.
    - rewrite nth_error_app2 by lia.
      replace (length sd + length sb - length sd) with (length sb) by lia.
      unfold blk'. rewrite map_app. rewrite nth_error_app2 by (rewrite map_length; lia).
      rewrite map_length, Nat.sub_diag. reflexivity.
    - unfold blk'. rewrite map_length, app_length. cbn [length]. lia.
    - intros post. apply block_run.
      + apply er_same.
      + apply rename_code_sim. apply suffix_inj_on.
      + apply (inlined_block_closed body sb n Hb Hcl).
      + apply (inlined_block_fresh dst sd _ n Hd Hfr).
  Qed.

  (** corollaries: the traces compared after erasing the raw operand text of branch/JMP events,
      and, weaker still, after removing these events *)
  Theorem push_code_run_erased : forall (dst body : code) (n : N) (sd sb : list sline),
    slines_of dst = Some sd -> slines_of body = Some sb ->
    jump_ops_nonempty body ->
    (forall t, In t (local_targets body) -> In t (all_labels body) \/ t = ".endof"%string) ->
    (forall l, In l (all_labels dst) -> forall l0, l <> suffix_of n l0) ->
    forall post,
      block_spec same_erased sd (map (rename_sline (suffix_of n)) (sb ++ [SLbl ".endof"])) post
                 (sb ++ [SLbl ".endof"]).
  Proof.
    intros dst body n sd sb Hd Hb Hne Hcl Hfr post.
    apply (block_spec_mono (tsim (ev_ren (suffix_of n)))); [apply tsim_ren_erased|].
    apply (push_code_run dst body n sd sb Hd Hb Hne Hcl Hfr).
  Qed.

  Theorem push_code_run_weak : forall (dst body : code) (n : N) (sd sb : list sline),
    slines_of dst = Some sd -> slines_of body = Some sb ->
    jump_ops_nonempty body ->
    (forall t, In t (local_targets body) -> In t (all_labels body) \/ t = ".endof"%string) ->
    (forall l, In l (all_labels dst) -> forall l0, l <> suffix_of n l0) ->
    forall post,
      block_spec same_nonjump sd (map (rename_sline (suffix_of n)) (sb ++ [SLbl ".endof"])) post
                 (sb ++ [SLbl ".endof"]).
  Proof.
    intros dst body n sd sb Hd Hb Hne Hcl Hfr post.
    apply (block_spec_mono same_erased); [apply same_erased_nonjump|].
    apply (push_code_run_erased dst body n sd sb Hd Hb Hne Hcl Hfr).
  Qed.

  Definition block_spec_eq (pre blk' post blk : list sline) : Prop :=
    forall fname stack fuel s tr cy,
    match runbx fuel fname blk 0 stack 0 s tr cy with
    | BEnd f s' tr' cy' =>
        runx fuel fname (pre ++ blk' ++ post) (length pre) stack s tr cy
        = runx f fname (pre ++ blk' ++ post) (length pre + length blk') stack s' tr' cy'
    | BFault0 w fn pc s' =>
        runx fuel fname (pre ++ blk' ++ post) (length pre) stack s tr cy
        = Faulted w fn (length pre + pc) s'
    | BOut o => runx fuel fname (pre ++ blk' ++ post) (length pre) stack s tr cy = o
    end.

  Lemma block_spec_all : forall pre blk' post blk,
    block_spec (tsim eq) pre blk' post blk -> block_spec_eq pre blk' post blk.
  Proof.
    intros pre blk' post blk H fname stack fuel s tr cy.
    specialize (H fname stack fuel s tr cy).
    destruct (runbx fuel fname blk 0 stack 0 s tr cy) as [f s1 t1 cy1|w fn pc s1|o].
    - destruct H as [t2 [Ht H]]. apply Forall2_eq_eq in Ht. subst t2. exact H.
    - exact H.
    - symmetry. apply outcome_sim_all_eq. exact H.
  Qed.

  (** (C) when no branch or [JMP] of the body is protected: traces are equal *)
  Theorem push_code_run_eq : forall (dst body : code) (n : N) (sd sb : list sline),
    slines_of dst = Some sd -> slines_of body = Some sb ->
    jump_ops_nonempty body -> unprot_jumps sb ->
    (forall t, In t (local_targets body) -> In t (all_labels body) \/ t = ".endof"%string) ->
    (forall l, In l (all_labels dst) -> forall l0, l <> suffix_of n l0) ->
    forall post,
      block_spec_eq sd (map (rename_sline (suffix_of n)) (sb ++ [SLbl ".endof"])) post
                    (sb ++ [SLbl ".endof"]).
  Proof.
    intros dst body n sd sb Hd Hb Hne Hup Hcl Hfr post.
    apply block_spec_all. apply block_run.
    - reflexivity.
    - apply rename_code_sim_strict; [apply suffix_inj_on|].
      intros m o p raw Hin Hm. apply in_app_or in Hin. destruct Hin as [Hin|[Hin|[]]].
      + exact (Hup m o p raw Hin Hm).
      + discriminate Hin.
    - apply (inlined_block_closed body sb n Hb Hcl).
    - apply (inlined_block_fresh dst sd _ n Hd Hfr).
  Qed.

End Inline.
Print Assumptions block_run.
Print Assumptions push_code_run.
Print Assumptions push_code_run_erased.
Print Assumptions push_code_run_weak.
Print Assumptions push_code_run_eq.

(** * Non-vacuity: a body with a loop (backward branch), protected instructions and a jump to
      [.endof], inlined with the counter 7 after a destination that has a label *)

Definition ex_body : code :=
  [ Ins (mkI LDX "#3" 2 None 2 false);
    Lbl ".loop";
    Ins (mkI DEX "" 2 None 1 true);
    Ins (mkI BNE ".loop" 2 (Some 3%N) 2 true);
    Ins (mkI JMP ".endof" 3 None 3 false);
    Ins (mkI LDX "#9" 2 None 2 false) ].
Definition ex_dst : code := [ Lbl "main"; Ins (mkI LDA "#1" 2 None 2 false) ].
Definition ex_sb : list sline :=
  [ SIns LDX (OImm (INum 3)) false "#3"; SLbl ".loop"; SIns DEX ONone true "";
    SIns BNE (OLbl ".loop") true ".loop"; SIns JMP (OLbl ".endof") false ".endof";
    SIns LDX (OImm (INum 9)) false "#9" ].
Definition ex_sd : list sline := [ SLbl "main"; SIns LDA (OImm (INum 1)) false "#1" ].
Definition ex_post : list sline := [ SIns RTS ONone false "" ].
Definition ex_big : list sline :=
  ex_sd ++ map (rename_sline (suffix_of 7)) (ex_sb ++ [SLbl ".endof"]).
Definition ex_cfg : config := mkCfg (fun _ => None) [].
Definition ex_none : string -> mstate -> option mstate := fun _ _ => None.
Definition ex_s0 : mstate := mkS 0 0 0 255 false false false false mem_empty.
Definition ex_s1 : mstate := mkS 0 0 0 255 false false true false mem_empty.

Example ex_slines : slines_of ex_dst = Some ex_sd /\ slines_of ex_body = Some ex_sb.
Proof. split; vm_compute; reflexivity. Qed.

Example ex_big_is_push_code :
  slines_of (push_code ex_dst ex_body 7) = Some ex_big /\
  ex_big = [ SLbl "main"; SIns LDA (OImm (INum 1)) false "#1";
             SIns LDX (OImm (INum 3)) false "#3"; SLbl ".loopinline7";
             SIns DEX ONone true "";
             SIns BNE (OLbl ".loopinline7") true ".loopinline7";
             SIns JMP (OLbl ".endofinline7") false ".endofinline7";
             SIns LDX (OImm (INum 9)) false "#9"; SLbl ".endofinline7" ].
Proof. split; vm_compute; reflexivity. Qed.

Example ex_nonempty : jump_ops_nonempty ex_body.
Proof.
  intros i Hin Hm E. cbn [ex_body In] in Hin.
  repeat (destruct Hin as [Hin|Hin];
          [try discriminate Hin; injection Hin as <-; cbn in Hm, E;
           first [discriminate Hm|discriminate E]|]).
  destruct Hin.
Qed.

Example ex_closed :
  forall t, In t (local_targets ex_body) -> In t (all_labels ex_body) \/ t = ".endof"%string.
Proof.
  intros t Ht. cbn in Ht. destruct Ht as [<-|[<-|[]]].
  - left. cbn. left. reflexivity.
  - right. reflexivity.
Qed.

Example ex_fresh : forall l, In l (all_labels ex_dst) -> forall l0, l <> suffix_of 7 l0.
Proof.
  intros l Hl l0 E. cbn in Hl. destruct Hl as [<-|[]].
  apply (f_equal String.length) in E. unfold suffix_of in E. rewrite length_app_s in E.
  assert (H7 : String.length (inline_suffix 7) = 7) by (vm_compute; reflexivity).
  rewrite H7 in E. cbn [String.length] in E. lia.
Qed.

(** the body alone: three turns of the loop, then the jump to [.endof], 12 steps *)
Example ex_standalone :
  runb ex_cfg [] ex_none ex_none 100 "main" (ex_sb ++ [SLbl ".endof"]) 0 [] 0 ex_s0 [] 0%N
  = BEnd 88 ex_s1
         [EvI BNE ".loop"; EvI DEX ""; EvI BNE ".loop"; EvI DEX ""; EvI BNE ".loop"; EvI DEX ""]
         19%N.
Proof. vm_compute. reflexivity. Qed.

Example ex_inlined :
  run ex_cfg [] ex_none ex_none 100 "main" (ex_big ++ ex_post) 2 [] ex_s0 [] 0%N
  = Halt ex_s1 [EvI DEX ""; EvI BNE ".loopinline7"; EvI DEX ""; EvI BNE ".loopinline7";
                EvI DEX ""; EvI BNE ".loopinline7"] 25%N.
Proof. vm_compute. reflexivity. Qed.

(** the protected branch of the body is still protected in the expansion: its events are in the
    trace, with the suffixed operand text; the arrival after [.endofinline7] *)
Example ex_inlined_arrival :
  run ex_cfg [] ex_none ex_none 100 "main" (ex_big ++ ex_post) 2 [] ex_s0 [] 0%N
  = run ex_cfg [] ex_none ex_none 88 "main" (ex_big ++ ex_post) 9 [] ex_s1
        [EvI BNE ".loopinline7"; EvI DEX ""; EvI BNE ".loopinline7"; EvI DEX "";
         EvI BNE ".loopinline7"; EvI DEX ""] 19%N.
Proof. vm_compute. reflexivity. Qed.

Example ex_push_code_run :
  exists tr'',
    tsim (ev_ren (suffix_of 7))
         [EvI BNE ".loop"; EvI DEX ""; EvI BNE ".loop"; EvI DEX ""; EvI BNE ".loop"; EvI DEX ""]
         tr'' /\
    run ex_cfg [] ex_none ex_none 100 "main" (ex_big ++ ex_post) 2 [] ex_s0 [] 0%N
    = run ex_cfg [] ex_none ex_none 88 "main" (ex_big ++ ex_post) 9 [] ex_s1 tr'' 19%N.
Proof.
  destruct ex_slines as [Hd Hb].
  destruct (push_code_run ex_cfg [] ex_none ex_none ex_dst ex_body 7 ex_sd ex_sb
                          Hd Hb ex_nonempty ex_closed ex_fresh) as [_ [_ [_ H]]].
  specialize (H ex_post "main" [] 100 ex_s0 [] 0%N).
  rewrite ex_standalone in H.
  destruct H as [t2 [Ht H]]. exists t2. split; [exact Ht|].
  unfold ex_big. rewrite <- app_assoc. exact H.
Qed.
Print Assumptions ex_push_code_run.
