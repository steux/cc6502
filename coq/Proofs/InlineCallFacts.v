(** C14, the other side: the OUT-OF-LINE spelling of an inlinable function does what the inline
    expansion does.

    The inline body [body] (its [return;] spelled [JMP .endof]) is either expanded by [push_code]
    (Proofs/InlineSemFacts.v: the expansion behaves like [body ++ [.endof:]] run on its own), or
    called: [JSR f], the program table holding [out_of_line body] = the body with every [JMP .endof]
    replaced by [RTS], followed by the RTS of the harness.  [JSR] pushes two marker bytes in the
    stack page and lowers S by two; the callee therefore runs in a state that differs from the
    inline one in S and in the two marker cells [256 + S], [256 + byte (S - 1)].

    [exec_mrel]            one instruction that uses neither the stack (PHA PLA PHP PLP JSR RTS RTI)
                           nor an operand that can denote the stack page does the same in two
                           states equal up to S and two cells of page 1
    [ret_of_endof_runs]    the out-of-line form, entered at 0 in [enter d s] under ANY call stack,
                           reaches one of its RTS lines exactly when the inline form (body, then
                           its [.endof] label), from [s], reaches its end; the states agree on
                           A, X, Y, the flags and all memory but the two marker cells; S as
                           entered; in lockstep ([_conv]: the converse)
    [inline_equals_call]   the caller with [JSR f] goes from the call to the next line, the caller
                           with the expansion from the first line of the expansion to the line
                           after [.endofinlineN], in states equal but for the two marker cells
                           ([eq_but_markers]); [inline_equals_call_conv]: conversely
    and the compiler's example, both spellings, by computation. *)
From Coq Require Import String Ascii List Bool Arith NArith ZArith Lia ZifyBool.
From CC Require Import Base.Str Asm.Lines M6502.Isa Asm.Operand M6502.Sem
  Model.OptSem Proofs.OptSemFacts Model.CheckBranches Model.CbSpec Model.InlineRename
  Proofs.InlineFacts Proofs.InlineSemFacts
  Proofs.ExecFacts Model.GenTemplates Proofs.GenTemplatesFacts Proofs.GenCmp16Facts Model.GenLoops
  Proofs.GenLoopsFacts Model.GenTables Model.GenIf Proofs.GenIfFacts
  Model.GenCtl Proofs.GenCtlFacts Model.GenCall Proofs.GenCallFacts Model.InlineCall.
Import ListNotations.
Open Scope string_scope.
Open Scope list_scope.
Open Scope Z_scope.

Definition mrel (m1 m2 : Z) (s sc : mstate) : Prop :=
  rA sc = rA s /\ rX sc = rX s /\ rY sc = rY s /\
  fN sc = fN s /\ fV sc = fV s /\ fZ sc = fZ s /\ fC sc = fC s /\
  forall a, 0 <= a -> a <> m1 -> a <> m2 -> mget (mem sc) a = mget (mem s) a.

Definition stack_free (m : mnem) : bool :=
  match m with PHA | PLA | PHP | PLP | JSR | RTS | RTI => false | _ => true end.

(** the operand can never denote a cell of the stack page (no indirection: its address would
    depend on memory) *)
Definition op_safe (cfg : config) (m : mnem) (o : operand) : Prop :=
  match o with
  | OInd _ _ => False
  | _ => forall s a md cr, eff_addr cfg m s o = Some (a, md, cr) -> ~ (256 <= a < 512)
  end.

Definition xres_rel (m1 m2 : Z) (s sc : mstate) (r rc : xres) : Prop :=
  match r, rc with
  | XOk s' k fl, XOk sc' kc flc =>
      k = kc /\ fl = flc /\ mrel m1 m2 s' sc' /\ rS s' = rS s /\ rS sc' = rS sc /\
      mget (mem sc') m1 = mget (mem sc) m1 /\ mget (mem sc') m2 = mget (mem sc) m2
  | XFault _, XFault _ => True
  | _, _ => False
  end.

(** all cells but the two markers *)
Definition but (m1 m2 a : Z) : Prop := 0 <= a /\ a <> m1 /\ a <> m2.

Lemma mrel_agree (m1 m2 : Z) (s sc : mstate) : mrel m1 m2 s sc <-> agree true false (but m1 m2) s sc.
Proof.
  unfold mrel, agree, but. split.
  - intros (HA & HX & HY & HN & HV & HZ & HC & HM). repeat split; auto; try discriminate.
    intros a (B0 & B1 & B2). symmetry. auto.
  - intros (HA & HX & HY & HV & HC & HNZ & _ & HM). destruct (HNZ eq_refl). repeat split; auto.
    intros a B0 B1 B2. symmetry. auto.
Qed.

Section ExecRel.
  Variable cfg : config.
  Hypothesis Hports : ports cfg = [].
  Variables m1 m2 : Z.
  Hypothesis Hm1 : 256 <= m1 < 512.
  Hypothesis Hm2 : 256 <= m2 < 512.

  Theorem exec_mrel : forall m o s sc, mrel m1 m2 s sc -> stack_free m = true -> op_safe cfg m o ->
    xres_rel m1 m2 s sc (exec cfg m o s) (exec cfg m o sc).
  Proof.
    intros m o s sc Hr Hsf Hs.
    assert (NS : on_stack m = false) by (destruct m; try discriminate Hsf; reflexivity).
    (* the cell the operand denotes is none of the markers *)
    assert (SAFE : forall t e md cr, eff_addr cfg m t o = Some (e, md, cr) -> but m1 m2 e).
    { intros t e md cr E. pose proof (eff_addr_range _ _ _ _ _ _ _ E) as R.
      destruct o; try discriminate E; [|contradiction]. pose proof (Hs t e md cr E). unfold but. lia. }
    assert (OC : forall a, opcell cfg m s o a -> but m1 m2 a).
    { intros a [(y & j & p & -> & _)|(e & md & cr & E & Ra)]; [contradiction|].
      rewrite Hports in Ra. injection Ra as <-. exact (SAFE s e md cr E). }
    pose proof (exec_agree true false (but m1 m2) cfg m o s sc (proj1 (mrel_agree _ _ _ _) Hr)
                  (fun _ => eq_refl) (fun H => False_ind _ (eq_true_false_abs _ H NS)) OC) as X.
    pose proof (exec_leaves cfg m o s) as K. pose proof (exec_leaves cfg m o sc) as Kc.
    destruct (exec cfg m o s) as [s' k f|w], (exec cfg m o sc) as [sc' kc fc|wc]; cbn [xagree xres_rel] in *;
      try exact I; try contradiction.
    destruct X as (-> & -> & X).
    destruct (K s' kc fc NS eq_refl) as (S1 & _). destruct (Kc sc' kc fc NS eq_refl) as (S2 & M).
    split; [reflexivity|]. split; [reflexivity|]. split; [apply mrel_agree, X|].
    split; [exact S1|]. split; [exact S2|].
    destruct M as [->|(e & md & cr & aw & v & E & W & ->)]; [split; reflexivity|].
    rewrite Hports in W. injection W as <-. destruct (SAFE sc e md cr E) as (A0 & A1 & A2).
    rewrite !mget_mset_other by lia. split; reflexivity.
  Qed.
End ExecRel.
Print Assumptions exec_mrel.

(** [JMP .endof] (unprotected) becomes [RTS] *)
Definition sret (x : sline) : sline :=
  match x with
  | SIns JMP (OLbl l) false raw => if String.eqb l ".endof" then SIns RTS ONone false "" else x
  | _ => x
  end.

Definition srts : sline := SIns RTS ONone false "".

(** the out-of-line function as the harness lays it out *)
Definition scallee (sb : list sline) : list sline := map sret sb ++ [srts].
Definition sinline (sb : list sline) : list sline := sb ++ [SLbl ".endof"].

Lemma sline_of_ret : forall l sx, sline_of l = Some sx -> sline_of (ret_line l) = Some (sret sx).
Proof.
  intros l sx H. unfold ret_line. destruct (is_endof_jmp l) eqn:E.
  - destruct l as [y|i|t sz|cm|]; try discriminate E. cbn [is_endof_jmp] in E.
    destruct (i_mn i) eqn:Em; try discriminate E. apply andb_true_iff in E. destruct E as [Eo Ep].
    apply String.eqb_eq in Eo. apply negb_true_iff in Ep.
    cbn [sline_of] in H. rewrite Em, Eo, Ep in H. cbn in H. injection H as <-. reflexivity.
  - rewrite H. f_equal. destruct sx as [y|m o p raw|t|]; try reflexivity.
    destruct m; try reflexivity. destruct o as [| | | |l0]; try reflexivity.
    destruct p; [reflexivity|]. cbn [sret].
    destruct (String.eqb_spec l0 ".endof") as [El|]; [|reflexivity]. exfalso.
    destruct l as [y|i|t sz|cm|]; cbn [sline_of] in H; try discriminate H.
    destruct (parse_operand (i_mn i) (i_op i)) as [o'|] eqn:Ep; [|discriminate H].
    injection H as Em Eo Epr Eraw. subst o'.
    unfold parse_operand in Ep. rewrite Em in Ep. cbn [takes_label] in Ep.
    destruct (String.eqb (i_op i) ""); [discriminate Ep|]. injection Ep as Eop.
    cbn [is_endof_jmp] in E. rewrite Em, Eop, El, Epr in E. cbn in E. discriminate E.
Qed.

Lemma slines_of_ret : forall body sb, slines_of body = Some sb ->
  slines_of (ret_of_endof body) = Some (map sret sb).
Proof.
  apply slines_of_ind; [reflexivity|].
  intros x sx body sb Ex _ IH. apply slines_of_cons; [apply sline_of_ret; exact Ex|exact IH].
Qed.

Lemma slines_of_out_of_line : forall body sb, slines_of body = Some sb ->
  slines_of (out_of_line body) = Some (scallee sb).
Proof.
  intros body sb H. unfold out_of_line, harness_fun, scallee.
  apply slines_app; [apply slines_of_ret; exact H|reflexivity].
Qed.

Definition safe_sline (cfg : config) (x : sline) : Prop :=
  match x with
  | SIns m o _ _ => stack_free m = true /\ op_safe cfg m o
  | SInl _ => False
  | _ => True
  end.

(** What is asked of an inlinable body:
    - its instructions use neither the hardware stack (no PHA PLA PHP PLP, no JSR, no RTS / RTI
      of its own) nor an operand that can denote a cell of the stack page, and it has no inline
      assembly;
    - it does not define the label [.endof];
    - [.endof] is referred to by unprotected [JMP]s only (the [return;] of an inline function) *)
Definition body_ok (cfg : config) (sb : list sline) : Prop :=
  (forall x, In x sb -> safe_sline cfg x) /\
  ~ In ".endof"%string (slabels sb) /\
  (forall m p raw, In (SIns m (OLbl ".endof") p raw) sb -> m = JMP /\ p = false).

Lemma find_label_sret : forall l sb k, l <> ".endof"%string ->
  find_label l (scallee sb) k = find_label l (sinline sb) k.
Proof.
  intros l sb. unfold scallee, sinline. induction sb as [|x sb IH]; intros k Hl.
  - cbn [map app find_label]. destruct (String.eqb_spec ".endof" l); [congruence|reflexivity].
  - destruct x as [y|m o p raw|t|]; cbn [map app]; try (cbn [sret find_label]; apply IH; exact Hl).
    + cbn [sret find_label]. destruct (String.eqb y l); [reflexivity|apply IH; exact Hl].
    + assert (E : forall r, find_label l (sret (SIns m o p raw) :: r) k = find_label l r (S k)).
      { intros r. unfold sret. destruct m; try reflexivity. destruct o; try reflexivity.
        destruct p; try reflexivity. destruct (String.eqb l0 ".endof"); reflexivity. }
      rewrite E. cbn [find_label]. apply IH. exact Hl.
Qed.

Lemma find_label_endof : forall sb, ~ In ".endof"%string (slabels sb) ->
  find_label ".endof" (sinline sb) 0 = Some (length sb).
Proof.
  intros sb H. unfold sinline. rewrite find_label_app, (find_label_notin _ sb 0 H).
  cbn [find_label]. rewrite String.eqb_refl. cbn [option_map]. rewrite Nat.add_0_r. reflexivity.
Qed.

Lemma find_label_lt : forall l sb k, l <> ".endof"%string ->
  find_label l (sinline sb) 0 = Some k -> (k < length sb)%nat.
Proof.
  intros l sb k Hl H. unfold sinline in H. rewrite find_label_app in H.
  destruct (find_label l sb 0) as [j|] eqn:E.
  - injection H as <-. apply (find_label_some_bound _ _ _ _ E).
  - cbn [find_label] in H. destruct (String.eqb_spec ".endof" l); [congruence|discriminate H].
Qed.

Lemma nth_scallee : forall sb pc, (pc < length sb)%nat ->
  nth_error (scallee sb) pc = option_map sret (nth_error sb pc).
Proof.
  intros sb pc H. unfold scallee. rewrite nth_error_app1 by (rewrite map_length; exact H).
  apply nth_error_map.
Qed.

Lemma nth_sinline : forall sb pc, (pc < length sb)%nat ->
  nth_error (sinline sb) pc = nth_error sb pc.
Proof. intros sb pc H. unfold sinline. apply nth_error_app1. exact H. Qed.

Lemma nth_scallee_end : forall sb, nth_error (scallee sb) (length sb) = Some srts.
Proof.
  intros sb. unfold scallee. rewrite nth_error_app2 by (rewrite map_length; lia).
  rewrite map_length, Nat.sub_diag. reflexivity.
Qed.

Lemma nth_sinline_end : forall sb, nth_error (sinline sb) (length sb) = Some (SLbl ".endof").
Proof.
  intros sb. unfold sinline. rewrite nth_error_app2 by lia. rewrite Nat.sub_diag. reflexivity.
Qed.

Lemma sinline_length : forall sb, length (sinline sb) = S (length sb).
Proof. intros sb. unfold sinline. rewrite app_length. cbn [length]. lia. Qed.

(** a run that reaches the end of the code has stopped: its length and its result are determined *)
Lemma stepn_end_det : forall cfg c n k pc s s1 s2,
  stepn cfg c n pc s = Some (length c, s1) -> stepn cfg c k pc s = Some (length c, s2) -> s1 = s2.
Proof.
  intros cfg c.
  assert (Hstop : forall k s s', stepn cfg c (S k) (length c) s <> Some (length c, s')).
  { intros k s s'. cbn [stepn]. rewrite (proj2 (nth_error_None c (length c))) by lia. discriminate. }
  induction n as [|n IH]; intros [|k] pc s s1 s2 H1 H2.
  - cbn [stepn] in H1, H2. congruence.
  - injection H1 as -> <-. destruct (Hstop _ _ _ H2).
  - injection H2 as -> <-. destruct (Hstop _ _ _ H1).
  - rewrite stepn_S in H1, H2. destruct (stepn cfg c 1 pc s) as [[pc' s']|]; [|discriminate H1].
    apply (IH k pc' s' s1 s2 H1 H2).
Qed.

(** the callee's state [sc] against the inline state [s]: equal up to S and the two marker cells
    [m1], [m2], which hold [v1], [v2] on the callee's side; [S0] is the stack pointer of [s],
    [S2] that of [sc] *)
Definition crel (m1 m2 v1 v2 S0 S2 : Z) (s sc : mstate) : Prop :=
  mrel m1 m2 s sc /\ rS s = S0 /\ rS sc = S2 /\
  mget (mem sc) m1 = v1 /\ mget (mem sc) m2 = v2.

Definition to_endof (x : sline) : bool :=
  match x with SIns _ (OLbl l) _ _ => String.eqb l ".endof" | _ => false end.

Lemma sret_same : forall x, to_endof x = false -> sret x = x.
Proof.
  intros [y|m o p raw|t|] H; try reflexivity. destruct m; try reflexivity.
  destruct o as [| | | |l]; try reflexivity. destruct p; try reflexivity.
  cbn [sret to_endof] in *. rewrite H. reflexivity.
Qed.

Section Lockstep.
  Variable cfg : config.
  Hypothesis Hports : ports cfg = [].
  Variable sb : list sline.
  Hypothesis Hok : body_ok cfg sb.
  Variables m1 m2 v1 v2 S0 S2 : Z.
  Hypothesis Hm1 : 256 <= m1 < 512.
  Hypothesis Hm2 : 256 <= m2 < 512.

  Notation R := (crel m1 m2 v1 v2 S0 S2).

  (** the lines where the callee returns: its last line and those of the [JMP .endof] *)
  Definition exit_line (pc : nat) : Prop :=
    pc = length sb \/ exists raw, nth_error sb pc = Some (SIns JMP (OLbl ".endof") false raw).

  Lemma exit_rts : forall pc, exit_line pc -> is_rts (scallee sb) pc.
  Proof.
    intros pc [->|(raw & Hn)]; exists ONone, false, ""%string; [apply nth_scallee_end|].
    rewrite nth_scallee by (apply nth_error_Some; congruence). rewrite Hn. reflexivity.
  Qed.

  Lemma exit_ends : forall pc s, exit_line pc ->
    exists k, stepn cfg (sinline sb) k pc s = Some (S (length sb), s).
  Proof.
    intros pc s Hx.
    assert (H1 : stepn cfg (sinline sb) 1 (length sb) s = Some (S (length sb), s))
      by (cbn [stepn]; rewrite nth_sinline_end; reflexivity).
    destruct Hx as [->|(raw & Hn)]; [exists 1%nat; exact H1|].
    exists 2%nat. rewrite stepn_S. cbn [stepn].
    rewrite nth_sinline, Hn by (apply nth_error_Some; congruence). cbn [exec].
    rewrite (find_label_endof sb (proj1 (proj2 Hok))). exact H1.
  Qed.

  Lemma line_cases : forall pc, (pc <= length sb)%nat ->
    exit_line pc \/ exists x, nth_error sb pc = Some x /\ to_endof x = false.
  Proof.
    intros pc Hpc. unfold exit_line. destruct (nth_error sb pc) as [x|] eqn:Hn;
      [|left; left; apply nth_error_None in Hn; lia].
    destruct (to_endof x) eqn:Ex; [left; right|right; eauto].
    destruct x as [y|m [| | | |l] p raw|t|]; try discriminate Ex.
    apply String.eqb_eq in Ex. subst l.
    destruct (proj2 (proj2 Hok) m p raw (nth_error_In _ _ Hn)) as (-> & ->). eauto.
  Qed.

  Lemma R_step : forall s sc m o, R s sc -> stack_free m = true -> op_safe cfg m o ->
    match exec cfg m o s, exec cfg m o sc with
    | XOk s' k fl, XOk sc' kc flc => fl = flc /\ R s' sc'
    | XFault _, XFault _ => True
    | _, _ => False
    end.
  Proof.
    intros s sc m o (Hr & E0 & E2 & K1 & K2) Hsf Hs.
    pose proof (exec_mrel cfg Hports m1 m2 Hm1 Hm2 m o s sc Hr Hsf Hs) as H.
    unfold xres_rel in H.
    destruct (exec cfg m o s) as [s' k fl|w]; destruct (exec cfg m o sc) as [sc' kc flc|wc];
      try contradiction; [|exact I].
    destruct H as (_ & Efl & Hr' & ES & ESc & M1 & M2).
    split; [exact Efl|]. split; [exact Hr'|]. repeat split; congruence.
  Qed.

  Lemma lockstep : forall pc x s sc, nth_error sb pc = Some x -> to_endof x = false -> R s sc ->
    match stepn cfg (sinline sb) 1 pc s, stepn cfg (scallee sb) 1 pc sc with
    | Some (pc', s'), Some (pcc, sc') => pcc = pc' /\ (pc' <= length sb)%nat /\ R s' sc'
    | None, None => True
    | _, _ => False
    end.
  Proof.
    intros pc x s sc Hn Hx Hr.
    assert (Hlt : (pc < length sb)%nat) by (apply nth_error_Some; congruence).
    pose proof (proj1 Hok x (nth_error_In _ _ Hn)) as Hsafe.
    cbn [stepn]. rewrite (nth_sinline sb pc Hlt), (nth_scallee sb pc Hlt), Hn. cbn [option_map].
    rewrite (sret_same x Hx). destruct x as [y|m o p raw|t|]; [auto|..|contradiction|auto].
    destruct Hsafe as (Hsf & Hos). pose proof (R_step s sc m o Hr Hsf Hos) as Hs.
    destruct (exec cfg m o s) as [s1 k fl|w] eqn:E1; destruct (exec cfg m o sc) as [sc1 kc flc|wc];
      try contradiction; [|exact I].
    destruct Hs as (<- & Hr1). destruct fl as [|l|f| |]; try exact I; [auto|].
    pose proof (proj2 (exec_flow _ _ _ _ _ _ _ E1)) as ->.
    apply String.eqb_neq in Hx. rewrite (find_label_sret l sb 0 Hx).
    destruct (find_label l (sinline sb) 0) as [k'|] eqn:Ef; [|exact I].
    pose proof (find_label_lt l sb k' Hx Ef). auto with arith.
  Qed.

  Lemma sim_fwd : forall n pc s sc s', (pc <= length sb)%nat -> R s sc ->
    stepn cfg (sinline sb) n pc s = Some (S (length sb), s') ->
    exists n' pr sc', stepn cfg (scallee sb) n' pc sc = Some (pr, sc') /\
      is_rts (scallee sb) pr /\ R s' sc'.
  Proof.
    induction n as [|n IH]; intros pc s sc s' Hpc Hr H;
      [injection H as E _; lia|].
    destruct (line_cases pc Hpc) as [Hx|(x & Hn & Hx)].
    - destruct (exit_ends pc s Hx) as (k & Hk). rewrite <- sinline_length in H, Hk.
      rewrite (stepn_end_det _ _ _ _ _ _ _ _ H Hk).
      exists O, pc, sc. split; [reflexivity|]. split; [apply exit_rts; exact Hx|exact Hr].
    - rewrite stepn_S in H. pose proof (lockstep pc x s sc Hn Hx Hr) as L.
      destruct (stepn cfg (sinline sb) 1 pc s) as [[pc1 s1]|]; [|discriminate H].
      destruct (stepn cfg (scallee sb) 1 pc sc) as [[pcc sc1]|] eqn:E1; [|contradiction].
      destruct L as (-> & Hpc1 & Hr1).
      destruct (IH pc1 s1 sc1 s' Hpc1 Hr1 H) as (n' & pr & sc' & Hs').
      exists (S n'), pr, sc'. rewrite stepn_S, E1. exact Hs'.
  Qed.

  Lemma sim_bwd : forall n pc s sc pr sc', (pc <= length sb)%nat -> R s sc ->
    stepn cfg (scallee sb) n pc sc = Some (pr, sc') -> is_rts (scallee sb) pr ->
    exists n' s', stepn cfg (sinline sb) n' pc s = Some (S (length sb), s') /\ R s' sc'.
  Proof.
    induction n as [|n IH]; intros pc s sc pr sc' Hpc Hr H Hrts;
      destruct (line_cases pc Hpc) as [Hx|(x & Hn & Hx)].
    - injection H as <- <-. destruct (exit_ends pc s Hx) as (k & Hk). exists k, s. auto.
    - exfalso. injection H as <- <-. destruct Hrts as (o & p & raw & Hc).
      rewrite nth_scallee, Hn in Hc by (apply nth_error_Some; congruence).
      cbn [option_map] in Hc. rewrite (sret_same x Hx) in Hc. injection Hc as ->.
      destruct (proj1 Hok _ (nth_error_In _ _ Hn)) as (Hsf & _). discriminate Hsf.
    - destruct (exit_rts pc Hx) as (o & p & raw & Hc). cbn [stepn] in H. rewrite Hc in H. discriminate H.
    - rewrite stepn_S in H. pose proof (lockstep pc x s sc Hn Hx Hr) as L.
      destruct (stepn cfg (scallee sb) 1 pc sc) as [[pcc sc1]|]; [|discriminate H].
      destruct (stepn cfg (sinline sb) 1 pc s) as [[pc1 s1]|] eqn:E1; [|contradiction].
      destruct L as (-> & Hpc1 & Hr1).
      destruct (IH pc1 s1 sc1 pr sc' Hpc1 Hr1 H Hrts) as (n' & s' & Hs').
      exists (S n'), s'. rewrite stepn_S, E1. exact Hs'.
  Qed.
End Lockstep.
Print Assumptions sim_fwd.
Print Assumptions sim_bwd.

Lemma enter_crel : forall d s, 0 <= rS s < 256 ->
  256 <= 256 + rS s < 512 /\ 256 <= 256 + byte (rS s - 1) < 512 /\
  crel (256 + rS s) (256 + byte (rS s - 1)) (byte d) (byte (255 - d)) (rS s) (rS (enter d s))
       s (enter d s).
Proof.
  intros d s HS. split; [lia|]. split; [arith_tac|].
  unfold crel, mrel, enter, push, byte. cbn [rA rX rY rS fN fV fZ fC mem set_sp set_mem].
  repeat split; try reflexivity.
  - intros a Ha N1 N2. rewrite !mget_mset_other by (Z.div_mod_to_equations; lia). reflexivity.
  - rewrite mget_mset_other by (Z.div_mod_to_equations; lia). apply mget_mset_same.
  - apply mget_mset_same.
Qed.

(** The out-of-line form [out_of_line body] (lines [scallee sb]) of an inlinable body, entered at
    its first line under ANY call stack, in the state the [JSR] enters it with ([enter d s]: the
    two markers pushed), goes to one of its RTS lines whenever the inline form (the body, then its
    [.endof] label: [sinline sb]) started in [s] reaches its end; the state [sc'] it is then in
    and the final state [s'] of the inline form have the same A, X, Y, flags and memory except
    the two marker cells, which still hold the markers; S is the S it was entered with, and the
    inline form has not changed S ([crel]). *)
Theorem ret_of_endof_runs : forall cfg prog body sb f stack d s n s',
  ports cfg = [] -> slines_of body = Some sb -> body_ok cfg sb -> 0 <= rS s < 256 ->
  stepn cfg (sinline sb) n 0 s = Some (S (length sb), s') ->
  slines_of (out_of_line body) = Some (scallee sb) /\
  exists pr sc',
    goes cfg prog f (scallee sb) stack 0 (enter d s) pr sc' /\ is_rts (scallee sb) pr /\
    crel (256 + rS s) (256 + byte (rS s - 1)) (byte d) (byte (255 - d)) (rS s) (rS (enter d s))
         s' sc'.
Proof.
  intros cfg prog body sb f stack d s n s' Hp Hsb Hok HS H.
  split; [apply slines_of_out_of_line; exact Hsb|].
  destruct (enter_crel d s HS) as (R1 & R2 & HR0).
  destruct (sim_fwd cfg Hp sb Hok _ _ _ _ _ _ R1 R2 n 0%nat s _ s' (Nat.le_0_l _) HR0 H)
    as (n' & pr & sc' & Hs & Hr & HR).
  exists pr, sc'. split; [apply (goes_stepn cfg prog f _ stack n' _ _ _ _ Hs)|]. split; assumption.
Qed.
Print Assumptions ret_of_endof_runs.

Theorem ret_of_endof_runs_conv : forall cfg body sb d s n pr sc',
  ports cfg = [] -> slines_of body = Some sb -> body_ok cfg sb -> 0 <= rS s < 256 ->
  stepn cfg (scallee sb) n 0 (enter d s) = Some (pr, sc') -> is_rts (scallee sb) pr ->
  exists n' s', stepn cfg (sinline sb) n' 0 s = Some (S (length sb), s') /\
    crel (256 + rS s) (256 + byte (rS s - 1)) (byte d) (byte (255 - d)) (rS s) (rS (enter d s))
         s' sc'.
Proof.
  intros cfg body sb d s n pr sc' Hp Hsb Hok HS H Hr.
  destruct (enter_crel d s HS) as (R1 & R2 & HR0).
  apply (sim_bwd cfg Hp sb Hok _ _ _ _ _ _ R1 R2 n 0%nat s _ pr sc' (Nat.le_0_l _) HR0 H Hr).
Qed.
Print Assumptions ret_of_endof_runs_conv.

(** the same registers (S included) and flags, the same memory except the two cells of the stack
    page where a [JSR] executed with the stack pointer [S0] leaves its markers *)
Definition eq_but_markers (s1 s2 : mstate) (S0 : Z) : Prop :=
  rA s1 = rA s2 /\ rX s1 = rX s2 /\ rY s1 = rY s2 /\ rS s1 = rS s2 /\
  fN s1 = fN s2 /\ fV s1 = fV s2 /\ fZ s1 = fZ s2 /\ fC s1 = fC s2 /\
  forall a, 0 <= a -> a <> 256 + S0 -> a <> 256 + byte (S0 - 1) ->
    mget (mem s1) a = mget (mem s2) a.

Lemma stepn_runb : forall cfg prog inl_sem ext_call c n pc s s' fname stack fuel tr cy,
  stepn cfg c n pc s = Some (length c, s') ->
  exists tr' cy',
    runb cfg prog inl_sem ext_call (n + S fuel) fname c pc stack 0 s tr cy = BEnd (S fuel) s' tr' cy'.
Proof.
  intros cfg prog inl_sem ext_call c. induction n as [|n IH];
    intros pc s s' fname stack fuel tr cy H.
  - cbn [stepn] in H. injection H as -> <-. cbn [Nat.add]. rewrite runb_S. unfold step.
    rewrite (proj2 (nth_error_None c (length c))) by lia. exists tr, cy. reflexivity.
  - cbn [stepn] in H. cbn [Nat.add]. rewrite runb_S. unfold step.
    destruct (nth_error c pc) as [[l|m o p raw|t|]|]; try discriminate H.
    + apply (IH _ _ _ _ _ _ _ _ H).
    + destruct (exec cfg m o s) as [s1 k fl|w]; [|discriminate H]. cbv zeta.
      destruct fl as [|l|f| |]; try discriminate H.
      * apply (IH _ _ _ _ _ _ _ _ H).
      * destruct (find_label l c 0) as [k'|]; [|discriminate H]. apply (IH _ _ _ _ _ _ _ _ H).
    + apply (IH _ _ _ _ _ _ _ _ H).
Qed.

(** The caller, up to the call: [sd].  Spelled with the call its lines are
    [c1 = sd ++ [JSR f] ++ post1], the program table holding [out_of_line body] for [f]; with the
    expansion they are [c2 = sd ++ blk' ++ post2], [blk'] the body and its exit label with the
    suffix [inlineN]: [slines_of (push_code dst body n) = Some (sd ++ blk')].
    If the inline form of the body, started in [s], reaches its end in [s2], then
      - [c1] goes from the [JSR] to the line after it, in a state [s1];
      - [c2] goes from the first line of the expansion to the line after [.endofinlineN], in [s2]
        (for every fuel, trace and cycle count; by [push_code_run] of Proofs/InlineSemFacts.v);
      - [s1] and [s2] have the same A, X, Y, S, flags, and the same memory except the two cells of
        the stack page below S, where the [JSR] left its markers.
    Whatever follows ([post1], [post2]) and whatever the call stack. *)
Theorem inline_equals_call : forall cfg prog inl_sem ext_call (dst body : code) (n : N) sd sb
    f fname stack post1 post2 p raw s k s2,
  ports cfg = [] ->
  slines_of dst = Some sd -> slines_of body = Some sb -> jump_ops_nonempty body ->
  (forall t, In t (local_targets body) -> In t (all_labels body) \/ t = ".endof"%string) ->
  (forall l, In l (all_labels dst) -> forall l0, l <> suffix_of n l0) ->
  body_ok cfg sb ->
  find_func f prog = Some (scallee sb) ->
  0 <= rS s < 256 ->
  stepn cfg (sinline sb) k 0 s = Some (S (length sb), s2) ->
  let blk' := map (rename_sline (suffix_of n)) (sinline sb) in
  slines_of (push_code dst body n) = Some (sd ++ blk') /\
  slines_of (out_of_line body) = Some (scallee sb) /\
  (exists s1,
     goes cfg prog fname (sd ++ [SIns JSR (OLbl f) p raw] ++ post1) stack (length sd) s
          (S (length sd)) s1 /\
     eq_but_markers s1 s2 (rS s)) /\
  (forall fuel tr cy, exists tr' cy',
     run cfg prog inl_sem ext_call (k + S fuel) fname (sd ++ blk' ++ post2) (length sd) stack s tr cy
     = run cfg prog inl_sem ext_call (S fuel) fname (sd ++ blk' ++ post2)
           (length sd + length blk') stack s2 tr' cy').
Proof.
  intros cfg prog inl_sem ext_call dst body n sd sb f fname stack post1 post2 p raw s k s2
    Hp Hd Hb Hne Hcl Hfr Hok Hf HS Hk blk'.
  destruct (push_code_run cfg prog inl_sem ext_call dst body n sd sb Hd Hb Hne Hcl Hfr)
    as (Hpc & _ & _ & Hspec).
  split; [exact Hpc|]. split; [apply slines_of_out_of_line; exact Hb|]. split.
  - destruct (ret_of_endof_runs cfg prog body sb f
                ((fname, sd ++ [SIns JSR (OLbl f) p raw] ++ post1, S (length sd)) :: stack)
                (Z.of_nat (length stack) + 1) s k s2 Hp Hb Hok HS Hk)
      as (_ & pr & sc' & Hg & Hr & (Hm & E0 & E2 & K1 & K2)).
    exists (set_sp sc' (rS s)). split.
    + apply (call_rule cfg prog fname _ stack (length sd) s f (scallee sb) p raw pr sc');
        [apply nth_error_mid|exact Hf|exact HS|exact Hg|exact Hr|exact E2|exact K1|exact K2].
    + destruct Hm as (EA & EX & EY & EN & EV & EZ & EC & Hmem).
      unfold eq_but_markers. cbn [rA rX rY rS fN fV fZ fC mem set_sp].
      repeat split; try assumption; try (symmetry; assumption).
  - intros fuel tr cy.
    assert (Hk' : stepn cfg (sinline sb) k 0 s = Some (length (sinline sb), s2))
      by (rewrite sinline_length; exact Hk).
    destruct (stepn_runb cfg prog inl_sem ext_call (sinline sb) k 0%nat s s2 fname stack fuel tr cy Hk')
      as (tr1 & cy1 & Hrun).
    pose proof (Hspec post2 fname stack (k + S fuel)%nat s tr cy) as Hs.
    unfold sinline in Hrun. rewrite Hrun in Hs. destruct Hs as (tr2 & _ & Hs).
    exists tr2, cy1. exact Hs.
Qed.
Print Assumptions inline_equals_call.

(** conversely: if the callee, entered by the [JSR], reaches one of its RTS lines, then the inline
    form reaches its end, and both callers go past the call / the expansion in states equal but
    for the markers *)
Theorem inline_equals_call_conv : forall cfg prog inl_sem ext_call (dst body : code) (n : N) sd sb
    f fname stack post1 post2 p raw s j pr sc',
  ports cfg = [] ->
  slines_of dst = Some sd -> slines_of body = Some sb -> jump_ops_nonempty body ->
  (forall t, In t (local_targets body) -> In t (all_labels body) \/ t = ".endof"%string) ->
  (forall l, In l (all_labels dst) -> forall l0, l <> suffix_of n l0) ->
  body_ok cfg sb ->
  find_func f prog = Some (scallee sb) ->
  0 <= rS s < 256 ->
  stepn cfg (scallee sb) j 0 (enter (Z.of_nat (length stack) + 1) s) = Some (pr, sc') ->
  is_rts (scallee sb) pr ->
  let blk' := map (rename_sline (suffix_of n)) (sinline sb) in
  exists k s2,
    stepn cfg (sinline sb) k 0 s = Some (S (length sb), s2) /\
    (exists s1,
       goes cfg prog fname (sd ++ [SIns JSR (OLbl f) p raw] ++ post1) stack (length sd) s
            (S (length sd)) s1 /\
       eq_but_markers s1 s2 (rS s)) /\
    (forall fuel tr cy, exists tr' cy',
       run cfg prog inl_sem ext_call (k + S fuel) fname (sd ++ blk' ++ post2) (length sd) stack s tr cy
       = run cfg prog inl_sem ext_call (S fuel) fname (sd ++ blk' ++ post2)
             (length sd + length blk') stack s2 tr' cy').
Proof.
  intros cfg prog inl_sem ext_call dst body n sd sb f fname stack post1 post2 p raw s j pr sc'
    Hp Hd Hb Hne Hcl Hfr Hok Hf HS Hj Hr blk'.
  destruct (ret_of_endof_runs_conv cfg body sb _ s j pr sc' Hp Hb Hok HS Hj Hr) as (k & s2 & Hk & _).
  exists k, s2. split; [exact Hk|].
  destruct (inline_equals_call cfg prog inl_sem ext_call dst body n sd sb f fname stack post1 post2
              p raw s k s2 Hp Hd Hb Hne Hcl Hfr Hok Hf HS Hk) as (_ & _ & H1 & H2).
  split; assumption.
Qed.
Print Assumptions inline_equals_call_conv.

(** * The compiler's example: [inline void f() { if (a) return; c = 1; }  void main() { f(); b = 2; }]

    The hypotheses hold of it (layout of Proofs/GenCallFacts.v: a, b, c at 128, 129, 130) ... *)
Definition ex_sb : list sline :=
  match slines_of ex_f_inline with Some sl => sl | None => [] end.

Lemma ex_slines : slines_of ex_f_inline = Some ex_sb.
Proof. vm_compute. reflexivity. Qed.

Lemma ex_body_ok : body_ok cfg_calls ex_sb.
Proof.
  assert (Hv : forall m y p, layout cfg_calls y = Some p -> 0 <= p < 256 ->
            op_safe cfg_calls m (OMem y 0 IxNone)).
  { intros m y p L R s a md cr E. pose proof (eff_addr_range cfg_calls m s _ a md cr E) as Ra.
    unfold eff_addr in E. rewrite L in E. cbn [shape_of] in E.
    destruct (resolve m ShMem (p + 0 <? 256)) as [md'|]; [|discriminate E].
    rewrite Z.add_0_r in E. destruct md'; injection E as <- _ _; arith_tac. }
  split; [|split].
  - intros x Hin. vm_compute in Hin.
    repeat match goal with H : _ \/ _ |- _ => destruct H as [H|H] end; try contradiction; subst x;
      cbn [safe_sline stack_free]; try exact I; (split; [reflexivity|]).
    + apply (Hv LDA "a"%string 128); [reflexivity|lia].
    + intros s a md cr E. discriminate E.
    + intros s a md cr E. discriminate E.
    + intros s a md cr E. discriminate E.
    + apply (Hv STA "c"%string 130); [reflexivity|lia].
  - vm_compute. intros [H|[]]. discriminate H.
  - intros m p raw Hin. vm_compute in Hin.
    repeat match goal with H : _ \/ _ |- _ => destruct H as [H|H] end; try contradiction;
      try discriminate Hin. injection Hin as <- <- _. split; reflexivity.
Qed.
Print Assumptions ex_body_ok.

(** ... so, for every state with a byte-valued S, every call stack and whatever follows: if the
    inline form of [f] ends, the call and the expansion leave the caller in states equal but for
    the two marker cells *)
Corollary ex_inline_equals_call : forall prog inl_sem ext_call fname stack post1 post2 s k s2,
  find_func "f" prog = Some (scallee ex_sb) -> 0 <= rS s < 256 ->
  stepn cfg_calls (sinline ex_sb) k 0 s = Some (S (length ex_sb), s2) ->
  let blk' := map (rename_sline (suffix_of 1)) (sinline ex_sb) in
  (exists s1,
     goes cfg_calls prog fname ([SIns JSR (OLbl "f") false "f"] ++ post1) stack 0 s 1 s1 /\
     eq_but_markers s1 s2 (rS s)) /\
  (forall fuel tr cy, exists tr' cy',
     run cfg_calls prog inl_sem ext_call (k + S fuel) fname (blk' ++ post2) 0 stack s tr cy
     = run cfg_calls prog inl_sem ext_call (S fuel) fname (blk' ++ post2) (length blk') stack s2 tr' cy').
Proof.
  intros prog inl_sem ext_call fname stack post1 post2 s k s2 Hf HS Hk blk'.
  destruct (inline_equals_call cfg_calls prog inl_sem ext_call [] ex_f_inline 1 [] ex_sb "f" fname
              stack post1 post2 false "f" s k s2 eq_refl eq_refl ex_slines) as (_ & _ & H1 & H2);
    try assumption.
  - intros i Hin Hren. unfold ex_f_inline in Hin. cbn [In] in Hin.
    repeat match goal with H : _ \/ _ |- _ => destruct H as [H|H] end; try contradiction;
      try discriminate Hin; injection Hin as <-; cbn [i_op ins] in *; try discriminate Hren;
      discriminate.
  - intros t Hin. vm_compute in Hin. destruct Hin as [<-|[<-|[]]];
      [left; vm_compute; left; reflexivity|right; reflexivity].
  - intros l [].
  - apply ex_body_ok.
  - split; [exact H1|exact H2].
Qed.
Print Assumptions ex_inline_equals_call.

(** ... and both spellings of the whole program (main with the RTS of the harness), run by
    computation from a = 0 and from a = 1, S = 255: the result is [(a, b, c, A, X, Y, S)] *)
Definition ex_prog_call : sprogram :=
  match prog_of [("f"%string, ret_of_endof ex_f_inline)] with Some p => p | None => [] end.

Definition run_ex (prog : sprogram) (main : code) (st : mstate) : option (Z * Z * Z * Z * Z * Z * Z) :=
  match slines_of (harness_fun main) with
  | Some sl =>
      match Sem.run cfg_calls prog (fun _ _ => None) (fun _ _ => None) 100 "main" sl 0 [] st [] 0%N with
      | Halt s' _ _ =>
          Some (mget (mem s') 128, mget (mem s') 129, mget (mem s') 130, rA s', rX s', rY s', rS s')
      | _ => None
      end
  | None => None
  end.

Example ex_both_spellings_a0 :
  run_ex ex_prog_call ex_main_call (st_calls 0 9) = Some (0, 2, 1, 2, 7, 2, 255) /\
  run_ex [] ex_main_inline (st_calls 0 9) = Some (0, 2, 1, 2, 7, 2, 255).
Proof. vm_compute. split; reflexivity. Qed.

Example ex_both_spellings_a1 :
  run_ex ex_prog_call ex_main_call (st_calls 1 9) = Some (1, 2, 0, 2, 7, 2, 255) /\
  run_ex [] ex_main_inline (st_calls 1 9) = Some (1, 2, 0, 2, 7, 2, 255).
Proof. vm_compute. split; reflexivity. Qed.

(** the program table of the example is the one [inline_equals_call] asks for *)
Lemma ex_prog_has_f : find_func "f" ex_prog_call = Some (scallee ex_sb).
Proof. vm_compute. reflexivity. Qed.
