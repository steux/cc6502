(** Correctness (or refutation) of the 16-bit conditional sequences of the code generator
    (Model/GenCmp16.v) on the executable 6502 semantics (M6502/Sem.v).

    Shape of the theorems, as in Proofs/GenTemplatesFacts.v: for all configurations, names,
    addresses and byte-valued machine states [st],

      ports cfg = [], var_name of the names, layout cfg v = Some pv, address ranges,
      the labels non-empty and pairwise distinct (only those the form uses),
      [cctmp] (at [pcc]) is not the HIGH cell of an operand and not the destination,
      exists st', runs_to cfg (code16 ...) st st'
        /\ mget (mem st') pd = (if <C condition on word (mem st) px ...> then 1 else mget (mem st) pd)
        /\ only_changes [pd; pcc] st st'  ([pd] alone for the forms that do not use [cctmp])
        /\ keeps_xys st st'.

    Sequences emitted NOW ([code16]): every unsigned form is correct for all states.  The six
    comparisons [rel16 o] against any right operand given by its two bytes ([if16_gen]: listings
    01 .. 11 and 20, [if (x16 < y8)]; [!= k] is not a listing instance), the zero tests
    (12 .. 15), and one iteration of the do-while forms (16 17), the latter on [Sem.run] over the
    WHOLE sequence (loop label and backward branch included), see [iter_to].
    The signed forms (18 19) are WRONG: they test the sign of the difference and ignore overflow
    ([.._char]).  They are correct iff -32768 <= x - y <= 32767 on the signed values
    ([.._correct_no_overflow]) and take the opposite decision on EVERY other pair
    ([.._wrong_on_overflow]; [.._refuted]: ss = -32768, st = 1 and ss = 32767, st = -1).
    Sequences emitted BEFORE the repair ([code16_old]): [if (x > y)] is the same code as now.
    The old [<=] decides [x <= y /\ y - x < 65281] and the old do-while [>] loops iff
    [x > y \/ y - x >= 65281]: correct iff y - x < 65281 (0xFF01), so for a constant k < 65281
    such as the listing's 1000; refuted at s = 0, t = 0xFF01, where the do-while never ends
    ([run_old_dogt_diverges]).

    Infrastructure: [stepn], a step-counting executor that follows any branch.  Its runs are runs
    of [Sem.run], under any call stack ([stepn_run], from the one line of [step1_run]); a halting
    run of [Sem.run] on code alone that does not return is one of its runs ([run_halt_stepn]), and
    its runs are the same inside a larger code ([stepn_embed]).  [reach], its weakest-precondition
    form, with one rule per kind of line; [runs_to_reach] and [iter_reach] bring the results back
    to [runs_to] / [iter_to].
    Every sequence is the 16-bit subtraction followed by branches on its flags.  The subtraction is
    executed once, for every right operand given by the two texts that read its bytes ([reads] of
    Proofs/GenTemplatesFacts.v: a byte of a variable or a constant): [reach_sub16] leaves a low
    byte [l], a high byte [h] and a carry [c] of which only
    [sub16_post] is known; [rel16_flags], [old_le_flags], [sign_flags] restate the C conditions as
    functions of [l], [h], [c].  A theorem rewrites its condition that way and then executes each
    path symbolically ([fstep]), deciding a flag where it is tested, so that at
    the end of a path ([leaf]) nothing is left to decide. *)
From Coq Require Import String Ascii List Bool Arith NArith ZArith Lia ZifyBool.
From CC Require Import Base.Str Asm.Lines M6502.Isa Asm.Operand M6502.Sem
  Model.OptSem Proofs.OptSemFacts Proofs.ExecFacts Model.GenTemplates Proofs.GenTemplatesFacts Model.GenCmp16.
Import ListNotations.
Open Scope string_scope.
Open Scope list_scope.
Open Scope Z_scope.

Fixpoint stepn (cfg : config) (c : list sline) (n : nat) (pc : nat) (s : mstate)
  : option (nat * mstate) :=
  match n with
  | O => Some (pc, s)
  | S n' =>
      match nth_error c pc with
      | Some (SLbl _) | Some SSkip => stepn cfg c n' (S pc) s
      | Some (SIns m o _ _) =>
          match exec cfg m o s with
          | XOk s' _ FNext => stepn cfg c n' (S pc) s'
          | XOk s' _ (FGoto l) =>
              match find_label l c 0 with
              | Some k => stepn cfg c n' k s'
              | None => None
              end
          | _ => None
          end
      | _ => None
      end
  end.

(** one step, then the rest *)
Lemma stepn_S : forall cfg c n pc s,
  stepn cfg c (S n) pc s = match stepn cfg c 1 pc s with
                           | Some (pc', s') => stepn cfg c n pc' s'
                           | None => None
                           end.
Proof.
  intros cfg c n pc s. cbn [stepn].
  destruct (nth_error c pc) as [[l|m o p raw|t|]|]; try reflexivity.
  destruct (exec cfg m o s) as [s' k fl|]; [|reflexivity].
  destruct fl as [|l|f| |]; try reflexivity. destruct (find_label l c 0); reflexivity.
Qed.

Lemma stepn_add : forall cfg c n1 n2 pc s pc1 s1,
  stepn cfg c n1 pc s = Some (pc1, s1) ->
  stepn cfg c (n1 + n2) pc s = stepn cfg c n2 pc1 s1.
Proof.
  intros cfg c. induction n1 as [|n1 IH]; intros n2 pc s pc1 s1 H.
  - injection H as <- <-. reflexivity.
  - cbn [Nat.add]. rewrite stepn_S in H |- *.
    destruct (stepn cfg c 1 pc s) as [[pc2 s2]|]; [|discriminate H]. apply IH. exact H.
Qed.

(** a line that [stepn] executes, in [Sem.run]: under any call stack, in any program *)
Lemma step1_run : forall cfg c pc s pc' s', stepn cfg c 1 pc s = Some (pc', s') ->
  forall prog inl_sem ext_call fuel fname stack tr cy, exists tr' cy',
    Sem.run cfg prog inl_sem ext_call (S fuel) fname c pc stack s tr cy
    = Sem.run cfg prog inl_sem ext_call fuel fname c pc' stack s' tr' cy'.
Proof.
  intros cfg c pc s pc' s' H prog inl_sem ext_call fuel fname stack tr cy.
  rewrite run_S. cbn [stepn] in H.
  destruct (nth_error c pc) as [[l|m o p raw|t|]|]; try discriminate H.
  - injection H as <- <-. eauto.
  - destruct (exec cfg m o s) as [s1 k fl|why]; [|discriminate H]. cbv zeta.
    destruct fl as [|l|f| |]; try discriminate H.
    + injection H as <- <-. eauto.
    + destruct (find_label l c 0) as [k'|]; [|discriminate H]. injection H as <- <-. eauto.
  - injection H as <- <-. eauto.
Qed.

Theorem stepn_run : forall cfg c n pc s pc' s',
  stepn cfg c n pc s = Some (pc', s') ->
  forall prog inl_sem ext_call fuel fname stack tr cy, exists tr' cy',
    Sem.run cfg prog inl_sem ext_call (n + fuel) fname c pc stack s tr cy
    = Sem.run cfg prog inl_sem ext_call fuel fname c pc' stack s' tr' cy'.
Proof.
  intros cfg c. induction n as [|n IH]; intros pc s pc' s' H prog inl_sem ext_call fuel fname stack tr cy.
  - injection H as <- <-. exists tr, cy. reflexivity.
  - rewrite stepn_S in H. destruct (stepn cfg c 1 pc s) as [[pc1 s1]|] eqn:E1; [|discriminate H].
    destruct (step1_run _ _ _ _ _ _ E1 prog inl_sem ext_call (n + fuel) fname stack tr cy)
      as (tr1 & cy1 & E). cbn [Nat.add]. rewrite E. apply (IH _ _ _ _ H).
Qed.
Print Assumptions stepn_run.

Lemma stepn_halts : forall cfg c n st st', stepn cfg c n 0 st = Some (length c, st') ->
  forall prog inl_sem ext_call fname fuel, (n < fuel)%nat ->
    exists tr cy, Sem.run cfg prog inl_sem ext_call fuel fname c 0 [] st [] 0%N = Halt st' tr cy.
Proof.
  intros cfg c n st st' Hs prog inl_sem ext_call fname fuel Hf.
  destruct (stepn_run cfg c n 0 st _ st' Hs prog inl_sem ext_call (S (fuel - n - 1)) fname [] [] 0%N)
    as (tr' & cy' & Hr).
  replace fuel with (n + S (fuel - n - 1))%nat by lia. rewrite Hr, run_off_end. eauto.
Qed.

Lemma stepn_bytes_ok : forall cfg c n pc s pc' s',
  stepn cfg c n pc s = Some (pc', s') -> bytes_ok s -> bytes_ok s'.
Proof.
  intros cfg c n pc s pc' s' H Hb.
  destruct (stepn_run cfg c n pc s pc' s' H [] (fun _ _ => None) (fun _ _ => None) O ""%string [] [] 0%N)
    as (tr' & cy' & E).
  pose proof (run_bytes_ok cfg [] (fun _ _ => None) (fun _ _ => None)
                ltac:(discriminate) ltac:(discriminate) (n + 0) ""%string c pc [] s [] 0%N Hb) as G.
  rewrite E in G. exact G.
Qed.

(** conversely: a run of [Sem.run] on [c] alone (no program around it, empty call stack) that halts
    is a run of [stepn] to the end of [c], unless [c] returns *)
Theorem run_halt_stepn : forall cfg c,
  (forall m o p raw, In (SIns m o p raw) c -> m <> RTS /\ m <> RTI) ->
  forall fuel fname pc s tr cy s' tr' cy', (pc <= length c)%nat ->
    Sem.run cfg [] (fun _ _ => None) (fun _ _ => None) fuel fname c pc [] s tr cy = Halt s' tr' cy' ->
    exists n, (n < fuel)%nat /\ stepn cfg c n pc s = Some (length c, s').
Proof.
  intros cfg c Hnr. induction fuel as [|fuel IH]; intros fname pc s tr cy s' tr' cy' Hpc H; [discriminate H|].
  assert (Hstep : forall pc1 s1 tr1 cy1, stepn cfg c 1 pc s = Some (pc1, s1) -> (pc1 <= length c)%nat ->
            Sem.run cfg [] (fun _ _ => None) (fun _ _ => None) fuel fname c pc1 [] s1 tr1 cy1
            = Halt s' tr' cy' ->
            exists n, (n < S fuel)%nat /\ stepn cfg c n pc s = Some (length c, s')).
  { intros pc1 s1 tr1 cy1 E1 H1 R1. destruct (IH fname pc1 s1 tr1 cy1 s' tr' cy' H1 R1) as (n & Hn & Hs).
    exists (S n). split; [lia|]. rewrite stepn_S, E1. exact Hs. }
  rewrite run_S in H. cbn [stepn] in Hstep. revert H Hstep.
  destruct (nth_error c pc) as [x|] eqn:En; intros H Hstep.
  - assert (Hlt : (pc < length c)%nat) by (apply nth_error_Some; congruence).
    destruct x as [l|m o p raw|t|];
      [exact (Hstep _ _ _ _ eq_refl Hlt H)| |discriminate H|exact (Hstep _ _ _ _ eq_refl Hlt H)].
    revert H Hstep. destruct (exec cfg m o s) as [s1 k fl|why] eqn:Ex; [|discriminate]. cbv zeta.
    destruct fl as [|l|f| |]; intros H Hstep.
    + exact (Hstep _ _ _ _ eq_refl Hlt H).
    + revert H Hstep. destruct (find_label l c 0) as [k'|] eqn:Ef; [|discriminate]. intros H Hstep.
      pose proof (find_label_some_bound _ _ _ _ Ef). exact (Hstep _ _ _ _ eq_refl ltac:(lia) H).
    + discriminate H.
    + destruct (proj1 (Hnr m o p raw (nth_error_In _ _ En)) (exec_flow _ _ _ _ _ _ _ Ex)).
    + destruct (proj2 (Hnr m o p raw (nth_error_In _ _ En)) (exec_flow _ _ _ _ _ _ _ Ex)).
  - injection H as <- _ _. apply nth_error_None in En. replace pc with (length c) by lia.
    exists O. split; [lia|reflexivity].
Qed.

(** the same steps inside [pre ++ c ++ post], if [pre] defines no label that [c] defines *)
Lemma stepn_embed : forall cfg c pre post,
  (forall l j, find_label l c 0 = Some j -> find_label l pre 0 = None) ->
  forall n pc s pc' s', stepn cfg c n pc s = Some (pc', s') ->
    stepn cfg (pre ++ c ++ post) n (length pre + pc) s = Some ((length pre + pc')%nat, s').
Proof.
  intros cfg c pre post Hfresh. induction n as [|n IH]; intros pc s pc' s' H.
  - injection H as <- <-. reflexivity.
  - rewrite stepn_S in H |- *. destruct (stepn cfg c 1 pc s) as [[pc1 s1]|] eqn:E1; [|discriminate H].
    enough (E : stepn cfg (pre ++ c ++ post) 1 (length pre + pc) s = Some ((length pre + pc1)%nat, s1))
      by (rewrite E; apply IH; exact H).
    cbn [stepn] in E1 |- *.
    destruct (nth_error c pc) as [x|] eqn:En; [|discriminate E1].
    rewrite nth_embed by (apply nth_error_Some; congruence). rewrite En, <- Nat.add_succ_r.
    destruct x as [l|m o p raw|t|]; try discriminate E1.
    + injection E1 as <- <-. reflexivity.
    + destruct (exec cfg m o s) as [s2 k fl|why]; [|discriminate E1].
      destruct fl as [|l|f| |]; try discriminate E1.
      * injection E1 as <- <-. reflexivity.
      * destruct (find_label l c 0) as [k'|] eqn:Ef; [|discriminate E1]. injection E1 as <- <-.
        rewrite find_label_app, (Hfresh l k' Ef), find_label_app, Ef. reflexivity.
    + injection E1 as <- <-. reflexivity.
Qed.

Definition reach (cfg : config) (c : list sline) (pc : nat) (s : mstate)
  (Q : nat -> nat -> mstate -> Prop) : Prop :=
  exists n pc' s', stepn cfg c n pc s = Some (pc', s') /\ Q n pc' s'.

Lemma reach_stop : forall cfg c pc s (Q : nat -> nat -> mstate -> Prop),
  Q O pc s -> reach cfg c pc s Q.
Proof. intros cfg c pc s Q H. exists O, pc, s. split; [reflexivity|exact H]. Qed.

Lemma reach_lbl : forall cfg c pc s l (Q : nat -> nat -> mstate -> Prop),
  nth_error c pc = Some (SLbl l) ->
  reach cfg c (S pc) s (fun n => Q (S n)) -> reach cfg c pc s Q.
Proof.
  intros cfg c pc s l Q Hn (n & pc' & s' & Hs & HQ). exists (S n), pc', s'.
  split; [|exact HQ]. cbn [stepn]. rewrite Hn. exact Hs.
Qed.

Lemma reach_next : forall cfg c pc s m o p raw s' k (Q : nat -> nat -> mstate -> Prop),
  nth_error c pc = Some (SIns m o p raw) -> exec cfg m o s = XOk s' k FNext ->
  reach cfg c (S pc) s' (fun n => Q (S n)) -> reach cfg c pc s Q.
Proof.
  intros cfg c pc s m o p raw s' k Q Hn He (n & pc' & s'' & Hs & HQ). exists (S n), pc', s''.
  split; [|exact HQ]. cbn [stepn]. rewrite Hn, He. exact Hs.
Qed.

Lemma reach_branch : forall cfg c pc s m l p raw k' (Q : nat -> nat -> mstate -> Prop),
  nth_error c pc = Some (SIns m (OLbl l) p raw) -> is_cond_branch m = true ->
  find_label l c 0 = Some k' ->
  (if branch_taken m s then reach cfg c k' s (fun n => Q (S n))
   else reach cfg c (S pc) s (fun n => Q (S n))) ->
  reach cfg c pc s Q.
Proof.
  intros cfg c pc s m l p raw k' Q Hn Hm Hf H.
  destruct (branch_taken m s) eqn:Eb; destruct H as (n & pc' & s' & Hs & HQ);
    exists (S n), pc', s'; (split; [|exact HQ]); cbn [stepn]; rewrite Hn;
    rewrite (exec_branch cfg m l s Hm), Eb; [rewrite Hf|]; exact Hs.
Qed.

Lemma reach_jmp : forall cfg c pc s l p raw k' (Q : nat -> nat -> mstate -> Prop),
  nth_error c pc = Some (SIns JMP (OLbl l) p raw) ->
  find_label l c 0 = Some k' ->
  reach cfg c k' s (fun n => Q (S n)) -> reach cfg c pc s Q.
Proof.
  intros cfg c pc s l p raw k' Q Hn Hf (n & pc' & s' & Hs & HQ). exists (S n), pc', s'.
  split; [|exact HQ]. cbn [stepn]. rewrite Hn. cbn [exec]. rewrite Hf. exact Hs.
Qed.

Lemma runs_to_reach : forall cfg c sl st (P : mstate -> Prop),
  slines_of c = Some sl ->
  reach cfg sl 0 st (fun (n pc' : nat) (s' : mstate) => (n <= length sl)%nat /\ pc' = length sl /\ P s') ->
  exists st', runs_to cfg c st st' /\ P st'.
Proof.
  intros cfg c sl st P Hsl (n & pc' & s' & Hs & Hn & Hpc & HP). subst pc'.
  exists s'. split; [|exact HP]. exists sl. split; [exact Hsl|].
  intros prog inl_sem ext_call fname fuel Hf. apply (stepn_halts cfg sl n st s' Hs). lia.
Qed.

(** [0 < n <= length sl]: a single pass, which ends at the loop label again ([again = true]) or
    past the last line ([again = false]) *)
Definition iter_to (cfg : config) (c : code) (lloop : string) (st : mstate) (again : bool)
  (st' : mstate) : Prop :=
  exists sl, slines_of c = Some sl /\ nth_error sl 0 = Some (SLbl lloop) /\
    exists n, (0 < n <= length sl)%nat /\
      forall prog inl_sem ext_call fname fuel tr cy, exists tr' cy',
        Sem.run cfg prog inl_sem ext_call (n + fuel) fname sl 0 [] st tr cy
        = Sem.run cfg prog inl_sem ext_call fuel fname sl
            (if again then 0%nat else length sl) [] st' tr' cy'.

Lemma iter_reach : forall cfg c sl lloop st (again : bool) (P : mstate -> Prop),
  slines_of c = Some sl -> nth_error sl 0 = Some (SLbl lloop) ->
  reach cfg sl 0 st (fun (n pc' : nat) (s' : mstate) =>
    (0 < n <= length sl)%nat /\ pc' = (if again then 0%nat else length sl) /\ P s') ->
  exists st', iter_to cfg c lloop st again st' /\ P st'.
Proof.
  intros cfg c sl lloop st again P Hsl H0 (n & pc' & s' & Hs & Hn & Hpc & HP). subst pc'.
  exists s'. split; [|exact HP]. exists sl. split; [exact Hsl|]. split; [exact H0|].
  exists n. split; [exact Hn|].
  intros prog inl_sem ext_call fname fuel tr cy.
  apply (stepn_run cfg sl n 0 st _ s' Hs).
Qed.

Lemma cctmp_var_name : var_name cctmp.
Proof. apply ident_var_name; [discriminate|reflexivity]. Qed.

(** the sequence assembles: [slines_of (code16 ..) = Some ?sl] *)
Ltac code16_tac :=
  cbn [code16 code16_old sub16 branch16 branch16_old_le set1 keeps_lo app]; slines_tac.

(** [String.eqb] facts from the distinctness hypotheses on labels *)
Ltac lbl_facts :=
  repeat match goal with
  | H : ?a <> ?b |- _ =>
      lazymatch type of a with
      | string =>
          lazymatch goal with
          | _ : String.eqb a b = false |- _ => fail
          | _ => pose proof (proj2 (String.eqb_neq a b) H);
                 pose proof (proj2 (String.eqb_neq b a) (fun e => H (eq_sym e)))
          end
      | _ => fail
      end
  end.

(** rewriting with them, a [find_label] in the assembled sequence computes *)
Ltac eqb_rewrite :=
  repeat first
    [ rewrite String.eqb_refl
    | match goal with E : String.eqb _ _ = false |- _ => rewrite E end ].

(** one line of a [reach] goal: a label, an instruction that falls through ([exec_solve] gives its
    effect), a conditional branch (both ways, the flag it tests destructed, with an equation that
    says which way it is), a JMP *)
Ltac rlbl := eapply reach_lbl; [reflexivity|].
Ltac rnext := eapply reach_next; [reflexivity|exec_solve|].
Ltac rbranch :=
  eapply reach_branch;
  [ reflexivity | reflexivity | cbn [find_label]; eqb_rewrite; reflexivity
  | cbn [branch_taken]; state_simp; mem_simp;
    match goal with |- if ?b then _ else _ => destruct b eqn:? end ].

Lemma mstate_eta : forall s,
  s = mkS (rA s) (rX s) (rY s) (rS s) (fN s) (fV s) (fZ s) (fC s) (mem s).
Proof. intros []. reflexivity. Qed.

(** the same for a postcondition stated on the flags: the state is put in normal form, so that
    the flag tested occurs in it as in the postcondition, and is decided everywhere at once *)
Ltac fbranch :=
  lazymatch goal with
  | |- reach _ _ _ (mkS _ _ _ _ _ _ _ _ _) _ => idtac
  | |- reach _ _ _ ?s _ => rewrite (mstate_eta s); state_simp; mem_simp
  end;
  eapply reach_branch;
  [ reflexivity | reflexivity | cbn [find_label]; eqb_rewrite; reflexivity
  | cbn [branch_taken fN fZ fC];
    lazymatch goal with
    | |- if negb true then _ else _ => idtac
    | |- if negb false then _ else _ => idtac
    | |- if true then _ else _ => idtac
    | |- if false then _ else _ => idtac
    | |- if negb ?b then _ else _ => destruct b
    | |- if ?b then _ else _ => destruct b
    end; cbn [negb] ].

Ltac rstep :=
  first [ rlbl | rnext | rbranch
        | eapply reach_jmp; [reflexivity|cbn [find_label]; eqb_rewrite; reflexivity|] ].
Ltac fstep := first [rlbl | rnext | fbranch].
(** control is not at line [h] *)
Ltac not_at h := lazymatch goal with |- reach _ _ h _ _ => fail | _ => idtac end.

(** at the end of a path every flag the path tested is decided: what is left computes *)
Ltac leaf :=
  apply reach_stop; cbv beta; post_tac; change (byte 1) with 1; mem_simp; cbn [andb orb negb];
  repeat match goal with |- _ /\ _ => split end;
  lazymatch goal with
  | |- (_ <= _)%nat => apply Nat.leb_le; reflexivity
  | |- (_ < _)%nat => apply Nat.ltb_lt; reflexivity
  | |- forall _, _ => msets_frame
  | |- _ => reflexivity
  end.

Definition rel16 (o : relop16) (x y : Z) : bool :=
  match o with
  | REq => x =? y | RNe => negb (x =? y)
  | RLt => x <? y | RGe => y <=? x
  | RGt => y <? x | RLe => x <=? y
  end.

(** what the branches of [branch16 o] decide, from C and the zero tests of the two bytes *)
Definition flags16 (o : relop16) (c zh zl : bool) : bool :=
  match o with
  | REq => zh && zl | RNe => negb (zh && zl)
  | RLt => negb c | RGe => c
  | RGt => c && negb (zh && zl) | RLe => negb c || (zh && zl)
  end.

Lemma word_range : forall st p, (forall a, 0 <= mget (mem st) a < 256) ->
  0 <= word (mem st) p < 65536.
Proof. intros st p HM. unfold word. pose proof (HM p). pose proof (HM (p + 1)). lia. Qed.
Print Assumptions word_range.

(** [LDA xl; SEC; SBC yl; (STA cctmp;) LDA xh; SBC yh] leaves the low byte [l] of the difference
    in [cctmp], the high byte [h] in A (Z and N say whether it is zero and its sign) and "no
    borrow" [c] in C *)
Definition sub16_post (wx wy l h : Z) (c : bool) : Prop :=
  0 <= wx < 65536 /\ 0 <= wy < 65536 /\ 0 <= l < 256 /\ 0 <= h < 256 /\
  c = (wy <=? wx) /\ l + 256 * h = wx - wy + (if c then 0 else 65536).

(** the three as the symbolic execution produces them *)
Lemma sub16_spec : forall xl xh yl yh,
  0 <= xl < 256 -> 0 <= xh < 256 -> 0 <= yl < 256 -> 0 <= yh < 256 ->
  sub16_post (xl + 256 * xh) (yl + 256 * yh) (byte (xl - yl))
    (byte (xh - yh - (1 - b2z (0 <=? xl - yl)))) (0 <=? xh - yh - (1 - b2z (0 <=? xl - yl))).
Proof.
  intros xl xh yl yh Hxl Hxh Hyl Hyh. unfold sub16_post.
  repeat split; try apply byte_range; arith_tac.
Qed.

Lemma rel16_flags : forall wx wy l h c, sub16_post wx wy l h c ->
  forall o, rel16 o wx wy = flags16 o c (h =? 0) (l =? 0).
Proof.
  intros wx wy l h c (Rx & Ry & Rl & Rh & -> & E) o.
  destruct (Z.leb_spec wy wx); destruct o; cbn [rel16 flags16]; lia.
Qed.

(** the old [<=] tested the high byte first *)
Lemma old_le_flags : forall wx wy l h c, sub16_post wx wy l h c ->
  (wx <=? wy) && (wy - wx <? 65281) = (if h =? 0 then l =? 0 else negb c).
Proof.
  intros wx wy l h c (Rx & Ry & Rl & Rh & -> & E).
  destruct (Z.leb_spec wy wx); destruct (Z.eqb_spec h 0); lia.
Qed.

Lemma sign_flags : forall wx wy l h c, sub16_post wx wy l h c ->
  (32768 <=? (wx - wy) mod 65536) = bit7 h.
Proof.
  intros wx wy l h c (Rx & Ry & Rl & Rh & -> & E).
  unfold bit7. destruct (Z.leb_spec wy wx); Z.div_mod_to_equations; lia.
Qed.

Lemma word_zero : forall xl xh, 0 <= xl < 256 -> 0 <= xh < 256 ->
  (xl + 256 * xh =? 0) = (xh =? 0) && (xl =? 0).
Proof. intros xl xh Hl Hh. lia. Qed.

Definition sub16_sl (keep : bool) (x tl th : string) (ol oh : operand) : list sline :=
  [SIns LDA (OMem x 0 IxNone) false x; SIns SEC ONone false ""; SIns SBC ol false tl]
  ++ (if keep then [SIns STA (OMem cctmp 0 IxNone) false cctmp] else [])
  ++ [SIns LDA (OMem x 1 IxNone) false (hi x); SIns SBC oh false th].

Lemma slines_sub16 : forall keep x tl th ol oh r sr, var_name x ->
  parse_operand SBC tl = Some ol -> parse_operand SBC th = Some oh -> slines_of r = Some sr ->
  slines_of (sub16 keep x tl th ++ r) = Some (sub16_sl keep x tl th ol oh ++ sr).
Proof.
  intros keep x tl th ol oh r sr Vx Pl Ph Hr. pose proof cctmp_var_name as Vc.
  apply slines_app; [|exact Hr]. unfold sub16, sub16_sl.
  destruct keep; cbn [app]; slines_tac.
Qed.

Lemma nth_error_app_plus : forall (A : Type) (pre l : list A) i,
  nth_error (pre ++ l) (i + length pre) = nth_error l i.
Proof. intros A pre l i. rewrite nth_error_app2 by lia. f_equal. lia. Qed.

(** the right operand given by the two operands that read its bytes [yl], [yh] (cells or constants,
    Proofs/GenTemplatesFacts.v) *)
Lemma reach_sub16 : forall cfg pre rest (keep : bool) x px pcc tl th ol oh yl yh st
    (Q : nat -> nat -> mstate -> Prop),
  ports cfg = [] -> layout cfg x = Some px -> 0 <= px -> px + 1 < 65536 ->
  reads_at cfg st ol yl -> reads_at cfg st oh yh ->
  (keep = true -> layout cfg cctmp = Some pcc /\ 0 <= pcc < 65536 /\ pcc <> px + 1 /\ sfree yh pcc) ->
  (forall a, 0 <= mget (mem st) a < 256) ->
  (forall l h c fv,
     sub16_post (word (mem st) px) (srcv yl (mem st) + 256 * srcv yh (mem st)) l h c ->
     reach cfg (pre ++ sub16_sl keep x tl th ol oh ++ rest) (length (sub16_sl keep x tl th ol oh) + length pre)
       (mkS h (rX st) (rY st) (rS st) (bit7 h) fv (h =? 0) c (if keep then mset (mem st) pcc l else mem st))
       (fun n => Q (length (sub16_sl keep x tl th ol oh) + n)%nat)) ->
  reach cfg (pre ++ sub16_sl keep x tl th ol oh ++ rest) (length pre) st Q.
Proof.
  intros cfg pre rest keep x px pcc tl th ol oh yl yh st Q Hp Lx Rx Rx' Hl Hh Hc HM H.
  pose proof (sub16_spec _ _ _ _ (HM px) (HM (px + 1)) (srcv_range yl _ (proj1 Hl) HM)
                (srcv_range yh _ (proj1 Hh) HM)) as Hs.
  acc_open Hl. acc_open Hh.
  destruct keep.
  - destruct (Hc eq_refl) as (Lc & Rc & Ncx & Nch).
    cbn [sub16_sl app length Nat.add] in *.
    eapply reach_next; [exact (nth_error_app_plus _ pre _ 0%nat)|exec_solve|].
    eapply reach_next; [exact (nth_error_app_plus _ pre _ 1%nat)|exec_solve|].
    eapply reach_next; [exact (nth_error_app_plus _ pre _ 2%nat)|exec_solve|].
    eapply reach_next; [exact (nth_error_app_plus _ pre _ 3%nat)|exec_solve|].
    eapply reach_next; [exact (nth_error_app_plus _ pre _ 4%nat)|exec_solve|].
    eapply reach_next; [exact (nth_error_app_plus _ pre _ 5%nat)|exec_solve|].
    match goal with |- reach _ _ _ ?s _ => rewrite (mstate_eta s) end.
    state_simp. rewrite (srcv_mset yh _ pcc _ R0 Nch (proj1 Rc)). mem_simp.
    exact (H _ _ _ _ Hs).
  - cbn [sub16_sl app length Nat.add] in *.
    eapply reach_next; [exact (nth_error_app_plus _ pre _ 0%nat)|exec_solve|].
    eapply reach_next; [exact (nth_error_app_plus _ pre _ 1%nat)|exec_solve|].
    eapply reach_next; [exact (nth_error_app_plus _ pre _ 2%nat)|exec_solve|].
    eapply reach_next; [exact (nth_error_app_plus _ pre _ 3%nat)|exec_solve|].
    eapply reach_next; [exact (nth_error_app_plus _ pre _ 4%nat)|exec_solve|].
    match goal with |- reach _ _ _ ?s _ => rewrite (mstate_eta s) end.
    state_simp. exact (H _ _ _ _ Hs).
Qed.

(** * The unsigned comparisons [if (x o y) dst = 1;] (as the compiler emits them now)

    One theorem for the six comparisons and for every right operand [wy] given by its two bytes:
    a variable ([RVar y false py], [RVar y true py]), a constant ([RImm (k mod 256)],
    [RImm (k / 256)]), an unsigned char ([RVar y false py], [RImm 0]).
    [==], [!=], [>], [<=] keep the low byte of the difference in [cctmp].  Needed then: [cctmp] is
    not the high cell of an operand (it is written between the two subtractions; it MAY be a low
    cell, already read), and is not the destination (else the destination would be clobbered when
    the condition is false).  [<] and [>=]: the borrow alone decides; no scratch byte. *)
Theorem if16_gen : forall o cfg x tl th yl yh wy dst lend lstart px pd pcc st,
  ports cfg = [] -> var_name x -> var_name dst -> reads cfg st tl yl -> reads cfg st th yh ->
  lend <> ""%string -> (keeps_lo o = true -> o <> REq -> lstart <> ""%string /\ lstart <> lend) ->
  layout cfg x = Some px -> layout cfg dst = Some pd ->
  (keeps_lo o = true ->
   layout cfg cctmp = Some pcc /\ 0 <= pcc < 65536 /\ pcc <> px + 1 /\ sfree yh pcc) ->
  (keeps_lo o = true -> pd <> pcc) ->
  0 <= px -> px + 1 < 65536 -> 0 <= pd < 65536 ->
  bytes_ok st -> wy = srcv yl (mem st) + 256 * srcv yh (mem st) ->
  exists st', runs_to cfg (sub16 (keeps_lo o) x tl th ++ branch16 o dst lend lstart) st st' /\
    mget (mem st') pd = (if rel16 o (word (mem st) px) wy then 1 else mget (mem st) pd) /\
    only_changes (if keeps_lo o then [pd; pcc] else [pd]) st st' /\ keeps_xys st st'.
Proof.
  intros o cfg x tl th yl yh wy dst lend lstart px pd pcc st Hp Vx Vd (ol & Pl & Hl) (oh & Ph & Hh) Hle Hls
    Lx Ld Hc Ndc Rx Rx' Rd (HA & HX & HY & HS & HM) Ey.
  pose proof cctmp_var_name as Vc. subst wy.
  destruct o; cbn [keeps_lo] in *; try specialize (Ndc eq_refl);
    try (pose proof (Hc eq_refl) as (Lc & Rc & _));
    try (destruct (Hls eq_refl ltac:(discriminate)) as [Hls1 Hls2]); clear Hls; lbl_facts;
    (eapply runs_to_reach;
      [apply (slines_sub16 _ x tl th ol oh); [exact Vx|apply Pl; reflexivity|apply Ph; reflexivity
                                             |cbn [branch16 set1 app]; slines_tac]|]);
    (apply (reach_sub16 cfg [] _ _ x px pcc tl th ol oh yl yh st); [assumption..|]); intros l h c fv Hs;
    rewrite (rel16_flags _ _ _ _ _ Hs); clear Hs;
    cbn [flags16 sub16_sl app length Nat.add]; repeat fstep; leaf.
Qed.
Theorem if16_cc_correct : forall o cfg x y dst lend lstart px py pd pcc st,
  keeps_lo o = true ->
  ports cfg = [] -> var_name x -> var_name y -> var_name dst ->
  lend <> ""%string -> (o <> REq -> lstart <> ""%string /\ lstart <> lend) ->
  layout cfg x = Some px -> layout cfg y = Some py -> layout cfg dst = Some pd ->
  layout cfg cctmp = Some pcc ->
  0 <= px -> px + 1 < 65536 -> 0 <= py -> py + 1 < 65536 -> 0 <= pd < 65536 -> 0 <= pcc < 65536 ->
  pcc <> px + 1 -> pcc <> py + 1 -> pd <> pcc ->
  bytes_ok st ->
  exists st', runs_to cfg (code16 (CIf16 o x y dst lend lstart)) st st' /\
    mget (mem st') pd
    = (if rel16 o (word (mem st) px) (word (mem st) py) then 1 else mget (mem st) pd) /\
    only_changes [pd; pcc] st st' /\ keeps_xys st st'.
Proof.
  intros o cfg x y dst lend lstart px py pd pcc st Hk Hp Vx Vy Vd Hle Hls Lx Ly Ld Lc
    Rx Rx' Ry Ry' Rd Rc Ncx Ncy Ndc Hb.
  pose proof (if16_gen o cfg x y (hi y) (Cell py) (Cell (py + 1)) (word (mem st) py) dst lend lstart
                px pd pcc st Hp Vx Vd) as G.
  cbn [code16]. rewrite Hk in G |- *.
  apply G; try assumption; try reflexivity;
    [apply cell_r, cell_var|apply cell_r, cell_varh|intros _; exact Hls| |intros _; exact Ndc];
    try assumption; try lia.
  intros _. refine (conj Lc (conj Rc (conj Ncx _))). cbn [sfree]. lia.
Qed.
Print Assumptions if16_cc_correct.

Theorem if16k_cc_correct : forall o cfg x k dst lend lstart px pd pcc st,
  keeps_lo o = true ->
  ports cfg = [] -> var_name x -> var_name dst ->
  lend <> ""%string -> (o <> REq -> lstart <> ""%string /\ lstart <> lend) ->
  layout cfg x = Some px -> layout cfg dst = Some pd -> layout cfg cctmp = Some pcc ->
  0 <= px -> px + 1 < 65536 -> 0 <= pd < 65536 -> 0 <= pcc < 65536 -> 0 <= k < 65536 ->
  pcc <> px + 1 -> pd <> pcc ->
  bytes_ok st ->
  exists st', runs_to cfg (code16 (CIf16K o x k dst lend lstart)) st st' /\
    mget (mem st') pd = (if rel16 o (word (mem st) px) k then 1 else mget (mem st) pd) /\
    only_changes [pd; pcc] st st' /\ keeps_xys st st'.
Proof.
  intros o cfg x k dst lend lstart px pd pcc st Hk Hp Vx Vd Hle Hls Lx Ld Lc
    Rx Rx' Rd Rc Rk Ncx Ndc Hb. destruct (split16 k Rk) as (Hl & Hh & Ek).
  pose proof (if16_gen o cfg x (imm (k mod 256)) (imm (k / 256)) (Lit (k mod 256)) (Lit (k / 256)) k
                dst lend lstart px pd pcc st Hp Vx Vd (imm_r _ _ _ Hl) (imm_r _ _ _ Hh) Hle (fun _ => Hls) Lx Ld)
    as G.
  cbn [code16]. rewrite Hk in G |- *. apply G; try assumption; [|intros _; exact Ndc].
  intros _. exact (conj Lc (conj Rc (conj Ncx I))).
Qed.
Print Assumptions if16k_cc_correct.

(** [if (x) dst = 1;] and [if (x != 0) dst = 1;] *)
Theorem ifnz16_correct : forall cfg x dst lend lstart px pd pcc st,
  ports cfg = [] -> var_name x -> var_name dst ->
  lend <> ""%string -> lstart <> ""%string -> lstart <> lend ->
  layout cfg x = Some px -> layout cfg dst = Some pd -> layout cfg cctmp = Some pcc ->
  0 <= px -> px + 1 < 65536 -> 0 <= pd < 65536 -> 0 <= pcc < 65536 ->
  pcc <> px + 1 -> pd <> pcc ->
  bytes_ok st ->
  exists st', runs_to cfg (code16 (CIfNz16 x dst lend lstart)) st st' /\
    mget (mem st') pd = (if negb (word (mem st) px =? 0) then 1 else mget (mem st) pd) /\
    only_changes [pd; pcc] st st' /\ keeps_xys st st'.
Proof.
  intros cfg x dst lend lstart px pd pcc st Hp Vx Vd Hle Hls Hne Lx Ld Lc
    Rx Rx' Rd Rc Ncx Ndc (HA & HX & HY & HS & HM).
  pose proof cctmp_var_name as Vc. lbl_facts.
  unfold word. rewrite (word_zero _ _ (HM px) (HM (px + 1))).
  (eapply runs_to_reach; [code16_tac|]); repeat fstep; leaf.
Qed.
Print Assumptions ifnz16_correct.

(** [if (!x) dst = 1;] and [if (x == 0) dst = 1;] *)
Theorem ifz16_correct : forall cfg x dst lend px pd pcc st,
  ports cfg = [] -> var_name x -> var_name dst ->
  lend <> ""%string ->
  layout cfg x = Some px -> layout cfg dst = Some pd -> layout cfg cctmp = Some pcc ->
  0 <= px -> px + 1 < 65536 -> 0 <= pd < 65536 -> 0 <= pcc < 65536 ->
  pcc <> px + 1 -> pd <> pcc ->
  bytes_ok st ->
  exists st', runs_to cfg (code16 (CIfZ16 x dst lend)) st st' /\
    mget (mem st') pd = (if word (mem st) px =? 0 then 1 else mget (mem st) pd) /\
    only_changes [pd; pcc] st st' /\ keeps_xys st st'.
Proof.
  intros cfg x dst lend px pd pcc st Hp Vx Vd Hle Lx Ld Lc
    Rx Rx' Rd Rc Ncx Ndc (HA & HX & HY & HS & HM).
  pose proof cctmp_var_name as Vc. lbl_facts.
  unfold word. rewrite (word_zero _ _ (HM px) (HM (px + 1))).
  (eapply runs_to_reach; [code16_tac|]); repeat fstep; leaf.
Qed.
Print Assumptions ifz16_correct.

(** * The do-while forms: one iteration

    The code starts with the loop label and ends with a BACKWARD branch to it.  [iter_to] is about
    [Sem.run] on the whole sequence, started at the loop label: after one pass (at most
    [length] steps) control is at the loop label again iff the condition holds on the 16-bit
    values, and past the last line otherwise; the body [v++] has been executed once.
    Needed: [v] is not a cell of an operand (the condition is evaluated after the body: the
    statement is about the values BEFORE the iteration), [cctmp] is not a high cell of an operand
    and not [v]. *)
(** past the loop label, on until control is at line 0 again or the pass has ended *)
Ltac rloop := rlbl; repeat (not_at 0%nat; fstep).

Theorem dolt16_iter : forall cfg x y v lloop lend px py pv st,
  ports cfg = [] -> var_name x -> var_name y -> var_name v ->
  lloop <> ""%string ->
  layout cfg x = Some px -> layout cfg y = Some py -> layout cfg v = Some pv ->
  0 <= px -> px + 1 < 65536 -> 0 <= py -> py + 1 < 65536 -> 0 <= pv < 65536 ->
  pv <> px -> pv <> px + 1 -> pv <> py -> pv <> py + 1 ->
  bytes_ok st ->
  exists st', iter_to cfg (code16 (CDoLt16 x y v lloop lend)) lloop st
                (word (mem st) px <? word (mem st) py) st' /\
    mget (mem st') pv = (mget (mem st) pv + 1) mod 256 /\
    only_changes [pv] st st' /\ keeps_xys st st'.
Proof.
  intros cfg x y v lloop lend px py pv st Hp Vx Vy Vv Hll Lx Ly Lv
    Rx Rx' Ry Ry' Rv N1 N2 N3 N4 (HA & HX & HY & HS & HM).
  lbl_facts.
  pose proof (rel16_flags _ _ _ _ _ (sub16_spec _ _ _ _ (HM px) (HM (px + 1)) (HM py) (HM (py + 1))) RLt) as E.
  cbn [rel16 flags16] in E. unfold word. rewrite E. clear E.
  (eapply iter_reach; [code16_tac|reflexivity|]); rloop; leaf.
Qed.
Print Assumptions dolt16_iter.

Theorem dogt16_iter : forall cfg x y v lloop lstart lend px py pv pcc st,
  ports cfg = [] -> var_name x -> var_name y -> var_name v ->
  lloop <> ""%string -> lstart <> ""%string -> lstart <> lloop ->
  layout cfg x = Some px -> layout cfg y = Some py -> layout cfg v = Some pv ->
  layout cfg cctmp = Some pcc ->
  0 <= px -> px + 1 < 65536 -> 0 <= py -> py + 1 < 65536 -> 0 <= pv < 65536 -> 0 <= pcc < 65536 ->
  pv <> px -> pv <> px + 1 -> pv <> py -> pv <> py + 1 ->
  pcc <> px + 1 -> pcc <> py + 1 -> pv <> pcc ->
  bytes_ok st ->
  exists st', iter_to cfg (code16 (CDoGt16 x y v lloop lstart lend)) lloop st
                (word (mem st) py <? word (mem st) px) st' /\
    mget (mem st') pv = (mget (mem st) pv + 1) mod 256 /\
    only_changes [pv; pcc] st st' /\ keeps_xys st st'.
Proof.
  intros cfg x y v lloop lstart lend px py pv pcc st Hp Vx Vy Vv Hll Hls Hne Lx Ly Lv Lc
    Rx Rx' Ry Ry' Rv Rc N1 N2 N3 N4 Ncx Ncy Nvc (HA & HX & HY & HS & HM).
  pose proof cctmp_var_name as Vc. lbl_facts.
  pose proof (rel16_flags _ _ _ _ _ (sub16_spec _ _ _ _ (HM px) (HM (px + 1)) (HM py) (HM (py + 1))) RGt) as E.
  cbn [rel16 flags16] in E. unfold word. rewrite E. clear E.
  (eapply iter_reach; [code16_tac|reflexivity|]); rloop; leaf.
Qed.
Print Assumptions dogt16_iter.

(** * The signed forms [if (x < y) dst = 1;] / [if (x >= y) dst = 1;] over [short]

    The sequences subtract and test the SIGN of the 16-bit difference (BPL / BMI); the overflow
    flag is ignored.  What they compute, exactly: the body runs iff bit 15 of [(x - y) mod 65536]
    is set (resp. clear).  That is the signed comparison iff the signed subtraction does not
    overflow, and the OPPOSITE decision on every pair of values where it does. *)

(** the value of a [short] held in the 16-bit word [w] *)
Definition sval (w : Z) : Z := if w <? 32768 then w else w - 65536.

Theorem ifslt16_char : forall cfg x y dst lend px py pd st,
  ports cfg = [] -> var_name x -> var_name y -> var_name dst ->
  lend <> ""%string ->
  layout cfg x = Some px -> layout cfg y = Some py -> layout cfg dst = Some pd ->
  0 <= px -> px + 1 < 65536 -> 0 <= py -> py + 1 < 65536 -> 0 <= pd < 65536 ->
  bytes_ok st ->
  exists st', runs_to cfg (code16 (CIfSLt16 x y dst lend)) st st' /\
    mget (mem st') pd
    = (if 32768 <=? (word (mem st) px - word (mem st) py) mod 65536 then 1 else mget (mem st) pd) /\
    only_changes [pd] st st' /\ keeps_xys st st'.
Proof.
  intros cfg x y dst lend px py pd st Hp Vx Vy Vd Hle Lx Ly Ld
    Rx Rx' Ry Ry' Rd (HA & HX & HY & HS & HM).
  lbl_facts.
  unfold word. rewrite (sign_flags _ _ _ _ _ (sub16_spec _ _ _ _ (HM px) (HM (px + 1)) (HM py) (HM (py + 1)))).
  (eapply runs_to_reach; [code16_tac|]); repeat fstep; leaf.
Qed.
Print Assumptions ifslt16_char.

Theorem ifsge16_char : forall cfg x y dst lend px py pd st,
  ports cfg = [] -> var_name x -> var_name y -> var_name dst ->
  lend <> ""%string ->
  layout cfg x = Some px -> layout cfg y = Some py -> layout cfg dst = Some pd ->
  0 <= px -> px + 1 < 65536 -> 0 <= py -> py + 1 < 65536 -> 0 <= pd < 65536 ->
  bytes_ok st ->
  exists st', runs_to cfg (code16 (CIfSGe16 x y dst lend)) st st' /\
    mget (mem st') pd
    = (if (word (mem st) px - word (mem st) py) mod 65536 <? 32768 then 1 else mget (mem st) pd) /\
    only_changes [pd] st st' /\ keeps_xys st st'.
Proof.
  intros cfg x y dst lend px py pd st Hp Vx Vy Vd Hle Lx Ly Ld
    Rx Rx' Ry Ry' Rd (HA & HX & HY & HS & HM).
  lbl_facts.
  unfold word. rewrite Z.ltb_antisym, (sign_flags _ _ _ _ _ (sub16_spec _ _ _ _ (HM px) (HM (px + 1)) (HM py) (HM (py + 1)))).
  (eapply runs_to_reach; [code16_tac|]); repeat fstep; leaf.
Qed.
Print Assumptions ifsge16_char.

Lemma sign_diff_no_overflow : forall wx wy, 0 <= wx < 65536 -> 0 <= wy < 65536 ->
  -32768 <= sval wx - sval wy <= 32767 ->
  (32768 <=? (wx - wy) mod 65536) = (sval wx <? sval wy).
Proof.
  intros wx wy Hx Hy. unfold sval. arith_tac.
Qed.

Lemma sign_diff_overflow : forall wx wy, 0 <= wx < 65536 -> 0 <= wy < 65536 ->
  ~ (-32768 <= sval wx - sval wy <= 32767) ->
  (32768 <=? (wx - wy) mod 65536) = negb (sval wx <? sval wy).
Proof.
  intros wx wy Hx Hy. unfold sval. arith_tac.
Qed.

Theorem ifslt16_correct_no_overflow : forall cfg x y dst lend px py pd st,
  ports cfg = [] -> var_name x -> var_name y -> var_name dst ->
  lend <> ""%string ->
  layout cfg x = Some px -> layout cfg y = Some py -> layout cfg dst = Some pd ->
  0 <= px -> px + 1 < 65536 -> 0 <= py -> py + 1 < 65536 -> 0 <= pd < 65536 ->
  bytes_ok st ->
  -32768 <= sval (word (mem st) px) - sval (word (mem st) py) <= 32767 ->
  exists st', runs_to cfg (code16 (CIfSLt16 x y dst lend)) st st' /\
    mget (mem st') pd
    = (if sval (word (mem st) px) <? sval (word (mem st) py) then 1 else mget (mem st) pd) /\
    only_changes [pd] st st' /\ keeps_xys st st'.
Proof.
  intros cfg x y dst lend px py pd st Hp Vx Vy Vd Hle Lx Ly Ld Rx Rx' Ry Ry' Rd Hb Ho.
  pose proof Hb as (_ & _ & _ & _ & HM).
  rewrite <- (sign_diff_no_overflow _ _ (word_range st px HM) (word_range st py HM) Ho).
  apply ifslt16_char; assumption.
Qed.
Print Assumptions ifslt16_correct_no_overflow.

(** the opposite of the C decision: body executed although [x >= y], skipped although [x < y] *)
Theorem ifslt16_wrong_on_overflow : forall cfg x y dst lend px py pd st,
  ports cfg = [] -> var_name x -> var_name y -> var_name dst ->
  lend <> ""%string ->
  layout cfg x = Some px -> layout cfg y = Some py -> layout cfg dst = Some pd ->
  0 <= px -> px + 1 < 65536 -> 0 <= py -> py + 1 < 65536 -> 0 <= pd < 65536 ->
  bytes_ok st ->
  ~ (-32768 <= sval (word (mem st) px) - sval (word (mem st) py) <= 32767) ->
  exists st', runs_to cfg (code16 (CIfSLt16 x y dst lend)) st st' /\
    mget (mem st') pd
    = (if sval (word (mem st) px) <? sval (word (mem st) py) then mget (mem st) pd else 1).
Proof.
  intros cfg x y dst lend px py pd st Hp Vx Vy Vd Hle Lx Ly Ld Rx Rx' Ry Ry' Rd Hb Ho.
  destruct (ifslt16_char cfg x y dst lend px py pd st Hp Vx Vy Vd Hle Lx Ly Ld Rx Rx' Ry Ry' Rd Hb)
    as (st' & Hr & Hv & Hf).
  destruct Hb as (_ & _ & _ & _ & HM).
  rewrite (sign_diff_overflow _ _ (word_range st px HM) (word_range st py HM) Ho) in Hv.
  exists st'. split; [exact Hr|].
  rewrite Hv. destruct (sval (word (mem st) px) <? sval (word (mem st) py)); reflexivity.
Qed.
Print Assumptions ifslt16_wrong_on_overflow.

Theorem ifsge16_correct_no_overflow : forall cfg x y dst lend px py pd st,
  ports cfg = [] -> var_name x -> var_name y -> var_name dst ->
  lend <> ""%string ->
  layout cfg x = Some px -> layout cfg y = Some py -> layout cfg dst = Some pd ->
  0 <= px -> px + 1 < 65536 -> 0 <= py -> py + 1 < 65536 -> 0 <= pd < 65536 ->
  bytes_ok st ->
  -32768 <= sval (word (mem st) px) - sval (word (mem st) py) <= 32767 ->
  exists st', runs_to cfg (code16 (CIfSGe16 x y dst lend)) st st' /\
    mget (mem st') pd
    = (if sval (word (mem st) py) <=? sval (word (mem st) px) then 1 else mget (mem st) pd) /\
    only_changes [pd] st st' /\ keeps_xys st st'.
Proof.
  intros cfg x y dst lend px py pd st Hp Vx Vy Vd Hle Lx Ly Ld Rx Rx' Ry Ry' Rd Hb Ho.
  pose proof Hb as (_ & _ & _ & _ & HM).
  rewrite Z.leb_antisym, <- (sign_diff_no_overflow _ _ (word_range st px HM) (word_range st py HM) Ho),
    <- Z.ltb_antisym.
  apply ifsge16_char; assumption.
Qed.
Print Assumptions ifsge16_correct_no_overflow.

Theorem ifsge16_wrong_on_overflow : forall cfg x y dst lend px py pd st,
  ports cfg = [] -> var_name x -> var_name y -> var_name dst ->
  lend <> ""%string ->
  layout cfg x = Some px -> layout cfg y = Some py -> layout cfg dst = Some pd ->
  0 <= px -> px + 1 < 65536 -> 0 <= py -> py + 1 < 65536 -> 0 <= pd < 65536 ->
  bytes_ok st ->
  ~ (-32768 <= sval (word (mem st) px) - sval (word (mem st) py) <= 32767) ->
  exists st', runs_to cfg (code16 (CIfSGe16 x y dst lend)) st st' /\
    mget (mem st') pd
    = (if sval (word (mem st) py) <=? sval (word (mem st) px) then mget (mem st) pd else 1).
Proof.
  intros cfg x y dst lend px py pd st Hp Vx Vy Vd Hle Lx Ly Ld Rx Rx' Ry Ry' Rd Hb Ho.
  destruct (ifsge16_char cfg x y dst lend px py pd st Hp Vx Vy Vd Hle Lx Ly Ld Rx Rx' Ry Ry' Rd Hb)
    as (st' & Hr & Hv & Hf).
  destruct Hb as (_ & _ & _ & _ & HM).
  rewrite Z.ltb_antisym in Hv.
  rewrite (sign_diff_overflow _ _ (word_range st px HM) (word_range st py HM) Ho) in Hv.
  rewrite negb_involutive, Z.ltb_antisym in Hv.
  exists st'. split; [exact Hr|].
  rewrite Hv. destruct (sval (word (mem st) py) <=? sval (word (mem st) px)); reflexivity.
Qed.
Print Assumptions ifsge16_wrong_on_overflow.

(** * The sequences emitted BEFORE the repair of the unsigned [>] / [<=] forms

    [if (x > y)] (variable or constant operand) was already the new sequence
    ([old_gt_is_new], [old_gtk_is_new]): correct.  The old [<=] and the old do-while [>] tested
    "high byte of the difference = 0" (the protected [BEQ .ifhere]) BEFORE the borrow.  When the
    high byte of [(x - y) mod 65536] is 0 and the low byte is not, they conclude [x > y]; but that
    also happens when [x < y] and [y - x >= 65281 = 0xFF01] (then [x - y + 65536 <= 255]).  The
    characterisations below are exact: the old sequences decide
    [x <= y /\ y - x < 65281] instead of [x <= y], and [x > y \/ y - x >= 65281] instead of [x > y]. *)

Theorem old_gt16_correct : forall cfg x y dst lend lstart px py pd pcc st,
  ports cfg = [] -> var_name x -> var_name y -> var_name dst ->
  lend <> ""%string -> lstart <> ""%string -> lstart <> lend ->
  layout cfg x = Some px -> layout cfg y = Some py -> layout cfg dst = Some pd ->
  layout cfg cctmp = Some pcc ->
  0 <= px -> px + 1 < 65536 -> 0 <= py -> py + 1 < 65536 -> 0 <= pd < 65536 -> 0 <= pcc < 65536 ->
  pcc <> px + 1 -> pcc <> py + 1 -> pd <> pcc ->
  bytes_ok st ->
  exists st', runs_to cfg (code16_old (OIfGt16 x y dst lend lstart)) st st' /\
    mget (mem st') pd = (if word (mem st) py <? word (mem st) px then 1 else mget (mem st) pd) /\
    only_changes [pd; pcc] st st' /\ keeps_xys st st'.
Proof.
  intros cfg x y dst lend lstart px py pd pcc st Hp Vx Vy Vd Hle Hls Hne Lx Ly Ld Lc
    Rx Rx' Ry Ry' Rd Rc Ncx Ncy Ndc Hb.
  rewrite old_gt_is_new.
  apply (if16_cc_correct RGt cfg x y dst lend lstart px py pd pcc st); try assumption;
    [reflexivity|intros _; split; assumption].
Qed.
Print Assumptions old_gt16_correct.

Theorem old_gt16k_correct : forall cfg x k dst lend lstart px pd pcc st,
  ports cfg = [] -> var_name x -> var_name dst ->
  lend <> ""%string -> lstart <> ""%string -> lstart <> lend ->
  layout cfg x = Some px -> layout cfg dst = Some pd -> layout cfg cctmp = Some pcc ->
  0 <= px -> px + 1 < 65536 -> 0 <= pd < 65536 -> 0 <= pcc < 65536 -> 0 <= k < 65536 ->
  pcc <> px + 1 -> pd <> pcc ->
  bytes_ok st ->
  exists st', runs_to cfg (code16_old (OIfGt16K x k dst lend lstart)) st st' /\
    mget (mem st') pd = (if k <? word (mem st) px then 1 else mget (mem st) pd) /\
    only_changes [pd; pcc] st st' /\ keeps_xys st st'.
Proof.
  intros cfg x k dst lend lstart px pd pcc st Hp Vx Vd Hle Hls Hne Lx Ld Lc
    Rx Rx' Rd Rc Rk Ncx Ndc Hb.
  rewrite old_gtk_is_new.
  apply (if16k_cc_correct RGt cfg x k dst lend lstart px pd pcc st); try assumption;
    [reflexivity|intros _; split; assumption].
Qed.
Print Assumptions old_gt16k_correct.

Theorem old_le16_gen : forall cfg x tl th yl yh wy dst lend lhere lstart px pd pcc st,
  ports cfg = [] -> var_name x -> var_name dst -> reads cfg st tl yl -> reads cfg st th yh ->
  lend <> ""%string -> lhere <> ""%string -> lstart <> ""%string ->
  lhere <> lend -> lhere <> lstart -> lstart <> lend ->
  layout cfg x = Some px -> layout cfg dst = Some pd -> layout cfg cctmp = Some pcc ->
  0 <= px -> px + 1 < 65536 -> 0 <= pd < 65536 -> 0 <= pcc < 65536 ->
  pcc <> px + 1 -> sfree yh pcc -> pd <> pcc ->
  bytes_ok st -> wy = srcv yl (mem st) + 256 * srcv yh (mem st) ->
  exists st',
    runs_to cfg (sub16 true x tl th ++ branch16_old_le dst lend lhere lstart) st st' /\
    mget (mem st') pd
    = (if (word (mem st) px <=? wy) && (wy - word (mem st) px <? 65281) then 1 else mget (mem st) pd) /\
    only_changes [pd; pcc] st st' /\ keeps_xys st st'.
Proof.
  intros cfg x tl th yl yh wy dst lend lhere lstart px pd pcc st Hp Vx Vd (ol & Pl & Hl) (oh & Ph & Hh)
    Hle Hlh Hls N1 N2 N3 Lx Ld Lc Rx Rx' Rd Rc Ncx Nch Ndc (HA & HX & HY & HS & HM) Ey.
  pose proof cctmp_var_name as Vc. lbl_facts. subst wy.
  eapply runs_to_reach;
    [apply (slines_sub16 _ x tl th ol oh); [exact Vx|apply Pl; reflexivity|apply Ph; reflexivity
                                           |cbn [branch16_old_le set1 app]; slines_tac]|].
  apply (reach_sub16 cfg [] _ _ x px pcc tl th ol oh yl yh st);
    [assumption..|intros _; exact (conj Lc (conj Rc (conj Ncx Nch)))|exact HM|].
  intros l h c fv Hs. rewrite (old_le_flags _ _ _ _ _ Hs). clear Hs.
  cbn [sub16_sl app length Nat.add]. repeat fstep; leaf.
Qed.

Theorem old_le16_char : forall cfg x y dst lend lhere lstart px py pd pcc st,
  ports cfg = [] -> var_name x -> var_name y -> var_name dst ->
  lend <> ""%string -> lhere <> ""%string -> lstart <> ""%string ->
  lhere <> lend -> lhere <> lstart -> lstart <> lend ->
  layout cfg x = Some px -> layout cfg y = Some py -> layout cfg dst = Some pd ->
  layout cfg cctmp = Some pcc ->
  0 <= px -> px + 1 < 65536 -> 0 <= py -> py + 1 < 65536 -> 0 <= pd < 65536 -> 0 <= pcc < 65536 ->
  pcc <> px + 1 -> pcc <> py + 1 -> pd <> pcc ->
  bytes_ok st ->
  exists st', runs_to cfg (code16_old (OIfLe16 x y dst lend lhere lstart)) st st' /\
    mget (mem st') pd
    = (if (word (mem st) px <=? word (mem st) py) && (word (mem st) py - word (mem st) px <? 65281)
       then 1 else mget (mem st) pd) /\
    only_changes [pd; pcc] st st' /\ keeps_xys st st'.
Proof.
  intros cfg x y dst lend lhere lstart px py pd pcc st Hp Vx Vy Vd Hle Hlh Hls N1 N2 N3 Lx Ly Ld Lc
    Rx Rx' Ry Ry' Rd Rc Ncx Ncy Ndc Hb.
  apply (old_le16_gen cfg x y (hi y) (Cell py) (Cell (py + 1))); try assumption; try reflexivity;
    [apply cell_r, cell_var|apply cell_r, cell_varh|cbn [sfree]]; try assumption; lia.
Qed.
Print Assumptions old_le16_char.

(** [y - x < 65281] holds in particular whenever [x > y], or the high bytes differ by less
    than 255 *)
Theorem old_le16_correct_when : forall cfg x y dst lend lhere lstart px py pd pcc st,
  ports cfg = [] -> var_name x -> var_name y -> var_name dst ->
  lend <> ""%string -> lhere <> ""%string -> lstart <> ""%string ->
  lhere <> lend -> lhere <> lstart -> lstart <> lend ->
  layout cfg x = Some px -> layout cfg y = Some py -> layout cfg dst = Some pd ->
  layout cfg cctmp = Some pcc ->
  0 <= px -> px + 1 < 65536 -> 0 <= py -> py + 1 < 65536 -> 0 <= pd < 65536 -> 0 <= pcc < 65536 ->
  pcc <> px + 1 -> pcc <> py + 1 -> pd <> pcc ->
  bytes_ok st ->
  word (mem st) py - word (mem st) px < 65281 ->
  exists st', runs_to cfg (code16_old (OIfLe16 x y dst lend lhere lstart)) st st' /\
    mget (mem st') pd
    = (if word (mem st) px <=? word (mem st) py then 1 else mget (mem st) pd) /\
    only_changes [pd; pcc] st st' /\ keeps_xys st st'.
Proof.
  intros cfg x y dst lend lhere lstart px py pd pcc st Hp Vx Vy Vd Hle Hlh Hls N1 N2 N3 Lx Ly Ld Lc
    Rx Rx' Ry Ry' Rd Rc Ncx Ncy Ndc Hb Hd.
  rewrite <- (andb_true_r (_ <=? _)), <- (proj2 (Z.ltb_lt _ 65281) Hd).
  apply old_le16_char; assumption.
Qed.
Print Assumptions old_le16_correct_when.

Theorem old_le16_wrong_when : forall cfg x y dst lend lhere lstart px py pd pcc st,
  ports cfg = [] -> var_name x -> var_name y -> var_name dst ->
  lend <> ""%string -> lhere <> ""%string -> lstart <> ""%string ->
  lhere <> lend -> lhere <> lstart -> lstart <> lend ->
  layout cfg x = Some px -> layout cfg y = Some py -> layout cfg dst = Some pd ->
  layout cfg cctmp = Some pcc ->
  0 <= px -> px + 1 < 65536 -> 0 <= py -> py + 1 < 65536 -> 0 <= pd < 65536 -> 0 <= pcc < 65536 ->
  pcc <> px + 1 -> pcc <> py + 1 -> pd <> pcc ->
  bytes_ok st ->
  65281 <= word (mem st) py - word (mem st) px ->
  exists st', runs_to cfg (code16_old (OIfLe16 x y dst lend lhere lstart)) st st' /\
    word (mem st) px <= word (mem st) py /\
    mget (mem st') pd = mget (mem st) pd.
Proof.
  intros cfg x y dst lend lhere lstart px py pd pcc st Hp Vx Vy Vd Hle Hlh Hls N1 N2 N3 Lx Ly Ld Lc
    Rx Rx' Ry Ry' Rd Rc Ncx Ncy Ndc Hb Hd.
  destruct (old_le16_char cfg x y dst lend lhere lstart px py pd pcc st Hp Vx Vy Vd Hle Hlh Hls
              N1 N2 N3 Lx Ly Ld Lc Rx Rx' Ry Ry' Rd Rc Ncx Ncy Ndc Hb) as (st' & Hr & Hv & Hf).
  exists st'. split; [exact Hr|]. split; [lia|].
  rewrite Hv. replace (word (mem st) py - word (mem st) px <? 65281) with false by lia.
  rewrite andb_false_r. reflexivity.
Qed.
Print Assumptions old_le16_wrong_when.

Theorem old_le16k_char : forall cfg x k dst lend lhere lstart px pd pcc st,
  ports cfg = [] -> var_name x -> var_name dst ->
  lend <> ""%string -> lhere <> ""%string -> lstart <> ""%string ->
  lhere <> lend -> lhere <> lstart -> lstart <> lend ->
  layout cfg x = Some px -> layout cfg dst = Some pd -> layout cfg cctmp = Some pcc ->
  0 <= px -> px + 1 < 65536 -> 0 <= pd < 65536 -> 0 <= pcc < 65536 -> 0 <= k < 65536 ->
  pcc <> px + 1 -> pd <> pcc ->
  bytes_ok st ->
  exists st', runs_to cfg (code16_old (OIfLe16K x k dst lend lhere lstart)) st st' /\
    mget (mem st') pd
    = (if (word (mem st) px <=? k) && (k - word (mem st) px <? 65281)
       then 1 else mget (mem st) pd) /\
    only_changes [pd; pcc] st st' /\ keeps_xys st st'.
Proof.
  intros cfg x k dst lend lhere lstart px pd pcc st Hp Vx Vd Hle Hlh Hls N1 N2 N3 Lx Ld Lc
    Rx Rx' Rd Rc Rk Ncx Ndc Hb. destruct (split16 k Rk) as (Hl & Hh & Ek).
  apply (old_le16_gen cfg x _ _ (Lit (k mod 256)) (Lit (k / 256))); try assumption;
    [apply imm_r, Hl|apply imm_r, Hh|exact I].
Qed.
Print Assumptions old_le16k_char.

Theorem old_le16k_correct_small : forall cfg x k dst lend lhere lstart px pd pcc st,
  ports cfg = [] -> var_name x -> var_name dst ->
  lend <> ""%string -> lhere <> ""%string -> lstart <> ""%string ->
  lhere <> lend -> lhere <> lstart -> lstart <> lend ->
  layout cfg x = Some px -> layout cfg dst = Some pd -> layout cfg cctmp = Some pcc ->
  0 <= px -> px + 1 < 65536 -> 0 <= pd < 65536 -> 0 <= pcc < 65536 -> 0 <= k < 65281 ->
  pcc <> px + 1 -> pd <> pcc ->
  bytes_ok st ->
  exists st', runs_to cfg (code16_old (OIfLe16K x k dst lend lhere lstart)) st st' /\
    mget (mem st') pd = (if word (mem st) px <=? k then 1 else mget (mem st) pd) /\
    only_changes [pd; pcc] st st' /\ keeps_xys st st'.
Proof.
  intros cfg x k dst lend lhere lstart px pd pcc st Hp Vx Vd Hle Hlh Hls N1 N2 N3 Lx Ld Lc
    Rx Rx' Rd Rc Rk Ncx Ndc Hb.
  pose proof Hb as (_ & _ & _ & _ & HM). pose proof (word_range st px HM) as Hw.
  rewrite <- (andb_true_r (_ <=? _)), <- (proj2 (Z.ltb_lt (k - word (mem st) px) 65281) ltac:(lia)).
  apply old_le16k_char; try assumption. lia.
Qed.
Print Assumptions old_le16k_correct_small.

Theorem old_dogt16_iter_char : forall cfg x y v lloop lhere lstart lend px py pv pcc st,
  ports cfg = [] -> var_name x -> var_name y -> var_name v ->
  lloop <> ""%string -> lhere <> ""%string -> lstart <> ""%string ->
  lhere <> lloop -> lstart <> lloop -> lhere <> lstart ->
  layout cfg x = Some px -> layout cfg y = Some py -> layout cfg v = Some pv ->
  layout cfg cctmp = Some pcc ->
  0 <= px -> px + 1 < 65536 -> 0 <= py -> py + 1 < 65536 -> 0 <= pv < 65536 -> 0 <= pcc < 65536 ->
  pv <> px -> pv <> px + 1 -> pv <> py -> pv <> py + 1 ->
  pcc <> px + 1 -> pcc <> py + 1 -> pv <> pcc ->
  bytes_ok st ->
  exists st', iter_to cfg (code16_old (ODoGt16 x y v lloop lhere lstart lend)) lloop st
                ((word (mem st) py <? word (mem st) px)
                 || (65281 <=? word (mem st) py - word (mem st) px)) st' /\
    mget (mem st') pv = (mget (mem st) pv + 1) mod 256 /\
    only_changes [pv; pcc] st st' /\ keeps_xys st st'.
Proof.
  intros cfg x y v lloop lhere lstart lend px py pv pcc st Hp Vx Vy Vv Hll Hlh Hls L1 L2 L3 Lx Ly Lv Lc
    Rx Rx' Ry Ry' Rv Rc N1 N2 N3 N4 Ncx Ncy Nvc (HA & HX & HY & HS & HM).
  pose proof cctmp_var_name as Vc. lbl_facts.
  replace ((word (mem st) py <? word (mem st) px) || (65281 <=? word (mem st) py - word (mem st) px))
    with (negb ((word (mem st) px <=? word (mem st) py)
                && (word (mem st) py - word (mem st) px <? 65281))) by lia.
  unfold word. rewrite (old_le_flags _ _ _ _ _ (sub16_spec _ _ _ _ (HM px) (HM (px + 1)) (HM py) (HM (py + 1)))).
  (eapply iter_reach; [code16_tac|reflexivity|]); rloop; leaf.
Qed.
Print Assumptions old_dogt16_iter_char.

Theorem old_dogt16_iter_correct_when : forall cfg x y v lloop lhere lstart lend px py pv pcc st,
  ports cfg = [] -> var_name x -> var_name y -> var_name v ->
  lloop <> ""%string -> lhere <> ""%string -> lstart <> ""%string ->
  lhere <> lloop -> lstart <> lloop -> lhere <> lstart ->
  layout cfg x = Some px -> layout cfg y = Some py -> layout cfg v = Some pv ->
  layout cfg cctmp = Some pcc ->
  0 <= px -> px + 1 < 65536 -> 0 <= py -> py + 1 < 65536 -> 0 <= pv < 65536 -> 0 <= pcc < 65536 ->
  pv <> px -> pv <> px + 1 -> pv <> py -> pv <> py + 1 ->
  pcc <> px + 1 -> pcc <> py + 1 -> pv <> pcc ->
  bytes_ok st ->
  word (mem st) py - word (mem st) px < 65281 ->
  exists st', iter_to cfg (code16_old (ODoGt16 x y v lloop lhere lstart lend)) lloop st
                (word (mem st) py <? word (mem st) px) st' /\
    mget (mem st') pv = (mget (mem st) pv + 1) mod 256 /\
    only_changes [pv; pcc] st st' /\ keeps_xys st st'.
Proof.
  intros cfg x y v lloop lhere lstart lend px py pv pcc st Hp Vx Vy Vv Hll Hlh Hls L1 L2 L3 Lx Ly Lv Lc
    Rx Rx' Ry Ry' Rv Rc N1 N2 N3 N4 Ncx Ncy Nvc Hb Hd.
  rewrite <- (orb_false_r (_ <? _)), <- (proj2 (Z.leb_gt 65281 _) Hd).
  apply old_dogt16_iter_char; assumption.
Qed.
Print Assumptions old_dogt16_iter_correct_when.

(** the loop goes round again, and for ever: the iteration changes neither [x] nor [y] *)
Theorem old_dogt16_iter_wrong_when : forall cfg x y v lloop lhere lstart lend px py pv pcc st,
  ports cfg = [] -> var_name x -> var_name y -> var_name v ->
  lloop <> ""%string -> lhere <> ""%string -> lstart <> ""%string ->
  lhere <> lloop -> lstart <> lloop -> lhere <> lstart ->
  layout cfg x = Some px -> layout cfg y = Some py -> layout cfg v = Some pv ->
  layout cfg cctmp = Some pcc ->
  0 <= px -> px + 1 < 65536 -> 0 <= py -> py + 1 < 65536 -> 0 <= pv < 65536 -> 0 <= pcc < 65536 ->
  pv <> px -> pv <> px + 1 -> pv <> py -> pv <> py + 1 ->
  pcc <> px + 1 -> pcc <> py + 1 -> pv <> pcc ->
  bytes_ok st ->
  65281 <= word (mem st) py - word (mem st) px ->
  exists st', iter_to cfg (code16_old (ODoGt16 x y v lloop lhere lstart lend)) lloop st true st' /\
    ~ (word (mem st) py < word (mem st) px).
Proof.
  intros cfg x y v lloop lhere lstart lend px py pv pcc st Hp Vx Vy Vv Hll Hlh Hls L1 L2 L3 Lx Ly Lv Lc
    Rx Rx' Ry Ry' Rv Rc N1 N2 N3 N4 Ncx Ncy Nvc Hb Hd.
  destruct (old_dogt16_iter_char cfg x y v lloop lhere lstart lend px py pv pcc st Hp Vx Vy Vv
              Hll Hlh Hls L1 L2 L3 Lx Ly Lv Lc Rx Rx' Ry Ry' Rv Rc N1 N2 N3 N4 Ncx Ncy Nvc Hb)
    as (st' & Hi & Hv & Hf).
  exists st'. split; [|lia].
  replace (65281 <=? word (mem st) py - word (mem st) px) with true in Hi by lia.
  rewrite orb_true_r in Hi. exact Hi.
Qed.
Print Assumptions old_dogt16_iter_wrong_when.

Definition cfg16 : config :=
  mkCfg (fun y =>
    if String.eqb y "a" then Some 128 else if String.eqb y "c" then Some 130
    else if String.eqb y "s" then Some 134 else if String.eqb y "t" then Some 136
    else if String.eqb y "ss" then Some 140 else if String.eqb y "st" then Some 142
    else if String.eqb y "cctmp" then Some 144 else None) [].

Definition st16 (s t ss st_ : Z) : mstate :=
  mkS 0 1 2 255 false false false false
    (mset (mset (mset (mset (mset (mset (mset (mset mem_empty
       134 (s mod 256)) 135 (s / 256)) 136 (t mod 256)) 137 (t / 256))
       140 (ss mod 256)) 141 (ss / 256)) 142 (st_ mod 256)) 143 (st_ / 256)).

Lemma st16_bytes_ok : forall s t ss st_,
  0 <= s < 65536 -> 0 <= t < 65536 -> 0 <= ss < 65536 -> 0 <= st_ < 65536 ->
  bytes_ok (st16 s t ss st_).
Proof.
  intros s t ss st_ H1 H2 H3 H4. apply bytes_ok_mk; try lia.
  repeat (apply mget_mset_bytes; [|Z.div_mod_to_equations; lia]). intros b. rewrite mget_empty. lia.
Qed.

(** the hypotheses of a theorem above at the names and addresses of [cfg16], [st16] *)
Ltac inst16 :=
  try reflexivity; try lia; try discriminate;
  try (apply ident_var_name; [discriminate|reflexivity]);
  try (apply st16_bytes_ok; lia).

Theorem old_le16_refuted : exists st st',
  bytes_ok st /\
  runs_to cfg16 (code16_old (OIfLe16 "s" "t" "a" ".ifend1" ".ifhere2" ".ifstart2")) st st' /\
  word (mem st) 134 = 0 /\ word (mem st) 136 = 65281 /\
  word (mem st) 134 <= word (mem st) 136 /\
  mget (mem st) 128 = 0 /\ mget (mem st') 128 = 0.
Proof.
  destruct (old_le16_char cfg16 "s" "t" "a" ".ifend1" ".ifhere2" ".ifstart2" 134 136 128 144
              (st16 0 65281 0 0)) as (st' & Hr & Hv & _); inst16.
  exists (st16 0 65281 0 0), st'.
  split; [inst16|]. split; [exact Hr|].
  split; [vm_compute; reflexivity|]. split; [vm_compute; reflexivity|].
  split; [vm_compute; discriminate|]. split; [vm_compute; reflexivity|].
  rewrite Hv. vm_compute. reflexivity.
Qed.
Print Assumptions old_le16_refuted.

Theorem new_le16_witness : exists st',
  runs_to cfg16 (code16 (CIf16 RLe "s" "t" "a" ".ifend1" ".ifstart1")) (st16 0 65281 0 0) st' /\
  mget (mem st') 128 = 1.
Proof.
  destruct (if16_cc_correct RLe cfg16 "s" "t" "a" ".ifend1" ".ifstart1" 134 136 128 144
              (st16 0 65281 0 0)) as (st' & Hr & Hv & _); inst16.
  { intros _. split; discriminate. }
  exists st'. split; [exact Hr|]. rewrite Hv. vm_compute. reflexivity.
Qed.
Print Assumptions new_le16_witness.

(** a constant [k >= 65281] is not a listing instance *)
Theorem old_le16k_refuted : exists st st',
  bytes_ok st /\
  runs_to cfg16 (code16_old (OIfLe16K "s" 65281 "a" ".ifend1" ".ifhere2" ".ifstart2")) st st' /\
  word (mem st) 134 = 0 /\ word (mem st) 134 <= 65281 /\
  mget (mem st) 128 = 0 /\ mget (mem st') 128 = 0.
Proof.
  destruct (old_le16k_char cfg16 "s" 65281 "a" ".ifend1" ".ifhere2" ".ifstart2" 134 128 144
              (st16 0 0 0 0)) as (st' & Hr & Hv & _); inst16.
  exists (st16 0 0 0 0), st'.
  split; [inst16|]. split; [exact Hr|].
  split; [vm_compute; reflexivity|]. split; [vm_compute; discriminate|].
  split; [vm_compute; reflexivity|].
  rewrite Hv. vm_compute. reflexivity.
Qed.
Print Assumptions old_le16k_refuted.

(** the listing's own [if (s <= 1000) a = 1;], old sequence: correct *)
Corollary old16_11_correct : forall st, bytes_ok st ->
  exists st',
    runs_to cfg16 (code16_old (OIfLe16K "s" 1000 "a" ".ifend1" ".ifhere2" ".ifstart2")) st st' /\
    mget (mem st') 128 = (if word (mem st) 134 <=? 1000 then 1 else mget (mem st) 128) /\
    only_changes [128; 144] st st' /\ keeps_xys st st'.
Proof.
  intros st Hb.
  apply (old_le16k_correct_small cfg16 "s" 1000 "a" ".ifend1" ".ifhere2" ".ifstart2" 134 128 144 st);
    inst16; exact Hb.
Qed.
Print Assumptions old16_11_correct.

Theorem old_dogt16_refuted : exists st st',
  bytes_ok st /\
  iter_to cfg16 (code16_old (ODoGt16 "s" "t" "a" ".dowhile1" ".ifhere1" ".ifstart1" ".dowhileend1"))
    ".dowhile1" st true st' /\
  word (mem st) 134 = 0 /\ word (mem st) 136 = 65281 /\
  ~ (word (mem st) 136 < word (mem st) 134).
Proof.
  destruct (old_dogt16_iter_wrong_when cfg16 "s" "t" "a" ".dowhile1" ".ifhere1" ".ifstart1"
              ".dowhileend1" 134 136 128 144 (st16 0 65281 0 0)) as (st' & Hi & Hn); inst16.
  exists (st16 0 65281 0 0), st'.
  split; [inst16|]. split; [exact Hi|].
  split; [vm_compute; reflexivity|]. split; [vm_compute; reflexivity|exact Hn].
Qed.
Print Assumptions old_dogt16_refuted.

Theorem ifslt16_refuted : exists st st',
  bytes_ok st /\
  runs_to cfg16 (code16 (CIfSLt16 "ss" "st" "a" ".ifend1")) st st' /\
  sval (word (mem st) 140) = -32768 /\ sval (word (mem st) 142) = 1 /\
  sval (word (mem st) 140) < sval (word (mem st) 142) /\
  mget (mem st) 128 = 0 /\ mget (mem st') 128 = 0.
Proof.
  destruct (ifslt16_char cfg16 "ss" "st" "a" ".ifend1" 140 142 128 (st16 0 0 32768 1))
    as (st' & Hr & Hv & _); inst16.
  exists (st16 0 0 32768 1), st'.
  split; [inst16|]. split; [exact Hr|].
  split; [vm_compute; reflexivity|]. split; [vm_compute; reflexivity|].
  split; [vm_compute; reflexivity|]. split; [vm_compute; reflexivity|].
  rewrite Hv. vm_compute. reflexivity.
Qed.
Print Assumptions ifslt16_refuted.

Theorem ifslt16_refuted_conv : exists st st',
  bytes_ok st /\
  runs_to cfg16 (code16 (CIfSLt16 "ss" "st" "a" ".ifend1")) st st' /\
  sval (word (mem st) 140) = 32767 /\ sval (word (mem st) 142) = -1 /\
  ~ (sval (word (mem st) 140) < sval (word (mem st) 142)) /\
  mget (mem st) 128 = 0 /\ mget (mem st') 128 = 1.
Proof.
  destruct (ifslt16_char cfg16 "ss" "st" "a" ".ifend1" 140 142 128 (st16 0 0 32767 65535))
    as (st' & Hr & Hv & _); inst16.
  exists (st16 0 0 32767 65535), st'.
  split; [inst16|]. split; [exact Hr|].
  split; [vm_compute; reflexivity|]. split; [vm_compute; reflexivity|].
  split; [vm_compute; discriminate|]. split; [vm_compute; reflexivity|].
  rewrite Hv. vm_compute. reflexivity.
Qed.
Print Assumptions ifslt16_refuted_conv.

Theorem ifsge16_refuted : exists st st',
  bytes_ok st /\
  runs_to cfg16 (code16 (CIfSGe16 "ss" "st" "a" ".ifend1")) st st' /\
  sval (word (mem st) 140) = -32768 /\ sval (word (mem st) 142) = 1 /\
  ~ (sval (word (mem st) 142) <= sval (word (mem st) 140)) /\
  mget (mem st) 128 = 0 /\ mget (mem st') 128 = 1.
Proof.
  destruct (ifsge16_char cfg16 "ss" "st" "a" ".ifend1" 140 142 128 (st16 0 0 32768 1))
    as (st' & Hr & Hv & _); inst16.
  exists (st16 0 0 32768 1), st'.
  split; [inst16|]. split; [exact Hr|].
  split; [vm_compute; reflexivity|]. split; [vm_compute; reflexivity|].
  split; [vm_compute; intros H; apply H; reflexivity|]. split; [vm_compute; reflexivity|].
  rewrite Hv. vm_compute. reflexivity.
Qed.
Print Assumptions ifsge16_refuted.

Theorem ifsge16_refuted_conv : exists st st',
  bytes_ok st /\
  runs_to cfg16 (code16 (CIfSGe16 "ss" "st" "a" ".ifend1")) st st' /\
  sval (word (mem st) 140) = 32767 /\ sval (word (mem st) 142) = -1 /\
  sval (word (mem st) 142) <= sval (word (mem st) 140) /\
  mget (mem st) 128 = 0 /\ mget (mem st') 128 = 0.
Proof.
  destruct (ifsge16_char cfg16 "ss" "st" "a" ".ifend1" 140 142 128 (st16 0 0 32767 65535))
    as (st' & Hr & Hv & _); inst16.
  exists (st16 0 0 32767 65535), st'.
  split; [inst16|]. split; [exact Hr|].
  split; [vm_compute; reflexivity|]. split; [vm_compute; reflexivity|].
  split; [vm_compute; discriminate|]. split; [vm_compute; reflexivity|].
  rewrite Hv. vm_compute. reflexivity.
Qed.
Print Assumptions ifsge16_refuted_conv.

(** ** the listing's instances of the new sequences: the hypotheses are satisfiable *)
Corollary listing16_06_correct : forall st, bytes_ok st ->
  exists st', runs_to cfg16 (code16 (CIf16 RLe "s" "t" "a" ".ifend1" ".ifstart1")) st st' /\
    mget (mem st') 128 = (if word (mem st) 134 <=? word (mem st) 136 then 1 else mget (mem st) 128) /\
    only_changes [128; 144] st st' /\ keeps_xys st st'.
Proof.
  intros st Hb.
  apply (if16_cc_correct RLe cfg16 "s" "t" "a" ".ifend1" ".ifstart1" 134 136 128 144 st);
    inst16; try exact Hb.
  intros _. split; discriminate.
Qed.
Print Assumptions listing16_06_correct.

Corollary listing16_11_correct : forall st, bytes_ok st ->
  exists st', runs_to cfg16 (code16 (CIf16K RLe "s" 1000 "a" ".ifend1" ".ifstart1")) st st' /\
    mget (mem st') 128 = (if word (mem st) 134 <=? 1000 then 1 else mget (mem st) 128) /\
    only_changes [128; 144] st st' /\ keeps_xys st st'.
Proof.
  intros st Hb.
  apply (if16k_cc_correct RLe cfg16 "s" 1000 "a" ".ifend1" ".ifstart1" 134 128 144 st);
    inst16; try exact Hb.
  intros _. split; discriminate.
Qed.
Print Assumptions listing16_11_correct.

Corollary listing16_17_iter : forall st, bytes_ok st ->
  exists st',
    iter_to cfg16 (code16 (CDoGt16 "s" "t" "a" ".dowhile1" ".ifstart0" ".dowhileend1")) ".dowhile1"
      st (word (mem st) 136 <? word (mem st) 134) st' /\
    mget (mem st') 128 = (mget (mem st) 128 + 1) mod 256 /\
    only_changes [128; 144] st st' /\ keeps_xys st st'.
Proof.
  intros st Hb.
  apply (dogt16_iter cfg16 "s" "t" "a" ".dowhile1" ".ifstart0" ".dowhileend1" 134 136 128 144 st);
    inst16; exact Hb.
Qed.
Print Assumptions listing16_17_iter.

(** ** plain computations with [Sem.run] (no lemma of this file involved) *)

Definition run16 (c : code) (st : mstate) : option Z :=
  match slines_of c with
  | Some sl =>
      match Sem.run cfg16 [] (fun _ _ => None) (fun _ _ => None) 40 "f" sl 0 [] st [] 0%N with
      | Halt s' _ _ => Some (mget (mem s') 128)
      | _ => None
      end
  | None => None
  end.

Example run_old_le_witness :
  run16 (code16_old (OIfLe16 "s" "t" "a" ".ifend1" ".ifhere2" ".ifstart2")) (st16 0 65281 0 0) = Some 0.
Proof. vm_compute. reflexivity. Qed.
Example run_new_le_witness :
  run16 (code16 (CIf16 RLe "s" "t" "a" ".ifend1" ".ifstart1")) (st16 0 65281 0 0) = Some 1.
Proof. vm_compute. reflexivity. Qed.
Example run_old_le_boundary :     (* t - s = 0xFF00: still correct *)
  run16 (code16_old (OIfLe16 "s" "t" "a" ".ifend1" ".ifhere2" ".ifstart2")) (st16 1 65281 0 0) = Some 1.
Proof. vm_compute. reflexivity. Qed.
Example run_slt_overflow :
  run16 (code16 (CIfSLt16 "ss" "st" "a" ".ifend1")) (st16 0 0 32768 1) = Some 0.
Proof. vm_compute. reflexivity. Qed.
Example run_slt_plain :           (* -2 < 1, no overflow *)
  run16 (code16 (CIfSLt16 "ss" "st" "a" ".ifend1")) (st16 0 0 65534 1) = Some 1.
Proof. vm_compute. reflexivity. Qed.
Example run_sge_overflow :
  run16 (code16 (CIfSGe16 "ss" "st" "a" ".ifend1")) (st16 0 0 32768 1) = Some 1.
Proof. vm_compute. reflexivity. Qed.

(** s = 0, t = 0xFF01: the old do-while never ends (2000 steps of fuel are used up), the new one
    stops after one iteration with [a] = 1 *)
Definition halts16 (fuel : nat) (c : code) (st : mstate) : option (option Z) :=
  match slines_of c with
  | Some sl =>
      match Sem.run cfg16 [] (fun _ _ => None) (fun _ _ => None) fuel "f" sl 0 [] st [] 0%N with
      | Halt s' _ _ => Some (Some (mget (mem s') 128))
      | OutOfFuel _ _ _ => Some None
      | Faulted _ _ _ _ => None
      end
  | None => None
  end.

Example run_old_dogt_diverges :
  halts16 2000 (code16_old (ODoGt16 "s" "t" "a" ".dowhile1" ".ifhere1" ".ifstart1" ".dowhileend1"))
    (st16 0 65281 0 0) = Some None.
Proof. vm_compute. reflexivity. Qed.
Example run_new_dogt_stops :
  halts16 2000 (code16 (CDoGt16 "s" "t" "a" ".dowhile1" ".ifstart0" ".dowhileend1"))
    (st16 0 65281 0 0) = Some (Some 1).
Proof. vm_compute. reflexivity. Qed.
Example run_new_dogt_counts :     (* s = 3 > t = 2: never ends either, rightly so *)
  halts16 2000 (code16 (CDoGt16 "s" "t" "a" ".dowhile1" ".ifstart0" ".dowhileend1"))
    (st16 3 2 0 0) = Some None.
Proof. vm_compute. reflexivity. Qed.
