(** COMPOSITION theorems for the do-while, for and switch templates of Model/GenCtl.v on the
    executable 6502 semantics (M6502/Sem.v), for ALL byte-valued machine states and ANY body code
    with the interface of Proofs/GenIfFacts.v: a specification ([halts_to] ... /\ R), [no_ret]
    (no RTS / RTI), and the labels: here stated once for the whole statement,
    [NoDup (defs (<template> ...))]: no label is defined twice in the emitted code (the labels of
    the template are distinct, the bodies do not define them, two bodies do not define the same
    label, and no body defines a label twice; true of every output of the compiler, whose local
    labels are numbered by counters).

    [dowhile_tpl_correct]  the do-while rule: invariant at the head, postcondition of the body,
                           measure; the body is executed at least once
    [for_tpl_correct]      init, then the while rule on body; update
    [for_tpl_break_correct]  the body may leave the loop by a jump to the end label ([break]):
                           its specification is given on [Sem.run] inside any code ([body_exits])
    [switch_tpl_correct]   for ANY list of cases (values, statements, break / fall-through) and an
                           optional default, on a memory operand or on X: the code executes, one
                           after the other, exactly the bodies [switch_sem] computes: from the
                           first case one of whose values is the operand, on through the
                           fall-through cases until a [break] or the end (the default if it is
                           reached, or if no case matches)
    [switch_assign_correct]  switches whose statements are all [dst = k;]
    [dowhile_ne_inc_code_correct], [for_up_assign_correct], [for_break_code_correct]   loops of
                           the listing with a closed form, any labels; the listings themselves are
                           derived in Props/C01ctl.v. *)
From Coq Require Import String Ascii List Bool Arith NArith ZArith Lia ZifyBool.
From CC Require Import Base.Str Asm.Lines M6502.Isa Asm.Operand M6502.Sem
  Model.OptSem Proofs.OptSemFacts Model.CheckBranches Model.CbSpec
  Proofs.ExecFacts Model.GenTemplates Proofs.GenTemplatesFacts Proofs.GenCmp16Facts Model.GenLoops
  Proofs.GenLoopsFacts Model.GenTables Proofs.GenTablesFacts Model.GenIf Proofs.GenIfFacts
  Model.GenCtl.
Import ListNotations.
Open Scope string_scope.
Open Scope list_scope.
Open Scope Z_scope.

Lemma nodup_app_r : forall (A : Type) (x y : list A), NoDup (x ++ y) -> NoDup y.
Proof.
  intros A x. induction x as [|b x IH]; intros y H; [exact H|].
  cbn [app] in H. inversion H; subst. apply IH. assumption.
Qed.

Lemma cond_neg_code : forall c lbl here, pcond_code_at c lbl here = cond_code_at (cond_neg c) lbl here.
Proof.
  intros c lbl here. unfold pcond_code_at, cond_code_at.
  destruct c as [o x y|o x k]; cbn [cond_neg cond_op cond_lhs cond_rhs];
    rewrite negate_op_involutive; reflexivity.
Qed.

Lemma cond_neg_wf : forall cfg c, cond_wf cfg c -> cond_wf cfg (cond_neg c).
Proof. intros cfg c H. destruct c; exact H. Qed.

Lemma cond_neg_holds : forall cfg c st, cond_holds cfg (cond_neg c) st = negb (cond_holds cfg c st).
Proof.
  intros cfg c st. unfold cond_holds. destruct c as [o x y|o x k]; cbn [cond_neg cond_op];
    rewrite negate_op_correct; reflexivity.
Qed.

Lemma cond_neg_state : forall cfg c st, cond_state cfg (cond_neg c) st = cond_state cfg c st.
Proof. intros cfg c st. destruct c; reflexivity. Qed.

Definition spcond_code (c : cond8) (lbl here : string) : list sline :=
  scond_code (cond_neg c) lbl here.

Lemma slines_pcond_code : forall cfg c lbl here, cond_wf cfg c ->
  lbl <> ""%string -> here <> ""%string ->
  slines_of (pcond_code_at c lbl here) = Some (spcond_code c lbl here).
Proof.
  intros cfg c lbl here Hw Hl Hh. rewrite cond_neg_code.
  apply (slines_cond_code cfg); [apply cond_neg_wf; exact Hw|exact Hl|exact Hh].
Qed.

(** [pcond_code_at] as a segment: on to the next segment when the condition FAILS, to [lbl]
    (line [kl]) when it holds *)
Lemma seg_pcond : forall cfg c lbl here segs i kl s (Q : nat -> nat -> mstate -> Prop),
  ports cfg = [] -> cond_wf cfg c ->
  nth_error segs i = Some (spcond_code c lbl here) ->
  (forall l, In l (sdefs (spcond_code c lbl here)) -> ~ In l (sdefs (cat (firstn i segs)))) ->
  find_label lbl (cat segs) 0 = Some kl -> bytes_ok s ->
  (forall n : nat,
     reach cfg (cat segs) (if cond_holds cfg c s then kl else pos segs (S i)) (cond_state cfg c s)
       (fun n2 => Q (n + n2)%nat)) ->
  reach cfg (cat segs) (pos segs i) s Q.
Proof.
  intros cfg c lbl here segs i kl s Q Hp Hw Hi Hfr Hkl Hb HQ.
  apply (seg_cond cfg (cond_neg c) lbl here segs i kl s Q Hp (cond_neg_wf _ _ Hw) Hi Hfr Hkl Hb).
  intros n _. rewrite cond_neg_holds, cond_neg_state.
  destruct (cond_holds cfg c s); apply HQ.
Qed.

Lemma slines_dowhile_tpl : forall cfg c B slB lhead lend here, cond_wf cfg c ->
  lhead <> ""%string -> here <> ""%string -> slines_of B = Some slB ->
  slines_of (dowhile_tpl_at c B lhead lend here)
  = Some (cat [[SLbl lhead]; slB; spcond_code c lhead here; [SLbl lend]]).
Proof.
  intros cfg c B slB lhead lend here Hw Hh He HB. unfold dowhile_tpl_at.
  apply slines_app; [reflexivity|].
  apply slines_app; [exact HB|].
  apply slines_app; [apply (slines_pcond_code cfg); assumption|reflexivity].
Qed.

(** ** [dowhile_tpl_correct]: the do-while rule (total correctness)

    [I] holds at the head, before the body; [Q] is what the body establishes; [mu] is the measure;
    all three are about memory, X, Y, S only.  From a byte-valued state satisfying [I] the body
    halts in a state satisfying [Q]; if the C condition holds there, [I] holds again and the
    measure, still non-negative, is smaller.  Then [do B while (c)] halts from every byte-valued
    state satisfying [I] (the body is executed at least once), in a state that satisfies [Q]
    and not the condition. *)
Theorem dowhile_tpl_correct : forall cfg c B lhead lend here
    (I Q : mstate -> Prop) (mu : mstate -> Z) st,
  ports cfg = [] -> cond_wf cfg c ->
  lhead <> ""%string -> here <> ""%string -> lhead <> here ->
  NoDup (defs (dowhile_tpl_at c B lhead lend here)) -> no_ret B ->
  (forall s s', same_mxys s s' -> I s -> I s') ->
  (forall s s', same_mxys s s' -> Q s -> Q s') ->
  (forall s s', same_mxys s s' -> mu s' = mu s) ->
  (forall s, bytes_ok s -> I s ->
     exists s', halts_to cfg B s s' /\ Q s' /\
       (cond_holds cfg c s' = true -> I s' /\ 0 <= mu s' < mu s)) ->
  bytes_ok st -> I st ->
  exists st', halts_to cfg (dowhile_tpl_at c B lhead lend here) st st' /\
    Q st' /\ cond_holds cfg c st' = false /\ bytes_ok st'.
Proof.
  intros cfg c B lhead lend here I Q mu st Hp Hw Hh He Nhh Hnd Hnr HI HQ Hmu Hbody Hb Hinv.
  destruct (Hbody st Hb Hinv) as (s0 & (slB & HslB & _) & _).
  pose proof (slines_dowhile_tpl cfg c B slB lhead lend here Hw Hh He HslB) as Hsl.
  rewrite <- (slines_defs _ _ Hsl) in Hnd.
  eapply halts_to_reach; [exact Hsl|].
  set (segs := [[SLbl lhead]; slB; spcond_code c lhead here; [SLbl lend]]) in *.
  eapply (loop_rule cfg (cat segs) 0%nat (pos segs 4)
            (fun k s => I s /\ bytes_ok s /\ k = mu s)
            (fun s' => Q s' /\ cond_holds cfg c s' = false /\ bytes_ok s'))
    with (k := mu st); [|split; [exact Hinv|split; [exact Hb|reflexivity]]].
  intros k s (Hi & Hbs & Hk).
  destruct (Hbody s Hbs Hi) as (s1 & Hr & Hq & Hagain).
  destruct (halts_to_sl_halts cfg B slB _ _ HslB Hr) as (N & HN).
  pose proof (halts_to_bytes_ok cfg B _ _ Hr Hbs) as Hb1.
  pose proof (cond_state_same cfg c s1) as Hsame.
  pose proof (cond_state_bytes_ok cfg c s1 Hb1) as Hbm.
  apply (seg_lbl cfg segs 0 lhead _ _ eq_refl).
  apply (seg_body cfg segs 1 slB N _ s1 _ eq_refl HN (slines_no_ret _ _ HslB Hnr)
           (nodup_fresh segs 1 _ Hnd eq_refl)).
  intros n1 _.
  apply (seg_pcond cfg c lhead here segs 2 _ s1 _ Hp Hw eq_refl (nodup_fresh segs 2 _ Hnd eq_refl)
           (find_label_seg_nd segs 0 lhead [] Hnd eq_refl) Hb1).
  intros n2. destruct (cond_holds cfg c s1) eqn:Ec.
  - destruct (Hagain eq_refl) as (Hi1 & Hm1).
    apply reach_stop. left. split; [reflexivity|]. exists (mu s1). split; [lia|].
    split; [apply (HI _ _ Hsame Hi1)|]. split; [exact Hbm|symmetry; apply (Hmu _ _ Hsame)].
  - apply (seg_lbl cfg segs 3 lend _ _ eq_refl). apply reach_stop.
    right. split; [reflexivity|]. split; [apply (HQ _ _ Hsame Hq)|].
    split; [rewrite cond_holds_state; exact Ec|exact Hbm].
Qed.
Print Assumptions dowhile_tpl_correct.

(** * Bodies that may leave by a jump: [break], [continue]

    What the body [B] of a loop does from [s] inside ANY code [sl = pre ++ B ++ post] without
    duplicate labels in which [lbrk] and [lcont] are defined (lines [kb], [kc]): [Sem.run] goes
    from the first line of [B] either to the line after its last, in a state satisfying [Nm]; or,
    by a jump to [lbrk], to line [kb] in a state satisfying [Bk]; or, by a jump to [lcont], to line
    [kc] in a state satisfying [Ct]. *)
Definition body_exits (cfg : config) (B : code) (lbrk lcont : string) (s : mstate)
    (Nm Bk Ct : mstate -> Prop) : Prop :=
  exists slB, slines_of B = Some slB /\
    forall sl pre post kb kc, sl = pre ++ slB ++ post -> NoDup (sdefs sl) ->
      find_label lbrk sl 0 = Some kb -> find_label lcont sl 0 = Some kc ->
      reach cfg sl (length pre) s
        (fun (_ pc' : nat) (s' : mstate) =>
           (pc' = (length pre + length slB)%nat /\ Nm s') \/ (pc' = kb /\ Bk s') \/ (pc' = kc /\ Ct s')).

(** a body that halts by falling off its end, without RTS / RTI, never takes the two jumps *)
Lemma halts_body_exits : forall cfg B lbrk lcont s s' (Nm : mstate -> Prop),
  halts_to cfg B s s' -> no_ret B -> Nm s' ->
  body_exits cfg B lbrk lcont s Nm (fun _ => False) (fun _ => False).
Proof.
  intros cfg B lbrk lcont s s' Nm Hr Hnr HN.
  pose proof Hr as (slB & HslB & _). exists slB. split; [exact HslB|].
  intros sl pre post kb kc -> Hnd _ _.
  destruct (halts_to_sl_halts cfg B slB _ _ HslB Hr) as (N & HN').
  apply (seg_body cfg [pre; slB; post] 1 slB N _ s' _ eq_refl HN' (slines_no_ret _ _ HslB Hnr)
           (nodup_fresh [pre; slB; post] 1 _ Hnd eq_refl)).
  intros n _. apply reach_stop. left. split; [cbn [pos firstn cat]; apply app_length|exact HN].
Qed.
Print Assumptions halts_body_exits.

Lemma slines_for_tpl : forall cfg Init c U B slI slU slB lfor lupd lend here, cond_wf cfg c ->
  lfor <> ""%string -> lend <> ""%string -> here <> ""%string ->
  slines_of Init = Some slI -> slines_of U = Some slU -> slines_of B = Some slB ->
  slines_of (for_tpl_at Init c U B lfor lupd lend here)
  = Some (cat [slI; scond_code c lend here; [SLbl lfor]; slB; [SLbl lupd]; slU;
               spcond_code c lfor here; [SLbl lend]]).
Proof.
  intros cfg Init c U B slI slU slB lfor lupd lend here Hw Hf Hd Hh HI HU HB. unfold for_tpl_at.
  apply slines_app; [exact HI|].
  apply slines_app; [apply (slines_cond_code cfg); assumption|].
  apply slines_app; [reflexivity|].
  apply slines_app; [exact HB|].
  apply slines_app; [reflexivity|].
  apply slines_app; [exact HU|].
  apply slines_app; [apply (slines_pcond_code cfg); assumption|reflexivity].
Qed.

(** ** [for_tpl_break_correct]: the for rule for a body that may [break] / [continue]

    [Init] halts in a state satisfying the invariant [I].  Whenever [I] and the C condition hold
    (byte-valued state [s]), the measure is non-negative and the body ([body_exits]: on [Sem.run]
    inside the whole statement) either ends normally or jumps to the update label ([continue]),
    in a byte-valued state [s1] with [J s s1], or jumps to the end label ([break]) in a byte-valued
    state satisfying [Bk].  From such an [s1] the update halts in a state where [I] holds again
    and the measure is smaller.  Then the for statement halts, and either [I] holds and the
    condition does not, or the loop was left by [break] and [Bk] holds. *)
Theorem for_tpl_break_correct : forall cfg Init c U B lfor lupd lend here
    (I Bk : mstate -> Prop) (J : mstate -> mstate -> Prop) (mu : mstate -> Z) st,
  ports cfg = [] -> cond_wf cfg c ->
  lfor <> ""%string -> lend <> ""%string -> here <> ""%string -> lfor <> here -> lend <> here ->
  NoDup (defs (for_tpl_at Init c U B lfor lupd lend here)) ->
  no_ret Init -> no_ret U ->
  (exists slB, slines_of B = Some slB) -> (exists slU, slines_of U = Some slU) ->
  (forall s s', same_mxys s s' -> I s -> I s') ->
  (forall s s', same_mxys s s' -> mu s' = mu s) ->
  (exists s0, halts_to cfg Init st s0 /\ I s0) ->
  (forall s, bytes_ok s -> I s -> cond_holds cfg c s = true ->
     0 <= mu s /\
     body_exits cfg B lend lupd s (fun s1 => bytes_ok s1 /\ J s s1)
       (fun s1 => bytes_ok s1 /\ Bk s1) (fun s1 => bytes_ok s1 /\ J s s1)) ->
  (forall s s1, bytes_ok s1 -> J s s1 -> exists s2, halts_to cfg U s1 s2 /\ I s2 /\ mu s2 < mu s) ->
  bytes_ok st ->
  exists st', halts_to cfg (for_tpl_at Init c U B lfor lupd lend here) st st' /\
    bytes_ok st' /\ ((I st' /\ cond_holds cfg c st' = false) \/ Bk st').
Proof.
  intros cfg Init c U B lfor lupd lend here I Bk J mu st Hp Hw Hf Hd Hh Nfh Ndh Hnd HnrI HnrU
    (slB & HslB) (slU & HslU) HI Hmu (s0 & Hinit & Hi0) Hbody Hupd Hb.
  pose proof Hinit as (slI & HslI & _).
  pose proof (slines_for_tpl cfg Init c U B slI slU slB lfor lupd lend here Hw Hf Hd Hh
                HslI HslU HslB) as Hsl.
  rewrite <- (slines_defs _ _ Hsl) in Hnd.
  destruct (halts_to_sl_halts cfg Init slI _ _ HslI Hinit) as (N0 & HN0).
  pose proof (halts_to_bytes_ok cfg Init _ _ Hinit Hb) as Hb0.
  eapply halts_to_reach; [exact Hsl|].
  set (segs := [slI; scond_code c lend here; [SLbl lfor]; slB; [SLbl lupd]; slU;
                spcond_code c lfor here; [SLbl lend]]) in *.
  pose proof (find_label_seg_nd segs 2 lfor [] Hnd eq_refl) as Hkfor.
  pose proof (find_label_seg_nd segs 4 lupd [] Hnd eq_refl) as Hkupd.
  pose proof (find_label_seg_nd segs 7 lend [] Hnd eq_refl) as Hkend.
  (* what is established on the state [s] left by a condition: after it, or at the end *)
  assert (Hcond : forall s, bytes_ok s -> I s ->
            bytes_ok (cond_state cfg c s) /\ I (cond_state cfg c s) /\
            mu (cond_state cfg c s) = mu s /\
            cond_holds cfg c (cond_state cfg c s) = cond_holds cfg c s).
  { intros s Hbs Hi. pose proof (cond_state_same cfg c s) as Hsame.
    split; [apply cond_state_bytes_ok; exact Hbs|]. split; [apply (HI _ _ Hsame Hi)|].
    split; [apply (Hmu _ _ Hsame)|apply cond_holds_state]. }
  apply (seg_body cfg segs 0 slI N0 _ s0 _ eq_refl HN0 (slines_no_ret _ _ HslI HnrI)
           (fun _ _ H => H)).
  intros n0 _.
  apply (seg_cond cfg c lend here segs 1 _ s0 _ Hp Hw eq_refl (nodup_fresh segs 1 _ Hnd eq_refl)
           Hkend Hb0).
  intros n1 _. destruct (Hcond s0 Hb0 Hi0) as (Hbm0 & Him0 & _ & Hcm0).
  destruct (cond_holds cfg c s0).
  - (* the loop, from the [.for] label, the condition holding *)
    eapply reach_weaken;
      [|apply (loop_rule cfg (cat segs) (pos segs 2) (pos segs 8)
                 (fun k s => I s /\ bytes_ok s /\ cond_holds cfg c s = true /\ k = mu s)
                 (fun s' => bytes_ok s' /\ ((I s' /\ cond_holds cfg c s' = false) \/ Bk s')))
          with (k := mu (cond_state cfg c s0));
        [|split; [exact Him0|split; [exact Hbm0|split; [exact Hcm0|reflexivity]]]]].
    { intros n pc' s' HP. exact HP. }
    intros k s (Hi & Hbs & Hc & Hk).
    destruct (Hbody s Hbs Hi Hc) as (Hm0 & slB' & HslB' & Hex).
    rewrite HslB in HslB'. inversion HslB'; subst slB'.
    (* from the update label *)
    assert (Hu : forall s1, bytes_ok s1 /\ J s s1 ->
              reach cfg (cat segs) (pos segs 4) s1
                (fun (_ pc' : nat) (s' : mstate) =>
                   (pc' = pos segs 2 /\ exists k', 0 <= k' < k /\
                      I s' /\ bytes_ok s' /\ cond_holds cfg c s' = true /\ k' = mu s') \/
                   (pc' = pos segs 8 /\
                    bytes_ok s' /\ ((I s' /\ cond_holds cfg c s' = false) \/ Bk s')))).
    { intros s1 (Hbs1 & Hj).
      destruct (Hupd s s1 Hbs1 Hj) as (s2 & Hr2 & Hi2 & Hlt).
      destruct (halts_to_sl_halts cfg U slU _ _ HslU Hr2) as (N & HN).
      pose proof (halts_to_bytes_ok cfg U _ _ Hr2 Hbs1) as Hb2.
      destruct (Hcond s2 Hb2 Hi2) as (Hbm & Him & Hmm & Hcm).
      apply (seg_lbl cfg segs 4 lupd _ _ eq_refl).
      apply (seg_body cfg segs 5 slU N _ s2 _ eq_refl HN (slines_no_ret _ _ HslU HnrU)
               (nodup_fresh segs 5 _ Hnd eq_refl)).
      intros n2 _.
      apply (seg_pcond cfg c lfor here segs 6 _ s2 _ Hp Hw eq_refl
               (nodup_fresh segs 6 _ Hnd eq_refl) Hkfor Hb2).
      intros n3. destruct (cond_holds cfg c s2).
      - apply reach_stop. left. split; [reflexivity|]. exists (mu (cond_state cfg c s2)).
        pose proof (proj1 (Hbody _ Hbm Him Hcm)) as Hm2.
        split; [lia|]. split; [exact Him|]. split; [exact Hbm|]. split; [exact Hcm|reflexivity].
      - apply (seg_lbl cfg segs 7 lend _ _ eq_refl). apply reach_stop.
        right. split; [reflexivity|]. split; [exact Hbm|]. left. split; assumption. }
    apply (seg_lbl cfg segs 2 lfor _ _ eq_refl). apply reach_seq.
    eapply reach_weaken;
      [|apply (Hex (cat segs) _ _ _ _ (cat_nth segs 3 _ eq_refl) Hnd Hkend Hkupd)].
    intros n pc' s1 [[-> Hx]|[[-> Hx]|[-> Hx]]]; cbv beta.
    + rewrite <- (pos_S segs 3 _ eq_refl : _ = (length _ + _)%nat). apply (Hu s1 Hx).
    + apply (seg_lbl cfg segs 7 lend _ _ eq_refl). apply reach_stop.
      right. split; [reflexivity|]. split; [exact (proj1 Hx)|]. right. exact (proj2 Hx).
    + apply (Hu s1 Hx).
  - (* the loop is skipped *)
    apply (seg_lbl cfg segs 7 lend _ _ eq_refl). apply reach_stop.
    split; [reflexivity|]. split; [exact Hbm0|]. left. split; assumption.
Qed.
Print Assumptions for_tpl_break_correct.

Lemma body_exits_weaken : forall cfg B lbrk lcont s (N1 B1 C1 N2 B2 C2 : mstate -> Prop),
  (forall x, N1 x -> N2 x) -> (forall x, B1 x -> B2 x) -> (forall x, C1 x -> C2 x) ->
  body_exits cfg B lbrk lcont s N1 B1 C1 -> body_exits cfg B lbrk lcont s N2 B2 C2.
Proof.
  intros cfg B lbrk lcont s N1 B1 C1 N2 B2 C2 HN HB HC (slB & HslB & H).
  exists slB. split; [exact HslB|].
  intros sl pre post kb kc Esl Hnd Hkb Hkc.
  eapply reach_weaken; [|apply (H sl pre post kb kc Esl Hnd Hkb Hkc)].
  intros n pc' s' [[Hpc Hx]|[[Hpc Hx]|[Hpc Hx]]]; cbv beta;
    [left|right; left|right; right]; (split; [exact Hpc|auto]).
Qed.

(** ** [for_tpl_correct]: the for rule, bodies without [break] / [continue]

    [Init] halts in a state satisfying [I]; whenever [I] and the C condition hold, the measure is
    non-negative, the body halts, and from there the update halts in a state where [I] holds again
    and the measure is smaller.  Then [for (Init; c; U) B] halts, [I] holds on the final state and
    the condition does not. *)
Theorem for_tpl_correct : forall cfg Init c U B lfor lupd lend here
    (I : mstate -> Prop) (mu : mstate -> Z) st,
  ports cfg = [] -> cond_wf cfg c ->
  lfor <> ""%string -> lend <> ""%string -> here <> ""%string -> lfor <> here -> lend <> here ->
  NoDup (defs (for_tpl_at Init c U B lfor lupd lend here)) ->
  no_ret Init -> no_ret B -> no_ret U ->
  (exists slB, slines_of B = Some slB) -> (exists slU, slines_of U = Some slU) ->
  (forall s s', same_mxys s s' -> I s -> I s') ->
  (forall s s', same_mxys s s' -> mu s' = mu s) ->
  (exists s0, halts_to cfg Init st s0 /\ I s0) ->
  (forall s, bytes_ok s -> I s -> cond_holds cfg c s = true ->
     0 <= mu s /\
     exists s1, halts_to cfg B s s1 /\ exists s2, halts_to cfg U s1 s2 /\ I s2 /\ mu s2 < mu s) ->
  bytes_ok st ->
  exists st', halts_to cfg (for_tpl_at Init c U B lfor lupd lend here) st st' /\
    I st' /\ cond_holds cfg c st' = false /\ bytes_ok st'.
Proof.
  intros cfg Init c U B lfor lupd lend here I mu st Hp Hw Hf Hd Hh Nfh Ndh Hnd HnrI HnrB HnrU
    HaB HaU HI Hmu Hinit Hbody Hb.
  destruct (for_tpl_break_correct cfg Init c U B lfor lupd lend here I (fun _ => False)
              (fun s s1 => bytes_ok s /\ I s /\ cond_holds cfg c s = true /\ halts_to cfg B s s1)
              mu st Hp Hw Hf Hd Hh Nfh Ndh Hnd HnrI HnrU HaB HaU HI Hmu Hinit)
    as (st' & Hr & Hb' & [[Hi Hc]|[]]).
  - intros s Hbs Hi Hc. destruct (Hbody s Hbs Hi Hc) as (Hm & s1 & Hr1 & _).
    split; [exact Hm|].
    eapply body_exits_weaken;
      [| | |apply (halts_body_exits cfg B lend lupd s s1
                     (fun x => bytes_ok x /\ bytes_ok s /\ I s /\ cond_holds cfg c s = true
                               /\ halts_to cfg B s x) Hr1 HnrB)].
    + intros x Hx. exact Hx.
    + intros x [].
    + intros x [].
    + split; [apply (halts_to_bytes_ok cfg B _ _ Hr1 Hbs)|].
      split; [exact Hbs|]. split; [exact Hi|]. split; [exact Hc|exact Hr1].
  - intros s s1 Hb1 (Hbs & Hi & Hc & Hr1).
    destruct (Hbody s Hbs Hi Hc) as (_ & s1' & Hr1' & s2 & Hr2 & Hi2 & Hlt).
    rewrite (halts_to_det cfg B s s1 s1' Hr1 Hr1'). exists s2.
    split; [exact Hr2|]. split; [exact Hi2|exact Hlt].
  - exact Hb.
  - exists st'. split; [exact Hr|]. split; [exact Hi|]. split; [exact Hc|exact Hb'].
Qed.
Print Assumptions for_tpl_correct.

(** from the statements of the first case of [cs] on: through the fall-through cases, to the
    first [break] or the end of the switch (the default, last, included) *)
Fixpoint run_from {A : Type} (cs : list (sw_case A)) (d : option A) : list A :=
  match cs with
  | [] => match d with Some D => [D] | None => [] end
  | cse :: r => sc_body cse :: (if sc_falls cse then run_from r d else [])
  end.

(** the first case one of whose values is [v]; the default if there is none *)
Fixpoint switch_sem {A : Type} (v : Z) (cs : list (sw_case A)) (d : option A) : list A :=
  match cs with
  | [] => match d with Some D => [D] | None => [] end
  | cse :: r =>
      if existsb (Z.eqb v) (sc_vals cse) then run_from (cse :: r) d else switch_sem v r d
  end.

(** every body executed is the body of a case, or the default *)
Lemma run_from_incl : forall (A : Type) (cs : list (sw_case A)) d x,
  In x (run_from cs d) -> In x (map sc_body cs) \/ d = Some x.
Proof.
  intros A cs d x. induction cs as [|c r IH]; cbn [run_from map].
  - destruct d as [D|]; [intros [<-|[]]; right; reflexivity|intros []].
  - intros [E|H]; [left; left; exact E|]. destruct (sc_falls c); [|contradiction].
    destruct (IH H) as [H'|H']; [left; right; exact H'|right; exact H'].
Qed.

Lemma switch_sem_incl : forall (A : Type) v (cs : list (sw_case A)) d x,
  In x (switch_sem v cs d) -> In x (map sc_body cs) \/ d = Some x.
Proof.
  intros A v cs d x. induction cs as [|c r IH]; [apply (run_from_incl A [])|].
  cbn [switch_sem]. destruct (existsb (Z.eqb v) (sc_vals c)); [apply (run_from_incl A (c :: r))|].
  intros H. destruct (IH H) as [H'|H']; [left; right; exact H'|right; exact H'].
Qed.

Definition map_case {A B : Type} (f : A -> B) (c : sw_case A) : sw_case B :=
  mkCase (sc_vals c) (f (sc_body c)) (sc_falls c).

Lemma run_from_map : forall (A B : Type) (f : A -> B) cs d,
  run_from (map (map_case f) cs) (option_map f d) = map f (run_from cs d).
Proof.
  intros A B f cs d. induction cs as [|c r IH].
  - destruct d; reflexivity.
  - cbn [map run_from map_case sc_body sc_falls]. rewrite IH.
    destruct (sc_falls c); reflexivity.
Qed.

Lemma switch_sem_map : forall (A B : Type) (f : A -> B) v cs d,
  switch_sem v (map (map_case f) cs) (option_map f d) = map f (switch_sem v cs d).
Proof.
  intros A B f v cs d. induction cs as [|c r IH].
  - destruct d; reflexivity.
  - cbn [map switch_sem]. cbn [map_case sc_vals]. rewrite IH.
    destruct (existsb (Z.eqb v) (sc_vals c)); [|reflexivity].
    apply (run_from_map A B f (c :: r) d).
Qed.

Fixpoint exec_bodies (cfg : config) (l : list code) (s s' : mstate) : Prop :=
  match l with
  | [] => s' = s
  | B :: r => exists m, halts_to cfg B s m /\ exec_bodies cfg r m s'
  end.

Fixpoint sexec (cfg : config) (l : list (list sline)) (s s' : mstate) : Prop :=
  match l with
  | [] => s' = s
  | B :: r => exists N m, sl_halts cfg B N s m /\ sexec cfg r m s'
  end.

Definition asm (B : code) : list sline := match slines_of B with Some sl => sl | None => [] end.

Lemma asm_eq : forall B sl, slines_of B = Some sl -> slines_of B = Some (asm B).
Proof. intros B sl H. unfold asm. rewrite H. reflexivity. Qed.

Lemma sexec_exec : forall cfg l s s', (forall B, In B l -> slines_of B = Some (asm B)) ->
  sexec cfg (map asm l) s s' -> exec_bodies cfg l s s'.
Proof.
  intros cfg l. induction l as [|B l IH]; intros s s' Hl Hx; [exact Hx|].
  destruct Hx as (N & m & Hh & Hr). exists m.
  split; [|apply IH; [intros B' Hin; apply Hl; right; exact Hin|exact Hr]].
  exists (asm B). split; [apply Hl; left; reflexivity|]. exists N. exact Hh.
Qed.

Definition sw_wf (cfg : config) (e : sw_operand) : Prop :=
  match e with SwMem x => var_at cfg x | SwX => True end.
Definition sw_val (cfg : config) (e : sw_operand) (st : mstate) : Z :=
  match e with SwMem x => var_val cfg x st | SwX => rX st end.

Lemma sw_val_same : forall cfg e s s', same_mxys s s' -> sw_val cfg e s' = sw_val cfg e s.
Proof.
  intros cfg e s s' (Em & Ex & _). destruct e; cbn [sw_val]; [unfold var_val; rewrite Em|]; congruence.
Qed.

Lemma sw_val_range : forall cfg e st, bytes_ok st -> 0 <= sw_val cfg e st < 256.
Proof.
  intros cfg e st Hb. destruct e; cbn [sw_val]; [apply var_val_range; exact Hb|].
  destruct Hb as (_ & HX & _). exact HX.
Qed.

Definition stest1 (e : sw_operand) (v : Z) : list sline :=
  match e with
  | SwMem x => [SIns LDA (OMem x 0 IxNone) false x; SIns CMP (OImm (INum v)) false (imm v)]
  | SwX => [SIns CPX (OImm (INum v)) false (imm v)]
  end.

Definition stest (e : sw_operand) (vals : list Z) (lstmt lnext : string) : list sline :=
  match vals with
  | [v] => stest1 e v ++ [sbr BNE lnext false]
  | _ => flat_map (fun v => stest1 e v ++ [sbr BEQ lstmt false]) vals ++ [sjmp lnext]
  end.

Definition scase_code (e : sw_operand) (L : sw_labels) (i : nat) (cse : sw_case (list sline))
    (has_next : bool) : list sline :=
  stest e (sc_vals cse) (sw_stmt L i) (sw_next L i)
  ++ [SLbl (sw_stmt L i)] ++ sc_body cse
  ++ (if sc_falls cse then [] else [sjmp (sw_end L)])
  ++ (if has_next then [sjmp (sw_stmt L (S i))] else [])
  ++ [SLbl (sw_next L i)].

Fixpoint scases_code (e : sw_operand) (L : sw_labels) (i : nat) (cs : list (sw_case (list sline)))
    (has_default : bool) : list sline :=
  match cs with
  | [] => []
  | cse :: r =>
      scase_code e L i cse (match r with [] => has_default | _ => true end)
      ++ scases_code e L (S i) r has_default
  end.

Definition sdflt (L : sw_labels) (k : nat) (d : option (list sline)) : list sline :=
  match d with Some D => SLbl (sw_stmt L k) :: D | None => [] end.

Definition stail (L : sw_labels) (k : nat) (d : option (list sline)) : list sline :=
  sdflt L k d ++ [SLbl (sw_end L)].

Lemma slines_sw_test1 : forall cfg e v, sw_wf cfg e -> 0 <= v ->
  slines_of (sw_test1 e v) = Some (stest1 e v).
Proof.
  intros cfg e v Hw Hv. destruct e as [x|]; cbn [sw_test1 stest1 sw_wf] in *.
  - destruct Hw as (Vx & _). slines_tac.
  - slines_tac.
Qed.

Lemma slines_sw_test : forall cfg e vals lstmt lnext, sw_wf cfg e ->
  (forall v, In v vals -> 0 <= v) -> lstmt <> ""%string -> lnext <> ""%string ->
  slines_of (sw_test e vals lstmt lnext) = Some (stest e vals lstmt lnext).
Proof.
  intros cfg e vals lstmt lnext Hw Hv Hs Hn.
  assert (Hmulti : forall l, (forall v, In v l -> 0 <= v) ->
            slines_of (flat_map (fun v => sw_test1 e v ++ [ins BEQ lstmt]) l ++ [ins JMP lnext])
            = Some (flat_map (fun v => stest1 e v ++ [sbr BEQ lstmt false]) l ++ [sjmp lnext])).
  { induction l as [|v l IH]; intros Hl.
    - cbn [flat_map app]. apply slines_jmp; [exact Hn|reflexivity].
    - cbn [flat_map]. rewrite <- !app_assoc.
      apply slines_app; [apply (slines_sw_test1 cfg); [exact Hw|apply Hl; left; reflexivity]|].
      cbn [app]. apply slines_ins; [apply parse_lbl; [reflexivity|exact Hs]|].
      apply IH. intros v' Hin. apply Hl. right. exact Hin. }
  destruct vals as [|v0 [|v1 rest]]; cbn [sw_test stest].
  - apply (Hmulti [] Hv).
  - apply slines_app; [apply (slines_sw_test1 cfg); [exact Hw|apply Hv; left; reflexivity]|].
    apply slines_ins; [apply parse_lbl; [reflexivity|exact Hn]|reflexivity].
  - apply (Hmulti (v0 :: v1 :: rest) Hv).
Qed.

Definition labels_ne (L : sw_labels) : Prop :=
  (forall i, sw_stmt L i <> ""%string /\ sw_next L i <> ""%string) /\ sw_end L <> ""%string.

Lemma slines_sw_case : forall cfg e L i cse hn, sw_wf cfg e -> labels_ne L ->
  (forall v, In v (sc_vals cse) -> 0 <= v) -> slines_of (sc_body cse) = Some (asm (sc_body cse)) ->
  slines_of (sw_case_code e L i cse hn) = Some (scase_code e L i (map_case asm cse) hn).
Proof.
  intros cfg e L i cse hn Hw [Hl He] Hv Eb. unfold sw_case_code, scase_code.
  cbn [map_case sc_vals sc_falls sc_body].
  apply slines_app; [apply (slines_sw_test cfg); [exact Hw|exact Hv|apply Hl|apply Hl]|].
  apply slines_app; [reflexivity|].
  apply slines_app; [exact Eb|].
  apply slines_app; [destruct (sc_falls cse); [reflexivity|apply slines_jmp; [exact He|reflexivity]]|].
  apply slines_app; [destruct hn; [apply slines_jmp; [apply Hl|reflexivity]|reflexivity]|reflexivity].
Qed.

Lemma slines_sw_cases : forall cfg e L cs i hd, sw_wf cfg e -> labels_ne L ->
  (forall cse, In cse cs -> forall v, In v (sc_vals cse) -> 0 <= v) ->
  (forall cse, In cse cs -> slines_of (sc_body cse) = Some (asm (sc_body cse))) ->
  slines_of (sw_cases_code e L i cs hd) = Some (scases_code e L i (map (map_case asm) cs) hd).
Proof.
  intros cfg e L cs i hd Hw HL. revert i.
  induction cs as [|cse r IH]; intros i Hv Ha; [reflexivity|].
  cbn [sw_cases_code map scases_code].
  apply slines_app.
  - replace (match map (map_case asm) r with [] => hd | _ :: _ => true end)
      with (match r with [] => hd | _ :: _ => true end) by (destruct r; reflexivity).
    apply (slines_sw_case cfg);
      [exact Hw|exact HL|apply Hv; left; reflexivity|apply Ha; left; reflexivity].
  - apply IH; intros c' Hin; [apply Hv|apply Ha]; right; exact Hin.
Qed.

Definition sw_bodies (cs : list (sw_case code)) (d : option code) : list code :=
  map sc_body cs ++ match d with Some D => [D] | None => [] end.

Lemma slines_switch_tpl : forall cfg e L cs d, sw_wf cfg e -> labels_ne L ->
  (forall cse, In cse cs -> forall v, In v (sc_vals cse) -> 0 <= v) ->
  (forall B, In B (sw_bodies cs d) -> slines_of B = Some (asm B)) ->
  slines_of (switch_tpl_at e cs d L)
  = Some (scases_code e L 0 (map (map_case asm) cs) (is_some (option_map asm d))
          ++ stail L (length cs) (option_map asm d)).
Proof.
  intros cfg e L cs d Hw HL Hv Ha. unfold switch_tpl_at, stail.
  replace (is_some (option_map asm d)) with (is_some d) by (destruct d; reflexivity).
  apply slines_app.
  - apply (slines_sw_cases cfg); try assumption.
    intros cse Hin. apply Ha. apply in_or_app. left. apply in_map. exact Hin.
  - apply slines_app; [|reflexivity].
    destruct d as [D|]; cbn [sw_default_code sdflt option_map]; [|reflexivity].
    apply slines_lbl. apply Ha. apply in_or_app. right. left. reflexivity.
Qed.

(** one comparison of the operand with the constant [v0]: Z says whether they are equal; memory,
    X, Y, S unchanged *)
Lemma stest1_reach : forall cfg e pre post s v0,
  ports cfg = [] -> sw_wf cfg e -> 0 <= v0 < 256 -> bytes_ok s ->
  reach cfg (pre ++ stest1 e v0 ++ post) (length pre) s
    (fun (_ pc' : nat) (s' : mstate) =>
       pc' = length (pre ++ stest1 e v0) /\ same_mxys s s' /\ bytes_ok s' /\
       fZ s' = (sw_val cfg e s =? v0)).
Proof.
  intros cfg e pre post s v0 Hp Hw Hv Hb.
  pose proof (sw_val_range cfg e s Hb) as Rv.
  pose proof Hb as (HA & HX & HY & HS & HM).
  apply reach_at0. rewrite app_length.
  destruct e as [x|]; cbn [stest1 sw_wf sw_val app length] in *.
  - destruct Hw as (Vx & px & Lx & Rx).
    unfold var_val in *. rewrite Lx in *.
    eapply reach_next_at;
      [reflexivity|apply (exec_rd_mem cfg LDA s x 0 px Hp eq_refl Lx ltac:(lia))|].
    eapply reach_next_at; [reflexivity|apply (exec_rd_imm cfg CMP _ v0 eq_refl)|].
    apply reach_stop. cbn [rd_sem rA set_nz set_a]. rewrite Z.add_0_r, (byte_id v0 Hv).
    split; [reflexivity|]. split; [repeat split; reflexivity|].
    split; [|apply cmp_fZ; assumption].
    unfold cmp, set_nz, set_c, set_a. cbn [rA rX rY rS fN fV fZ fC mem].
    apply bytes_ok_mk; assumption.
  - eapply reach_next_at; [reflexivity|apply (exec_rd_imm cfg CPX s v0 eq_refl)|].
    apply reach_stop. cbn [rd_sem]. rewrite (byte_id v0 Hv).
    split; [reflexivity|]. split; [repeat split; reflexivity|].
    split; [|apply cmp_fZ; assumption].
    unfold cmp, set_nz, set_c. cbn [rA rX rY rS fN fV fZ fC mem].
    apply bytes_ok_mk; assumption.
Qed.
Print Assumptions stest1_reach.

(** several values: [BEQ] to the statements at the first that matches, else [JMP] to the next case *)
Lemma multi_reach : forall cfg e lstmt lnext todo pre post s kstmt knext,
  ports cfg = [] -> sw_wf cfg e -> (forall v, In v todo -> 0 <= v < 256) ->
  find_label lstmt (pre ++ (flat_map (fun v => stest1 e v ++ [sbr BEQ lstmt false]) todo
                            ++ [sjmp lnext]) ++ post) 0 = Some kstmt ->
  find_label lnext (pre ++ (flat_map (fun v => stest1 e v ++ [sbr BEQ lstmt false]) todo
                            ++ [sjmp lnext]) ++ post) 0 = Some knext ->
  bytes_ok s ->
  reach cfg (pre ++ (flat_map (fun v => stest1 e v ++ [sbr BEQ lstmt false]) todo ++ [sjmp lnext])
             ++ post) (length pre) s
    (fun (_ pc' : nat) (s' : mstate) =>
       same_mxys s s' /\ bytes_ok s' /\
       pc' = if existsb (Z.eqb (sw_val cfg e s)) todo then kstmt else knext).
Proof.
  intros cfg e lstmt lnext todo. induction todo as [|v0 todo IH];
    intros pre post s kstmt knext Hp Hw Hv Hks Hkn Hb.
  - apply (seg_jmp cfg [pre; [sjmp lnext]; post] 1 lnext knext _ _ eq_refl Hkn).
    apply reach_stop. split; [apply same_mxys_refl|]. split; [exact Hb|reflexivity].
  - set (segs := [pre; stest1 e v0; [sbr BEQ lstmt false];
                  flat_map (fun v => stest1 e v ++ [sbr BEQ lstmt false]) todo ++ [sjmp lnext]; post]).
    assert (E : pre ++ (flat_map (fun v => stest1 e v ++ [sbr BEQ lstmt false]) (v0 :: todo)
                        ++ [sjmp lnext]) ++ post = cat segs)
      by (cbn [flat_map cat segs]; rewrite <- !app_assoc; reflexivity).
    rewrite E in Hks, Hkn |- *. cbn [existsb].
    apply reach_seq. eapply reach_weaken;
      [|apply (stest1_reach cfg e pre _ s v0 Hp Hw (Hv v0 (or_introl eq_refl)) Hb)].
    intros n pc1 s1 (-> & Hsame & Hb1 & Hz). cbv beta.
    apply (seg_branch cfg segs 2 BEQ lstmt false kstmt s1 _ eq_refl eq_refl Hks).
    cbn [branch_taken]. rewrite Hz. destruct (sw_val cfg e s =? v0); cbn [orb].
    + apply reach_stop. split; [exact Hsame|]. split; [exact Hb1|reflexivity].
    + rewrite (cat_nth segs 3 _ eq_refl) in Hks, Hkn |- *. eapply reach_weaken;
        [|apply (IH _ post s1 kstmt knext Hp Hw (fun v Hin => Hv v (or_intror Hin)) Hks Hkn Hb1)].
      intros n2 pc2 s2 (Hsame2 & Hb2 & ->). cbv beta.
      split; [apply (same_mxys_trans _ _ _ Hsame Hsame2)|]. split; [exact Hb2|].
      rewrite (sw_val_same cfg e s s1 Hsame). reflexivity.
Qed.
Print Assumptions multi_reach.

(** the test of a case: at the statements (the line after the test) when one of the values is the
    operand, at the next case otherwise *)
Lemma test_reach : forall cfg e lstmt lnext vals pre post s knext,
  ports cfg = [] -> sw_wf cfg e -> (forall v, In v vals -> 0 <= v < 256) ->
  find_label lstmt (pre ++ stest e vals lstmt lnext ++ post) 0
  = Some (length (pre ++ stest e vals lstmt lnext)) ->
  find_label lnext (pre ++ stest e vals lstmt lnext ++ post) 0 = Some knext ->
  bytes_ok s ->
  reach cfg (pre ++ stest e vals lstmt lnext ++ post) (length pre) s
    (fun (_ pc' : nat) (s' : mstate) =>
       same_mxys s s' /\ bytes_ok s' /\
       pc' = if existsb (Z.eqb (sw_val cfg e s)) vals
             then length (pre ++ stest e vals lstmt lnext) else knext).
Proof.
  intros cfg e lstmt lnext vals pre post s knext Hp Hw Hv Hks Hkn Hb.
  destruct vals as [|v0 [|v1 rest]]; cbn [stest] in *; try (apply multi_reach; assumption).
  cbn [existsb]. rewrite orb_false_r, <- app_assoc in *.
  set (segs := [pre; stest1 e v0; [sbr BNE lnext false]; post]).
  apply reach_seq. eapply reach_weaken;
    [|apply (stest1_reach cfg e pre _ s v0 Hp Hw (Hv v0 (or_introl eq_refl)) Hb)].
  intros n pc1 s1 (-> & Hsame & Hb1 & Hz). cbv beta.
  apply (seg_branch cfg segs 2 BNE lnext false knext s1 _ eq_refl eq_refl Hkn).
  cbn [branch_taken]. rewrite Hz.
  destruct (sw_val cfg e s =? v0); cbn [negb]; apply reach_stop;
    (split; [exact Hsame|]; split; [exact Hb1|reflexivity]).
Qed.
Print Assumptions test_reach.

(** the switch, its first case taken apart *)
Definition sw_segs (e : sw_operand) (L : sw_labels) (i : nat) (vals : list Z) (B : list sline)
    (ft : bool) (r : list (sw_case (list sline))) (k : nat) (sd : option (list sline))
    (pre : list sline) : list (list sline) :=
  [pre; stest e vals (sw_stmt L i) (sw_next L i); [SLbl (sw_stmt L i)]; B;
   if ft then [] else [sjmp (sw_end L)];
   if match r with [] => is_some sd | _ => true end then [sjmp (sw_stmt L (S i))] else [];
   [SLbl (sw_next L i)]; scases_code e L (S i) r (is_some sd);
   match sd with Some _ => [SLbl (sw_stmt L k)] | None => [] end;
   match sd with Some D => D | None => [] end;
   [SLbl (sw_end L)]].

Lemma sw_segs_eq : forall e L i vals B ft r k sd pre,
  pre ++ scases_code e L i (mkCase vals B ft :: r) (is_some sd) ++ stail L k sd
  = cat (sw_segs e L i vals B ft r k sd pre).
Proof.
  intros e L i vals B ft r k sd pre. unfold stail, sdflt. cbn [scases_code cat sw_segs].
  unfold scase_code. cbn [sc_vals sc_body sc_falls].
  destruct sd; rewrite <- !app_assoc; reflexivity.
Qed.

Section SwitchRun.
  Variable cfg : config.
  Variable e : sw_operand.
  Variable L : sw_labels.

  (** a body: no RTS / RTI, halts from every byte-valued state (in a byte-valued state) *)
  Definition sbody_ok (slB : list sline) : Prop :=
    no_ret_s slB /\ forall s, bytes_ok s -> exists N s', sl_halts cfg slB N s s' /\ bytes_ok s'.

  Definition sdflt_ok (sd : option (list sline)) : Prop := match sd with Some D => sbody_ok D | None => True end.

  (** the statements of a case: the body, then the [break], or on into what follows *)
  Lemma case_stmts_reach : forall sd r vals B ft i pre k s,
    let segs := sw_segs e L i vals B ft r k sd pre in
    NoDup (sdefs (cat segs)) -> sbody_ok B -> bytes_ok s ->
    (ft = true -> forall s1, bytes_ok s1 ->
       reach cfg (cat segs) (pos segs 5) s1
         (fun (_ pc' : nat) (s' : mstate) =>
            pc' = length (cat segs) /\ sexec cfg (run_from r sd) s1 s' /\ bytes_ok s')) ->
    reach cfg (cat segs) (pos segs 2) s
      (fun (_ pc' : nat) (s' : mstate) =>
         pc' = length (cat segs) /\ sexec cfg (run_from (mkCase vals B ft :: r) sd) s s' /\ bytes_ok s').
  Proof.
    intros sd r vals B ft i pre k s segs Hnd (Hnr & Hhalt) Hb Hnext.
    destruct (Hhalt s Hb) as (N & s1 & Hh & Hb1). cbn [run_from sc_body sc_falls].
    apply (seg_lbl cfg segs 2 _ _ _ eq_refl).
    apply (seg_body cfg segs 3 B N _ s1 _ eq_refl Hh Hnr (nodup_fresh segs 3 _ Hnd eq_refl)).
    intros _ _. destruct ft.
    - apply (seg_skip cfg segs 4 _ _ eq_refl).
      eapply reach_weaken; [|apply (Hnext eq_refl s1 Hb1)].
      intros n pc' s' (Hpc & Hx & Hb'). split; [exact Hpc|]. split; [|exact Hb'].
      exists N, s1. split; [exact Hh|exact Hx].
    - apply (seg_jmp cfg segs 4 (sw_end L) _ _ _ eq_refl
               (find_label_seg_nd segs 10 (sw_end L) [] Hnd eq_refl)).
      apply (seg_lbl cfg segs 10 _ _ _ eq_refl). apply reach_stop.
      split; [reflexivity|]. split; [exists N, s1; split; [exact Hh|reflexivity]|exact Hb1].
  Qed.

  Lemma run_from_reach : forall sd r cse i pre sl k s,
    sl = pre ++ scases_code e L i (cse :: r) (is_some sd) ++ stail L k sd ->
    k = (i + length (cse :: r))%nat -> NoDup (sdefs sl) ->
    Forall sbody_ok (map sc_body (cse :: r)) -> sdflt_ok sd -> bytes_ok s ->
    reach cfg sl (length (pre ++ stest e (sc_vals cse) (sw_stmt L i) (sw_next L i))) s
      (fun (_ pc' : nat) (s' : mstate) =>
         pc' = length sl /\ sexec cfg (run_from (cse :: r) sd) s s' /\ bytes_ok s').
  Proof.
    intros sd. induction r as [|cse' r' IH]; intros [vals B ft] i pre sl k s -> Hk Hnd Hok Hd Hb.
    - (* the last case; when it falls through: into the default, or to the end *)
      rewrite sw_segs_eq in *. set (segs := sw_segs _ _ _ _ _ _ _ _ _ _) in *.
      apply (case_stmts_reach sd [] vals B ft i pre k s Hnd (Forall_inv Hok) Hb).
      destruct ft; [intros _ s1 Hb1|intros E; discriminate E].
      rewrite Nat.add_1_r in Hk. subst k. destruct sd as [D|]; cbn [sdflt_ok run_from] in *.
      + destruct Hd as (HnrD & HhaltD). destruct (HhaltD s1 Hb1) as (N2 & s2 & Hh2 & Hb2).
        apply (seg_jmp cfg segs 5 (sw_stmt L (S i)) _ _ _ eq_refl
                 (find_label_seg_nd segs 8 _ [] Hnd eq_refl)).
        apply (seg_lbl cfg segs 8 _ _ _ eq_refl).
        apply (seg_body cfg segs 9 D N2 _ s2 _ eq_refl Hh2 HnrD (nodup_fresh segs 9 _ Hnd eq_refl)).
        intros _ _. apply (seg_lbl cfg segs 10 _ _ _ eq_refl). apply reach_stop.
        split; [reflexivity|]. split; [|exact Hb2]. exists N2, s2. split; [exact Hh2|reflexivity].
      + apply (seg_skip cfg segs 5 _ _ eq_refl). apply (seg_lbl cfg segs 6 _ _ _ eq_refl).
        apply (seg_skip cfg segs 7 _ _ eq_refl). apply (seg_skip cfg segs 8 _ _ eq_refl).
        apply (seg_skip cfg segs 9 _ _ eq_refl). apply (seg_lbl cfg segs 10 _ _ _ eq_refl).
        apply reach_stop. split; [reflexivity|]. split; [reflexivity|exact Hb1].
    - (* when it falls through: into the next case *)
      rewrite sw_segs_eq in *. set (segs := sw_segs _ _ _ _ _ _ _ _ _ _) in *.
      apply (case_stmts_reach sd (cse' :: r') vals B ft i pre k s Hnd (Forall_inv Hok) Hb).
      destruct ft; [intros _ s1 Hb1|intros E; discriminate E].
      destruct cse' as [vals' B' ft'].
      assert (E : cat segs = (pre ++ scase_code e L i (mkCase vals B true) true)
                             ++ scases_code e L (S i) (mkCase vals' B' ft' :: r') (is_some sd)
                             ++ stail L k sd)
        by (unfold segs; rewrite <- sw_segs_eq; cbn [scases_code]; rewrite <- !app_assoc; reflexivity).
      pose proof Hnd as Hnd'. rewrite E, sw_segs_eq in Hnd'.
      pose proof (find_label_seg_nd _ 2 (sw_stmt L (S i)) [] Hnd' eq_refl) as Hks.
      rewrite <- sw_segs_eq, <- E in Hks.
      apply (seg_jmp cfg segs 5 (sw_stmt L (S i)) _ _ _ eq_refl Hks).
      apply (IH (mkCase vals' B' ft') (S i) _ (cat segs) k s1 E
               ltac:(rewrite Hk; cbn [length]; lia) Hnd (Forall_inv_tail Hok) Hd Hb1).
  Qed.
End SwitchRun.
Print Assumptions run_from_reach.

(** ** the dispatch: test after test, to the first case that matches *)
Lemma dispatch_reach : forall cfg e L sd cs i pre sl k s,
  ports cfg = [] -> sw_wf cfg e ->
  sl = pre ++ scases_code e L i cs (is_some sd) ++ stail L k sd -> k = (i + length cs)%nat ->
  NoDup (sdefs sl) -> Forall (sbody_ok cfg) (map sc_body cs) -> sdflt_ok cfg sd ->
  (forall cse, In cse cs -> forall v, In v (sc_vals cse) -> 0 <= v < 256) ->
  bytes_ok s ->
  reach cfg sl (length pre) s
    (fun (_ pc' : nat) (s' : mstate) =>
       pc' = length sl /\
       exists mid, same_mxys s mid /\ bytes_ok mid /\
         sexec cfg (switch_sem (sw_val cfg e s) cs sd) mid s' /\ bytes_ok s').
Proof.
  intros cfg e L sd cs. induction cs as [|cse r IH]; intros i pre sl k s Hp Hw Esl Hk Hnd Hok Hd Hv Hb.
  - (* no case left: the default, or nothing *)
    cbn [switch_sem]. cbn [length] in Hk. rewrite Nat.add_0_r in Hk. subst k sl.
    cbn [scases_code app] in *. unfold stail, sdflt in *. destruct sd as [D|]; cbn [sdflt_ok] in Hd.
    + destruct Hd as (HnrD & HhaltD). destruct (HhaltD s Hb) as (N & s1 & Hh & Hb1).
      set (segs := [pre; [SLbl (sw_stmt L i)]; D; [SLbl (sw_end L)]]).
      apply (seg_lbl cfg segs 1 _ _ _ eq_refl).
      apply (seg_body cfg segs 2 D N _ s1 _ eq_refl Hh HnrD (nodup_fresh segs 2 _ Hnd eq_refl)).
      intros _ _. apply (seg_lbl cfg segs 3 _ _ _ eq_refl). apply reach_stop.
      split; [reflexivity|]. exists s. split; [apply same_mxys_refl|]. split; [exact Hb|].
      split; [exists N, s1; split; [exact Hh|reflexivity]|exact Hb1].
    + apply (seg_lbl cfg [pre; [SLbl (sw_end L)]] 1 _ _ _ eq_refl). apply reach_stop.
      split; [reflexivity|]. exists s. split; [apply same_mxys_refl|]. split; [exact Hb|].
      split; [reflexivity|exact Hb].
  - destruct cse as [vals B ft]. pose proof Esl as E. rewrite sw_segs_eq in E.
    set (segs := sw_segs _ _ _ _ _ _ _ _ _ _) in E. pose proof Hnd as Hnd'. rewrite E in Hnd' |- *.
    apply reach_seq. eapply reach_weaken;
      [|apply (test_reach cfg e (sw_stmt L i) (sw_next L i) vals pre (cat (skipn 2 segs)) s _ Hp Hw
                 (Hv _ (or_introl eq_refl)) (find_label_seg_nd segs 2 _ [] Hnd' eq_refl)
                 (find_label_seg_nd segs 6 _ [] Hnd' eq_refl) Hb)].
    intros n pc1 s1 (Hsame & Hb1 & ->). cbv beta. cbn [switch_sem sc_vals].
    destruct (existsb (Z.eqb (sw_val cfg e s)) vals); rewrite <- ?E.
    + eapply reach_weaken;
        [|apply (run_from_reach cfg e L sd r (mkCase vals B ft) i pre sl k s1 Esl Hk Hnd Hok Hd Hb1)].
      intros n2 pc2 s2 (Hpc2 & Hx & Hb2). split; [exact Hpc2|].
      exists s1. split; [exact Hsame|]. split; [exact Hb1|]. split; [exact Hx|exact Hb2].
    + rewrite E. apply (seg_lbl cfg segs 6 _ _ _ eq_refl). rewrite <- E.
      eapply reach_weaken;
        [|apply (IH (S i) (cat (firstn 7 segs)) sl k s1 Hp Hw); try assumption].
      * intros n2 pc2 s2 (Hpc2 & mid & Hs2 & Hbm & Hx & Hb2). split; [exact Hpc2|].
        exists mid. split; [apply (same_mxys_trans _ _ _ Hsame Hs2)|]. split; [exact Hbm|].
        split; [|exact Hb2]. rewrite <- (sw_val_same cfg e s s1 Hsame). exact Hx.
      * rewrite E, (cat_nth segs 7 _ eq_refl). unfold stail, sdflt. destruct sd; reflexivity.
      * rewrite Hk. cbn [length]. lia.
      * exact (Forall_inv_tail Hok).
      * intros c' Hin. apply Hv. right. exact Hin.
Qed.
Print Assumptions dispatch_reach.

(** a body at code level: no RTS / RTI, halts from every byte-valued state *)
Definition body_total (cfg : config) (B : code) : Prop :=
  no_ret B /\ forall s, bytes_ok s -> exists s', halts_to cfg B s s'.

Lemma body_total_sbody_ok : forall cfg B slB, slines_of B = Some slB ->
  body_total cfg B -> sbody_ok cfg slB.
Proof.
  intros cfg B slB HslB (Hnr & Hh). split; [apply (slines_no_ret _ _ HslB Hnr)|].
  intros s Hb. destruct (Hh s Hb) as (s' & Hr).
  destruct (halts_to_sl_halts cfg B slB _ _ HslB Hr) as (N & HN).
  exists N, s'. split; [exact HN|apply (halts_to_bytes_ok cfg B _ _ Hr Hb)].
Qed.

(** The switch halts from every byte-valued state [st]; with [mid] the state after the tests (equal
    to [st] on memory, X, Y, S), the final state is the one obtained by running from [mid], one
    after the other, exactly the bodies [switch_sem] gives for the value of the operand. *)
Theorem switch_tpl_correct : forall cfg e cs d L st,
  ports cfg = [] -> sw_wf cfg e -> labels_ne L ->
  NoDup (defs (switch_tpl_at e cs d L)) ->
  (forall cse, In cse cs -> forall v, In v (sc_vals cse) -> 0 <= v < 256) ->
  (forall B, In B (sw_bodies cs d) -> body_total cfg B) ->
  bytes_ok st ->
  exists mid st', same_mxys st mid /\ bytes_ok mid /\
    halts_to cfg (switch_tpl_at e cs d L) st st' /\
    exec_bodies cfg (switch_sem (sw_val cfg e st) cs d) mid st' /\ bytes_ok st'.
Proof.
  intros cfg e cs d L st Hp Hw HL Hnd Hv Hbodies Hb.
  assert (Hasm : forall B, In B (sw_bodies cs d) -> slines_of B = Some (asm B)).
  { intros B Hin. destruct (Hbodies B Hin) as (_ & Hh). destruct (Hh st Hb) as (s' & sl & Hsl & _).
    apply (asm_eq B sl Hsl). }
  assert (Hsb : forall B, In B (sw_bodies cs d) -> sbody_ok cfg (asm B))
    by (intros B Hin; apply (body_total_sbody_ok cfg B _ (Hasm B Hin) (Hbodies B Hin))).
  assert (Hcase : forall cse, In cse cs -> In (sc_body cse) (sw_bodies cs d))
    by (intros cse Hin; apply in_or_app; left; apply in_map; exact Hin).
  assert (Hdflt : forall D, d = Some D -> In D (sw_bodies cs d))
    by (intros D ->; apply in_or_app; right; left; reflexivity).
  pose proof (slines_switch_tpl cfg e L cs d Hw HL
                (fun cse Hin v Hvin => proj1 (Hv cse Hin v Hvin)) Hasm) as Hsl.
  rewrite <- (slines_defs _ _ Hsl) in Hnd.
  assert (Hx : exists st', halts_to cfg (switch_tpl_at e cs d L) st st' /\
             exists mid, same_mxys st mid /\ bytes_ok mid /\
               sexec cfg (switch_sem (sw_val cfg e st) (map (map_case asm) cs) (option_map asm d))
                 mid st' /\ bytes_ok st').
  { eapply halts_to_reach; [exact Hsl|].
    eapply reach_weaken;
      [|apply (dispatch_reach cfg e L (option_map asm d) (map (map_case asm) cs) 0%nat [] _
                 (length cs) st Hp Hw eq_refl (eq_sym (map_length _ _)) Hnd)].
    - intros n pc' s' HP. exact HP.
    - apply Forall_forall. intros x Hin. rewrite map_map in Hin. apply in_map_iff in Hin.
      destruct Hin as (cse & <- & Hin). cbn [map_case sc_body]. apply Hsb. apply Hcase. exact Hin.
    - destruct d as [D|]; [|exact I]. apply Hsb. apply Hdflt. reflexivity.
    - intros sc Hin. apply in_map_iff in Hin. destruct Hin as (cse & <- & Hin). apply (Hv cse Hin).
    - exact Hb. }
  destruct Hx as (st' & Hr & mid & Hs & Hbm & Hex & Hb').
  exists mid, st'. split; [exact Hs|]. split; [exact Hbm|]. split; [exact Hr|]. split; [|exact Hb'].
  rewrite switch_sem_map in Hex. apply (sexec_exec cfg _ _ _) in Hex; [exact Hex|].
  intros B Hin. apply Hasm.
  destruct (switch_sem_incl _ _ _ _ _ Hin) as [H|H]; [apply in_or_app; left; exact H|apply Hdflt; exact H].
Qed.
Print Assumptions switch_tpl_correct.

Lemma switch_labels_ne : forall n, labels_ne (switch_labels n).
Proof.
  intros n. split; [intros i; split|]; unfold switch_labels, lname; cbn [sw_stmt sw_next sw_end append];
    discriminate.
Qed.

(** ** switches whose statements are all [dst = k;]: the last assignment executed wins *)

Lemma last_cons : forall (r : list Z) k d, last (k :: r) d = last r k.
Proof.
  induction r as [|a r IH]; intros k d; [reflexivity|].
  change (last (k :: a :: r) d) with (last (a :: r) d). rewrite (IH a d), (IH a k). reflexivity.
Qed.

Lemma exec_assign8s : forall cfg dst pd ks s s',
  ports cfg = [] -> var_name dst -> layout cfg dst = Some pd -> 0 <= pd < 65536 ->
  (forall k, In k ks -> 0 <= k < 256) ->
  exec_bodies cfg (map (assign8 dst) ks) s s' ->
  mget (mem s') pd = last ks (mget (mem s) pd) /\ only_changes [pd] s s' /\ keeps_xys s s'.
Proof.
  intros cfg dst pd ks s s' Hp Vd Ld Rd. revert s.
  induction ks as [|k r IH]; intros s Hk Hx.
  - cbn [map exec_bodies] in Hx. subst s'. split; [reflexivity|apply framed_refl].
  - cbn [map exec_bodies] in Hx. destruct Hx as (m & Hr & Hx).
    destruct (assign8_correct cfg dst k pd s Hp Vd Ld Rd (Hk k (or_introl eq_refl)))
      as (m' & Hr' & Hv & Hf).
    rewrite (halts_to_det cfg _ s m m' Hr (runs_to_halts_to _ _ _ _ Hr')) in Hx.
    destruct (IH m' (fun k' Hin => Hk k' (or_intror Hin)) Hx) as (Hv2 & Hf2).
    split; [rewrite Hv2, Hv, last_cons; reflexivity|apply (framed_trans _ _ _ _ Hf Hf2)].
Qed.

Lemma assign8_total : forall cfg dst k pd,
  ports cfg = [] -> var_name dst -> layout cfg dst = Some pd -> 0 <= pd < 65536 -> 0 <= k < 256 ->
  body_total cfg (assign8 dst k).
Proof.
  intros cfg dst k pd Hp Vd Ld Rd Rk. split; [apply assign8_no_ret|].
  intros s _. destruct (assign8_correct cfg dst k pd s Hp Vd Ld Rd Rk) as (s' & Hr & _).
  exists s'. apply runs_to_halts_to. exact Hr.
Qed.

(** [ks], [dk]: the switch with the assigned constants in place of the statements *)
Theorem switch_assign_correct : forall cfg e (ks : list (sw_case Z)) (dk : option Z) dst pd L st,
  ports cfg = [] -> sw_wf cfg e -> labels_ne L ->
  var_name dst -> layout cfg dst = Some pd -> 0 <= pd < 65536 ->
  NoDup (defs (switch_tpl_at e (map (map_case (assign8 dst)) ks) (option_map (assign8 dst) dk) L)) ->
  (forall c, In c ks -> (forall v, In v (sc_vals c) -> 0 <= v < 256) /\ 0 <= sc_body c < 256) ->
  (forall k, dk = Some k -> 0 <= k < 256) ->
  bytes_ok st ->
  exists st',
    halts_to cfg (switch_tpl_at e (map (map_case (assign8 dst)) ks) (option_map (assign8 dst) dk) L)
      st st' /\
    mget (mem st') pd = last (switch_sem (sw_val cfg e st) ks dk) (mget (mem st) pd) /\
    only_changes [pd] st st' /\ keeps_xys st st'.
Proof.
  intros cfg e ks dk dst pd L st Hp Hw HL Vd Ld Rd Hnd Hks Hdk Hb.
  assert (Hsel : forall k, In k (switch_sem (sw_val cfg e st) ks dk) -> 0 <= k < 256).
  { intros k Hin. destruct (switch_sem_incl _ _ _ _ _ Hin) as [H|H]; [|exact (Hdk k H)].
    apply in_map_iff in H. destruct H as (c & <- & Hc). apply (Hks c Hc). }
  destruct (switch_tpl_correct cfg e (map (map_case (assign8 dst)) ks)
              (option_map (assign8 dst) dk) L st Hp Hw HL Hnd)
    as (mid & st' & Hs & Hbm & Hr & Hx & Hb'); [| |exact Hb|].
  - intros cse Hin v Hv. apply in_map_iff in Hin. destruct Hin as (c & <- & Hc).
    cbn [map_case sc_vals] in Hv. apply (proj1 (Hks c Hc) v Hv).
  - intros B Hin. unfold sw_bodies in Hin. apply in_app_or in Hin. destruct Hin as [Hin|Hin].
    + rewrite map_map in Hin. apply in_map_iff in Hin. destruct Hin as (c & <- & Hc).
      cbn [map_case sc_body]. apply (assign8_total cfg dst _ pd Hp Vd Ld Rd (proj2 (Hks c Hc))).
    + destruct dk as [k|]; [|contradiction]. destruct Hin as [<-|[]].
      apply (assign8_total cfg dst k pd Hp Vd Ld Rd (Hdk k eq_refl)).
  - rewrite switch_sem_map in Hx.
    destruct (exec_assign8s cfg dst pd _ mid st' Hp Vd Ld Rd Hsel Hx) as (Hv & Hf).
    exists st'. split; [exact Hr|].
    split; [rewrite Hv, (proj1 Hs); reflexivity|apply (framed_trans _ _ _ _ (framed_of_same _ _ _ Hs) Hf)].
Qed.
Print Assumptions switch_assign_correct.

Lemma nodup2 : forall a b : string, a <> b -> NoDup [a; b].
Proof.
  intros a b H. constructor; [intros [E|[]]; exact (H (eq_sym E))|constructor; [intros []|constructor]].
Qed.

Lemma nodup3 : forall a b c : string, a <> b -> a <> c -> b <> c -> NoDup [a; b; c].
Proof.
  intros a b c Hab Hac Hbc. constructor; [|apply nodup2; exact Hbc].
  intros [E|[E|[]]]; [exact (Hab (eq_sym E))|exact (Hac (eq_sym E))].
Qed.

(** [do { a++; } while (a != b);] (listing 02) halts from EVERY byte-valued state with [a = b]
    (after 256 iterations when [a = b] at the start) *)
Theorem dowhile_ne_inc_code_correct : forall cfg a b lhead lend here pa pb st,
  ports cfg = [] -> var_name a -> var_name b ->
  lhead <> ""%string -> here <> ""%string -> lhead <> here -> lhead <> lend ->
  layout cfg a = Some pa -> layout cfg b = Some pb ->
  0 <= pa < 65536 -> 0 <= pb < 65536 -> pa <> pb ->
  bytes_ok st ->
  exists st', halts_to cfg (dowhile_tpl_at (CVar RNeq a b) (template (SInc8 a)) lhead lend here) st st' /\
    mget (mem st') pa = mget (mem st) pb /\
    only_changes [pa] st st' /\ keeps_xys st st'.
Proof.
  intros cfg a b lhead lend here pa pb st Hp Va Vb Hh He Nhh Nhd La Lb Ra Rb Nab Hb.
  pose proof Hb as (_ & _ & _ & _ & HM0).
  assert (HI : forall s s', same_mxys s s' -> framed [pa] st s -> framed [pa] st s')
    by (intros s s' Hs H; apply (framed_same _ _ _ _ Hs H)).
  destruct (dowhile_tpl_correct cfg (CVar RNeq a b) (template (SInc8 a)) lhead lend here
              (fun s => framed [pa] st s) (fun s => framed [pa] st s)
              (fun s => (mget (mem st) pb - mget (mem s) pa - 1) mod 256) st Hp
              (cond_wf_var cfg _ a b pa pb Va Vb La Lb Ra Rb) Hh He Nhh (nodup2 _ _ Nhd) eq_refl HI HI)
    as (st' & Hr & Hf & Hc & _); try assumption.
  - intros s s' (Em & _). cbv beta. rewrite Em. reflexivity.
  - intros s Hbs H2.
    pose proof Hbs as (_ & _ & _ & _ & HM).
    pose proof (HM pa) as Ma. pose proof (HM0 pb) as Mb.
    destruct (inc8_correct cfg a pa s Hp Va La Ra) as (s' & Hr & Hv & Hf).
    exists s'. split; [apply runs_to_halts_to; exact Hr|].
    pose proof (framed_trans _ _ _ _ H2 Hf) as Hq.
    split; [exact Hq|]. intros Hc. split; [exact Hq|].
    rewrite (cond_holds_var cfg RNeq a b pa pb s' La Lb) in Hc. cbn [rel_holds] in Hc.
    rewrite (proj1 Hq pb ltac:(lia) ltac:(cbn [In]; lia)), Hv in Hc. rewrite Hv.
    Z.div_mod_to_equations. lia.
  - apply framed_refl.
  - exists st'. split; [exact Hr|]. split; [|exact Hf].
    rewrite (cond_holds_var cfg RNeq a b pa pb st' La Lb) in Hc. cbn [rel_holds] in Hc.
    rewrite (proj1 Hf pb ltac:(lia) ltac:(cbn [In]; lia)) in Hc.
    destruct (Z.eqb_spec (mget (mem st') pa) (mget (mem st) pb)); [assumption|discriminate Hc].
Qed.
Print Assumptions dowhile_ne_inc_code_correct.

(** [for (Init; i o b; i++) c = 1;] where [Init] only sets [i], to [a0], and on the values from
    [a0] up to a bound [hi] the condition [i o b] says [i < hi]: [i] ends as [hi]; [c] is set iff
    the body ran, i.e. iff [a0 < hi] *)
Theorem for_up_assign_correct : forall cfg Init o i b c lfor lupd lend here pi pb pc a0 hi st,
  ports cfg = [] -> var_name i -> var_name b -> var_name c ->
  lfor <> ""%string -> lend <> ""%string -> here <> ""%string -> lfor <> here -> lend <> here ->
  NoDup (defs (for_tpl_at Init (CVar o i b) (template (SInc8 i)) (assign8 c 1) lfor lupd lend here)) ->
  layout cfg i = Some pi -> layout cfg b = Some pb -> layout cfg c = Some pc ->
  0 <= pi < 65536 -> 0 <= pb < 65536 -> 0 <= pc < 65536 ->
  pi <> pb -> pc <> pi -> pc <> pb ->
  no_ret Init ->
  (exists s0, halts_to cfg Init st s0 /\ mget (mem s0) pi = a0 /\ framed [pi] st s0) ->
  a0 <= hi < 256 ->
  (forall v, a0 <= v <= hi -> rel_holds o v (mget (mem st) pb) = (v <? hi)) ->
  bytes_ok st ->
  exists st',
    halts_to cfg (for_tpl_at Init (CVar o i b) (template (SInc8 i)) (assign8 c 1)
                    lfor lupd lend here) st st' /\
    mget (mem st') pi = hi /\
    mget (mem st') pc = (if a0 <? hi then 1 else mget (mem st) pc) /\
    only_changes [pi; pc] st st' /\ keeps_xys st st'.
Proof.
  intros cfg Init o i b c lfor lupd lend here pi pb pc a0 hi st Hp Vi Vb Vc Hf Hd Hh Nfh Ndh Hnd
    Li Lb Lc Ri Rb Rc Nib Nci Ncb HnrI (s0 & Hr0 & Hv0 & Hf0) Hhi Hrel Hb.
  pose proof (proj2 (proj2 (proj2 (proj2 (halts_to_bytes_ok cfg Init _ _ Hr0 Hb)))) pi) as Ma0.
  rewrite Hv0 in Ma0.
  set (b0 := mget (mem st) pb) in *. set (c0 := mget (mem st) pc) in *.
  (* [b] is outside the frame *)
  assert (Hvb : forall s, framed [pi; pc] st s -> mget (mem s) pb = b0)
    by (intros s (H & _); apply H; cbn [In]; lia).
  destruct (for_tpl_correct cfg Init (CVar o i b) (template (SInc8 i)) (assign8 c 1)
              lfor lupd lend here
              (fun s => a0 <= mget (mem s) pi <= hi /\
                        mget (mem s) pc = (if mget (mem s) pi =? a0 then c0 else 1) /\
                        framed [pi; pc] st s)
              (fun s => hi - mget (mem s) pi) st Hp
              (cond_wf_var cfg _ i b pi pb Vi Vb Li Lb Ri Rb) Hf Hd Hh Nfh Ndh Hnd HnrI eq_refl eq_refl)
    as (st' & Hr & (Hvi & Hvc & Hfr) & Hc & _); try assumption.
  - eexists. unfold assign8. slines_tac.
  - apply inc8_assembles. exact Vi.
  - intros s s' Hs (H2 & H3 & H4). rewrite (proj1 Hs).
    split; [exact H2|]. split; [exact H3|apply (framed_same _ _ _ _ Hs H4)].
  - intros s s' (Em & _). cbv beta. rewrite Em. reflexivity.
  - exists s0. split; [exact Hr0|]. rewrite Hv0.
    split; [lia|]. split; [rewrite Z.eqb_refl; apply (proj1 Hf0 pc); [lia|cbn [In]; lia]|].
    apply (framed_step pi [pi; pc] st st s0 (or_introl eq_refl) (framed_refl _ _) Hf0).
  - intros s Hbs (H2 & H3 & H4) Hc.
    rewrite (cond_holds_var cfg o i b pi pb s Li Lb), (Hvb s H4), (Hrel _ H2) in Hc. apply Z.ltb_lt in Hc.
    split; [lia|].
    destruct (assign8_correct cfg c 1 pc s Hp Vc Lc Rc ltac:(lia)) as (s1 & Hr1 & Hv1 & Hf1).
    exists s1. split; [apply runs_to_halts_to; exact Hr1|].
    destruct (inc8_correct cfg i pi s1 Hp Vi Li Ri) as (s2 & Hr2 & Hv2 & Hf2).
    exists s2. split; [apply runs_to_halts_to; exact Hr2|].
    rewrite (proj1 Hf1 pi ltac:(lia) ltac:(cbn [In]; lia)), Z.mod_small in Hv2 by lia.
    rewrite Hv2. split; [|lia]. split; [lia|].
    split; [rewrite (proj1 Hf2 pc ltac:(lia) ltac:(cbn [In]; lia)), Hv1;
            destruct (Z.eqb_spec (mget (mem s) pi + 1) a0); [lia|reflexivity]|].
    apply (framed_step pi [pi; pc] st s1 s2 (or_introl eq_refl)); [|exact Hf2].
    apply (framed_step pc [pi; pc] st s s1 (or_intror (or_introl eq_refl)) H4 Hf1).
  - exists st'. split; [exact Hr|].
    rewrite (cond_holds_var cfg o i b pi pb st' Li Lb), (Hvb st' Hfr), (Hrel _ Hvi) in Hc.
    apply Z.ltb_ge in Hc.
    assert (E : mget (mem st') pi = hi) by lia.
    split; [exact E|]. split; [|exact Hfr]. rewrite Hvc, E.
    destruct (Z.ltb_spec a0 hi); destruct (Z.eqb_spec hi a0); try reflexivity; lia.
Qed.

(** * [break] under an [if]: the body [if (c) break; B'] *)
Lemma break_if_exits : forall cfg c B' lbrk lcont here s (Nm Bk : mstate -> Prop),
  ports cfg = [] -> cond_wf cfg c ->
  lbrk <> ""%string -> here <> ""%string -> lbrk <> here ->
  no_ret B' -> (exists sl, slines_of B' = Some sl) -> bytes_ok s ->
  (cond_holds cfg c s = true -> Bk (cond_state cfg c s)) ->
  (cond_holds cfg c s = false -> exists s', halts_to cfg B' (cond_state cfg c s) s' /\ Nm s') ->
  body_exits cfg (break_if_at c lbrk here ++ B') lbrk lcont s Nm Bk (fun _ => False).
Proof.
  intros cfg c B' lbrk lcont here s Nm Bk Hp Hw Hl Hh Nlh Hnr (slB' & HslB') Hb Htrue Hfalse.
  exists (spcond_code c lbrk here ++ slB'). split.
  - unfold break_if_at. apply slines_app; [apply (slines_pcond_code cfg); assumption|exact HslB'].
  - intros sl pre post kb kc -> Hnd Hkb _. rewrite <- app_assoc in Hnd, Hkb |- *.
    set (segs := [pre; spcond_code c lbrk here; slB'; post]).
    apply (seg_pcond cfg c lbrk here segs 1 kb s _ Hp Hw eq_refl
             (nodup_fresh segs 1 _ Hnd eq_refl) Hkb Hb).
    intros n. destruct (cond_holds cfg c s).
    + apply reach_stop. right. left. split; [reflexivity|apply Htrue; reflexivity].
    + destruct (Hfalse eq_refl) as (s' & Hr & HN).
      destruct (halts_to_sl_halts cfg B' slB' _ _ HslB' Hr) as (N & HN').
      apply (seg_body cfg segs 2 slB' N _ s' _ eq_refl HN' (slines_no_ret _ _ HslB' Hnr)
               (nodup_fresh segs 2 _ Hnd eq_refl)).
      intros n1 _. apply reach_stop. left. split; [apply app_length|exact HN].
Qed.
Print Assumptions break_if_exits.

(** [for (i = 0; i != 4; i++) { if (a == b) break; c = 1; }] (listing 06): when [a = b] the loop
    is left at once, by the [break]: [i = 0], [c] unchanged; otherwise four iterations: [i = 4],
    [c = 1] *)
Theorem for_break_code_correct : forall cfg i a b c lfor lupd lend here pi pa pb pc st,
  ports cfg = [] -> var_name i -> var_name a -> var_name b -> var_name c ->
  lfor <> ""%string -> lend <> ""%string -> here <> ""%string -> lfor <> here -> lend <> here ->
  lfor <> lupd -> lfor <> lend -> lupd <> lend ->
  layout cfg i = Some pi -> layout cfg a = Some pa -> layout cfg b = Some pb ->
  layout cfg c = Some pc ->
  0 <= pi < 65536 -> 0 <= pa < 65536 -> 0 <= pb < 65536 -> 0 <= pc < 65536 ->
  pi <> pa -> pi <> pb -> pc <> pa -> pc <> pb -> pc <> pi ->
  bytes_ok st ->
  exists st',
    halts_to cfg (for_tpl_at (assign8 i 0) (CConst RNeq i 4) (template (SInc8 i))
                    (break_if_at (CVar REq a b) lend here ++ assign8 c 1)
                    lfor lupd lend here) st st' /\
    mget (mem st') pi = (if mget (mem st) pa =? mget (mem st) pb then 0 else 4) /\
    mget (mem st') pc = (if mget (mem st) pa =? mget (mem st) pb then mget (mem st) pc else 1) /\
    only_changes [pi; pc] st st' /\ keeps_xys st st'.
Proof.
  intros cfg i a b c lfor lupd lend here pi pa pb pc st Hp Vi Va Vb Vc Hf Hd Hh Nfh Ndh Nfu Nfd Nud
    Li La Lb Lc Ri Ra Rb Rc Nia Nib Nca Ncb Nci Hb.
  set (a0 := mget (mem st) pa) in *. set (b0 := mget (mem st) pb) in *.
  set (c0 := mget (mem st) pc) in *.
  (* [a] and [b] are outside the frame *)
  assert (Hab : forall s, framed [pi; pc] st s -> mget (mem s) pa = a0 /\ mget (mem s) pb = b0)
    by (intros s (H & _); split; apply H; cbn [In]; lia).
  assert (Wcb : cond_wf cfg (CVar REq a b)) by apply (cond_wf_var cfg _ a b pa pb Va Vb La Lb Ra Rb).
  destruct (for_tpl_break_correct cfg (assign8 i 0) (CConst RNeq i 4) (template (SInc8 i))
              (break_if_at (CVar REq a b) lend here ++ assign8 c 1) lfor lupd lend here
              (fun s => framed [pi; pc] st s /\ 0 <= mget (mem s) pi <= 4 /\
                        (a0 = b0 -> mget (mem s) pi = 0 /\ mget (mem s) pc = c0) /\
                        (a0 <> b0 -> mget (mem s) pc = (if mget (mem s) pi =? 0 then c0 else 1)))
              (fun s => framed [pi; pc] st s /\ a0 = b0 /\ mget (mem s) pi = 0 /\ mget (mem s) pc = c0)
              (fun s s1 => framed [pi; pc] st s1 /\ a0 <> b0 /\ mget (mem s1) pi = mget (mem s) pi /\
                           0 <= mget (mem s) pi < 4 /\ mget (mem s1) pc = 1)
              (fun s => 4 - mget (mem s) pi) st Hp
              (cond_wf_const cfg _ i 4 pi Vi Li Ri ltac:(lia)) Hf Hd Hh Nfh Ndh
              (nodup3 _ _ _ Nfu Nfd Nud) eq_refl eq_refl)
    as (st' & Hr & _ & Hpost); try assumption.
  - eexists. unfold break_if_at, pcond_code_at, assign8. cbn [cond_lhs cond_rhs cond_op branch_seq app].
    repeat first [ apply slines_nil | eapply slines_ins; [parse_tac|]
                 | apply slines_br; [reflexivity|assumption|] ].
  - apply inc8_assembles. exact Vi.
  - intros s s' Hs (H1 & H2). rewrite (proj1 Hs). split; [apply (framed_same _ _ _ _ Hs H1)|exact H2].
  - intros s s' (Em & _). cbv beta. rewrite Em. reflexivity.
  - destruct (assign8_correct cfg i 0 pi st Hp Vi Li Ri ltac:(lia)) as (s0 & Hr0 & Hv0 & Hf0).
    exists s0. split; [apply runs_to_halts_to; exact Hr0|].
    assert (Ec0 : mget (mem s0) pc = c0) by (apply (proj1 Hf0 pc); [lia|cbn [In]; lia]).
    split; [apply (framed_step pi [pi; pc] st st s0 (or_introl eq_refl) (framed_refl _ _) Hf0)|].
    rewrite Hv0, Ec0. split; [lia|]. split; [intros _; split; reflexivity|intros _; reflexivity].
  - intros s Hbs (HF & H2 & H3 & H4) Hc.
    rewrite (cond_holds_const cfg RNeq i 4 pi s Li) in Hc. cbn [rel_holds] in Hc.
    destruct (Z.eqb_spec (mget (mem s) pi) 4) as [|Hne]; [discriminate Hc|].
    split; [lia|].
    pose proof (cond_state_same cfg (CVar REq a b) s) as Hsame.
    pose proof (framed_same _ _ _ _ Hsame HF) as HF'. destruct (Hab s HF) as (Ea & Eb).
    eapply (body_exits_weaken cfg _ lend lupd s _ _ (fun _ => False));
      [intros x Hx; exact Hx|intros x Hx; exact Hx|intros x []|].
    apply break_if_exits; try assumption; try reflexivity.
    + eexists. unfold assign8. slines_tac.
    + intros Hcb. rewrite (cond_holds_var cfg REq a b pa pb s La Lb) in Hcb. cbn [rel_holds] in Hcb.
      rewrite Ea, Eb in Hcb. apply Z.eqb_eq in Hcb.
      split; [apply cond_state_bytes_ok; exact Hbs|].
      split; [exact HF'|]. split; [exact Hcb|]. rewrite (proj1 Hsame). apply (H3 Hcb).
    + intros Hcb. rewrite (cond_holds_var cfg REq a b pa pb s La Lb) in Hcb. cbn [rel_holds] in Hcb.
      rewrite Ea, Eb in Hcb. apply Z.eqb_neq in Hcb.
      destruct (assign8_correct cfg c 1 pc (cond_state cfg (CVar REq a b) s) Hp Vc Lc Rc ltac:(lia))
        as (s1 & Hr1 & Hv1 & Hf1).
      exists s1. split; [apply runs_to_halts_to; exact Hr1|].
      split; [apply (runs_to_bytes_ok cfg _ _ _ Hr1 (cond_state_bytes_ok cfg _ s Hbs))|].
      split; [apply (framed_step pc [pi; pc] st _ s1 (or_intror (or_introl eq_refl)) HF' Hf1)|].
      split; [exact Hcb|].
      split; [rewrite (proj1 Hf1 pi ltac:(lia) ltac:(cbn [In]; lia)), (proj1 Hsame); reflexivity|].
      split; [lia|exact Hv1].
  - intros s s1 Hb1 (HF1 & Hne & Ei & Hi & Ec).
    destruct (inc8_correct cfg i pi s1 Hp Vi Li Ri) as (s2 & Hr2 & Hv2 & Hf2).
    exists s2. split; [apply runs_to_halts_to; exact Hr2|].
    rewrite Ei in Hv2. rewrite Z.mod_small in Hv2 by lia.
    split; [|rewrite Hv2; lia].
    split; [apply (framed_step pi [pi; pc] st s1 s2 (or_introl eq_refl) HF1 Hf2)|].
    rewrite Hv2. split; [lia|]. split; [intros E; contradiction|].
    intros _. rewrite (proj1 Hf2 pc ltac:(lia) ltac:(cbn [In]; lia)), Ec.
    destruct (Z.eqb_spec (mget (mem s) pi + 1) 0); [lia|reflexivity].
  - exists st'. split; [exact Hr|].
    destruct Hpost as [[(Hfr & Hi & H3 & H4) Hc]|(Hfr & Eab & Ei & Ec)].
    + rewrite (cond_holds_const cfg RNeq i 4 pi st' Li) in Hc. cbn [rel_holds] in Hc.
      destruct (Z.eqb_spec (mget (mem st') pi) 4) as [E4|]; [|discriminate Hc].
      destruct (Z.eqb_spec a0 b0) as [Eab|Nab].
      * destruct (H3 Eab) as (E0 & _). lia.
      * split; [exact E4|]. split; [rewrite (H4 Nab), E4; reflexivity|exact Hfr].
    + destruct (Z.eqb_spec a0 b0) as [_|Nab]; [|contradiction].
      split; [exact Ei|]. split; [exact Ec|exact Hfr].
Qed.
Print Assumptions for_break_code_correct.
