(** Truth values and conditional expressions (Model/GenTruth.v) on the executable 6502 semantics,
    for ALL byte-valued states, [ports cfg = []], the labels of the statement non-empty and
    distinct.

    [truth_tpl_correct]       A = 1 if the C condition holds, else 0; memory, X, Y, S untouched: the
                              six comparisons with a variable or constant right operand (through
                              [cond_reach] of Proofs/GenIfFacts.v), [x && y], [x || y], [!x]
    [store16_truth_correct]   the 16-bit object holds the truth value: low byte 0 / 1, HIGH BYTE 0
    [store16_truth_old_refuted]  the sequence emitted before the repair (truth code twice, the
                              second result into [dst+1]) leaves 257 for a true condition
    [store8_truth_correct], [store16_truth_plus_correct], [add16_truth_correct]
    [tern16_correct]          [dst16 = c ? x : y]: both bytes, for variables or constants, provided
                              the operands of the condition are not cells of [dst] (the condition is
                              evaluated again after the low byte of [dst] is written) and the high
                              cell of a variable alternative is not the low cell of [dst]
    [tern16_old_refuted]      before the repair the low bytes were stored twice: 0x3434 for 0x1234
    The closed forms of the twelve listings are derived in Props/C01truth.v. *)
From Coq Require Import String Ascii List Bool Arith NArith ZArith Lia ZifyBool.
From CC Require Import Base.Str Asm.Lines M6502.Isa Asm.Operand M6502.Sem
  Model.OptSem Proofs.OptSemFacts Model.CheckBranches Model.CbSpec Proofs.CbFacts
  Proofs.ExecFacts Model.GenTemplates Proofs.GenTemplatesFacts Proofs.GenCmp16Facts Model.GenLoops
  Proofs.GenLoopsFacts Model.GenTables Proofs.GenTablesFacts Model.GenIf Proofs.GenIfFacts
  Model.GenCtl Proofs.GenCtlFacts Model.GenTruth.
Import ListNotations.
Open Scope string_scope.
Open Scope list_scope.
Open Scope Z_scope.

(** inside any code [pre ++ C ++ post] where [pre] defines no label of [C] and [lbl] is defined
    (line [kl]): from the first line of [C], control arrives at [kl] when [b] holds of the initial
    state, just past [C] otherwise; memory, X, Y, S unchanged *)
Definition jumps_when (cfg : config) (C : list sline) (lbl : string) (b : mstate -> bool) : Prop :=
  forall pre post kl st,
    (forall l, In l (sdefs C) -> ~ In l (sdefs pre)) ->
    find_label lbl (pre ++ C ++ post) 0 = Some kl -> bytes_ok st ->
    reach cfg (pre ++ C ++ post) (length pre) st
      (fun (_ pc' : nat) (s' : mstate) =>
         same_mxys st s' /\ bytes_ok s' /\
         pc' = if b st then kl else (length pre + length C)%nat).

Lemma jw_cond : forall cfg c lbl here, ports cfg = [] -> cond_wf cfg c ->
  jumps_when cfg (scond_code c lbl here) lbl (fun st => negb (cond_holds cfg c st)).
Proof.
  intros cfg c lbl here Hp Hw pre post kl st Hfr Hkl Hb.
  eapply reach_weaken; [|apply (cond_reach cfg c lbl here pre post kl st Hp Hw Hfr Hkl Hb)].
  intros n pc' s' (_ & -> & ->).
  split; [apply cond_state_same|]. split; [apply cond_state_bytes_ok; exact Hb|].
  destruct (cond_holds cfg c st); reflexivity.
Qed.

Lemma jw_pcond : forall cfg c lbl here, ports cfg = [] -> cond_wf cfg c ->
  jumps_when cfg (spcond_code c lbl here) lbl (fun st => cond_holds cfg c st).
Proof.
  intros cfg c lbl here Hp Hw pre post kl st Hfr Hkl Hb.
  eapply reach_weaken;
    [|apply (jw_cond cfg (cond_neg c) lbl here Hp (cond_neg_wf _ _ Hw) pre post kl st Hfr Hkl Hb)].
  intros n pc' s' (Hs & Hb' & ->). split; [exact Hs|]. split; [exact Hb'|].
  rewrite cond_neg_holds, negb_involutive. reflexivity.
Qed.

Lemma seg_jw : forall cfg C lbl b segs i kl s (Q : nat -> nat -> mstate -> Prop),
  jumps_when cfg C lbl b -> nth_error segs i = Some C ->
  (forall l, In l (sdefs C) -> ~ In l (sdefs (cat (firstn i segs)))) ->
  find_label lbl (cat segs) 0 = Some kl -> bytes_ok s ->
  (forall n s', same_mxys s s' -> bytes_ok s' ->
     reach cfg (cat segs) (if b s then kl else pos segs (S i)) s' (fun n2 => Q (n + n2)%nat)) ->
  reach cfg (cat segs) (pos segs i) s Q.
Proof.
  intros cfg C lbl b segs i kl s Q HC Hi Hfr Hkl Hb HQ.
  pose proof (HC _ (cat (skipn (S i) segs)) kl s Hfr) as H.
  rewrite <- (cat_nth _ _ _ Hi), <- (pos_S _ _ _ Hi : _ = (length _ + _)%nat) in H.
  apply reach_seq. eapply reach_weaken; [|apply (H Hkl Hb)].
  intros n pc' s' (Hs & Hb' & ->). apply (HQ n s' Hs Hb').
Qed.

Definition slda (x : string) : sline := SIns LDA (OMem x 0 IxNone) false x.
Definition slda_hi (x : string) : sline := SIns LDA (OMem x 1 IxNone) false (hi x).
Definition slda_imm (k : Z) : sline := SIns LDA (OImm (INum k)) false (imm k).

(** [LDA x; Bxx lbl]: the branch is decided by the flags of the load; [BNE] / [BEQ] test the
    variable against 0 *)
Lemma jw_lda_br : forall cfg x m lbl, ports cfg = [] -> var_at cfg x -> is_cond_branch m = true ->
  jumps_when cfg [slda x; sbr m lbl false] lbl
    (fun st => branch_taken m (lda_st st (var_val cfg x st))).
Proof.
  intros cfg x m lbl Hp (Vx & px & Lx & Rx) Hm pre post kl st _ Hkl Hb.
  pose proof Hb as (_ & _ & _ & _ & HM). unfold var_val. rewrite Lx. cbn [app] in *.
  apply reach_at0. destruct (exec_lda_var cfg x px st Hp Lx Rx) as (k0 & E0).
  eapply reach_next_at; [reflexivity|exact E0|].
  eapply reach_branch_at; [reflexivity|exact Hm|exact Hkl|].
  destruct (branch_taken m (lda_st st (mget (mem st) px))); apply reach_stop;
    (split; [apply lda_st_same|split; [apply lda_st_bytes_ok; [exact Hb|apply HM]|]]);
    [reflexivity|cbn [length]; lia].
Qed.

Lemma jw_nz : forall cfg x lbl, ports cfg = [] -> var_at cfg x ->
  jumps_when cfg [slda x; sbr BNE lbl false] lbl (fun st => negb (var_val cfg x st =? 0)).
Proof. intros cfg x lbl Hp Hx. exact (jw_lda_br cfg x BNE lbl Hp Hx eq_refl). Qed.

Lemma jw_z : forall cfg x lbl, ports cfg = [] -> var_at cfg x ->
  jumps_when cfg [slda x; sbr BEQ lbl false] lbl (fun st => var_val cfg x st =? 0).
Proof. intros cfg x lbl Hp Hx. exact (jw_lda_br cfg x BEQ lbl Hp Hx eq_refl). Qed.

(** one after the other, to the same label: either ([C1] defines no label) *)
Lemma jw_or : forall cfg C1 C2 lbl b1 b2,
  jumps_when cfg C1 lbl b1 -> jumps_when cfg C2 lbl b2 -> sdefs C1 = [] ->
  (forall s s', same_mxys s s' -> b2 s' = b2 s) ->
  jumps_when cfg (C1 ++ C2) lbl (fun st => b1 st || b2 st).
Proof.
  intros cfg C1 C2 lbl b1 b2 H1 H2 Hd1 Hb2 pre post kl st Hfr Hkl Hb.
  rewrite <- app_assoc in *.
  apply reach_seq.
  eapply reach_weaken;
    [|apply (H1 pre (C2 ++ post) kl st); [|exact Hkl|exact Hb]].
  - intros n pc' s1 (Hs1 & Hb1 & Hpc). cbv beta.
    destruct (b1 st); cbn [orb].
    + apply reach_stop. split; [exact Hs1|]. split; [exact Hb1|exact Hpc].
    + subst pc'. rewrite <- app_length.
      eapply reach_weaken;
        [|replace (pre ++ C1 ++ C2 ++ post) with ((pre ++ C1) ++ C2 ++ post)
            by (rewrite <- app_assoc; reflexivity);
          apply (H2 (pre ++ C1) post kl s1);
          [|rewrite <- app_assoc; exact Hkl|exact Hb1]].
      * intros n2 pc2 s2 (Hs2 & Hb2' & Hpc2). cbv beta.
        split; [apply (same_mxys_trans _ _ _ Hs1 Hs2)|]. split; [exact Hb2'|].
        rewrite Hpc2, (Hb2 _ _ Hs1), !app_length. destruct (b2 st); [reflexivity|lia].
      * intros l Hl. rewrite sdefs_app, in_app_iff. intros [Hin|Hin].
        -- apply (Hfr l); [rewrite sdefs_app; apply in_or_app; right; exact Hl|exact Hin].
        -- rewrite Hd1 in Hin. exact Hin.
  - intros l Hl. rewrite Hd1 in Hl. contradiction.
Qed.

(** [x && y]: [LDA x; BEQ start; LDA y; BNE lbl; start:] *)
Lemma jw_and : forall cfg x y lbl lstart, ports cfg = [] -> var_at cfg x -> var_at cfg y ->
  jumps_when cfg [slda x; sbr BEQ lstart false; slda y; sbr BNE lbl false; SLbl lstart] lbl
    (fun st => negb (var_val cfg x st =? 0) && negb (var_val cfg y st =? 0)).
Proof.
  intros cfg x y lbl lstart Hp Hx Hy pre post kl st Hfr Hkl Hb. cbn [app] in *.
  set (segs := [pre; [slda x; sbr BEQ lstart false]; [slda y; sbr BNE lbl false]; [SLbl lstart];
                post]).
  assert (Hks : find_label lstart (cat segs) 0 = Some (pos segs 3)).
  { apply (find_label_seg segs 3 lstart [] eq_refl). cbn [firstn cat segs].
    rewrite !sdefs_app, !in_app_iff. cbn [sdefs slda sbr In].
    intros [H|[[]|[]]]. exact (Hfr lstart (or_introl eq_refl) H). }
  assert (Hend : pos segs 4 = (length pre + 5)%nat)
    by (unfold pos; cbn [firstn cat segs]; rewrite app_length; reflexivity).
  apply (seg_jw cfg _ lstart _ segs 1 _ st _ (jw_z cfg x lstart Hp Hx) eq_refl
           (fun _ H => match H with end) Hks Hb).
  intros n s1 Hs1 Hb1. destruct (var_val cfg x st =? 0); cbn [negb andb].
  - apply (seg_lbl cfg segs 3 _ _ _ eq_refl). apply reach_stop.
    split; [exact Hs1|]. split; [exact Hb1|exact Hend].
  - apply (seg_jw cfg _ lbl _ segs 2 kl s1 _ (jw_nz cfg y lbl Hp Hy) eq_refl
             (fun _ H => match H with end) Hkl Hb1).
    intros n2 s2 Hs2 Hb2. pose proof (same_mxys_trans _ _ _ Hs1 Hs2) as Hs.
    replace (var_val cfg y s1) with (var_val cfg y st) by (unfold var_val; rewrite (proj1 Hs1); reflexivity).
    destruct (var_val cfg y st =? 0); cbn [negb].
    + apply (seg_lbl cfg segs 3 _ _ _ eq_refl). apply reach_stop.
      split; [exact Hs|]. split; [exact Hb2|exact Hend].
    + apply reach_stop. split; [exact Hs|]. split; [exact Hb2|reflexivity].
Qed.

(** [C; X0; JMP end; else: X1; end:] where [C] jumps to [else] when [b]: [X1] is executed when
    [b] holds, [X0] otherwise *)
Lemma select_reach : forall cfg C lelse lend b m0 o0 r0 f0 m1 o1 r1 f1 pre post st,
  jumps_when cfg C lelse b ->
  (forall s, exists k, exec cfg m0 o0 s = XOk (f0 s) k FNext) ->
  (forall s, exists k, exec cfg m1 o1 s = XOk (f1 s) k FNext) ->
  lelse <> lend -> ~ In lelse (sdefs C) -> ~ In lend (sdefs C) ->
  ~ In lelse (sdefs pre) -> ~ In lend (sdefs pre) ->
  (forall l, In l (sdefs C) -> ~ In l (sdefs pre)) -> bytes_ok st ->
  reach cfg (pre ++ C ++ [SIns m0 o0 false r0; sjmp lend; SLbl lelse; SIns m1 o1 false r1; SLbl lend]
             ++ post) (length pre) st
    (fun (_ pc' : nat) (s' : mstate) =>
       pc' = length (pre ++ C ++ [SIns m0 o0 false r0; sjmp lend; SLbl lelse;
                                  SIns m1 o1 false r1; SLbl lend]) /\
       exists mid, same_mxys st mid /\ bytes_ok mid /\ s' = if b st then f1 mid else f0 mid).
Proof.
  intros cfg C lelse lend b m0 o0 r0 f0 m1 o1 r1 f1 pre post st HC E0 E1 Nel NeC NdC Nep Ndp Hfr Hb.
  set (segs := [pre; C; [SIns m0 o0 false r0]; [sjmp lend]; [SLbl lelse]; [SIns m1 o1 false r1];
                [SLbl lend]; post]).
  assert (Hke : find_label lelse (cat segs) 0 = Some (pos segs 4)).
  { apply (find_label_seg segs 4 lelse [] eq_refl). cbn [firstn cat segs].
    rewrite !sdefs_app, !in_app_iff. cbn [sdefs In sjmp]. tauto. }
  assert (Hkd : find_label lend (cat segs) 0 = Some (pos segs 6)).
  { apply (find_label_seg segs 6 lend [] eq_refl). cbn [firstn cat segs].
    rewrite !sdefs_app, !in_app_iff. cbn [sdefs In sjmp]. tauto. }
  apply (seg_jw cfg C lelse b segs 1 _ st _ HC eq_refl Hfr Hke Hb).
  intros n mid Hs Hbm. destruct (b st).
  - destruct (E1 mid) as (k1 & Ex1).
    apply (seg_lbl cfg segs 4 _ _ _ eq_refl). apply (seg_ins cfg segs 5 _ _ _ _ _ _ _ _ eq_refl Ex1).
    apply (seg_lbl cfg segs 6 _ _ _ eq_refl). apply reach_stop.
    split; [reflexivity|]. exists mid. split; [exact Hs|]. split; [exact Hbm|reflexivity].
  - destruct (E0 mid) as (k0 & Ex0).
    apply (seg_ins cfg segs 2 _ _ _ _ _ _ _ _ eq_refl Ex0).
    apply (seg_jmp cfg segs 3 lend _ _ _ eq_refl Hkd).
    apply (seg_lbl cfg segs 6 _ _ _ eq_refl). apply reach_stop.
    split; [reflexivity|]. exists mid. split; [exact Hs|]. split; [exact Hbm|reflexivity].
Qed.
Print Assumptions select_reach.

Definition bexp_wf (cfg : config) (e : bexp) : Prop :=
  match e with
  | BCond c => cond_wf cfg c
  | BAnd x y | BOr x y => var_at cfg x /\ var_at cfg y
  | BNot x => var_at cfg x
  end.

Definition bexp_holds (cfg : config) (e : bexp) (st : mstate) : bool :=
  match e with
  | BCond c => cond_holds cfg c st
  | BAnd x y => negb (var_val cfg x st =? 0) && negb (var_val cfg y st =? 0)
  | BOr x y => negb (var_val cfg x st =? 0) || negb (var_val cfg y st =? 0)
  | BNot x => var_val cfg x st =? 0
  end.

(** the assembled lines: the part that jumps to [lelse], the two constants *)
Definition struth_cond (e : bexp) (lelse lstart here : string) : list sline :=
  match e with
  | BCond c => spcond_code c lelse here
  | BAnd x y => [slda x; sbr BEQ lstart false; slda y; sbr BNE lelse false; SLbl lstart]
  | BOr x y => [slda x; sbr BNE lelse false] ++ [slda y; sbr BNE lelse false]
  | BNot x => [slda x; sbr BNE lelse false]
  end.

Definition truth_k0 (e : bexp) : Z := match e with BNot _ => 1 | _ => 0 end.
Definition truth_k1 (e : bexp) : Z := match e with BNot _ => 0 | _ => 1 end.

Definition struth (e : bexp) (lelse lend lstart here : string) : list sline :=
  struth_cond e lelse lstart here
  ++ [slda_imm (truth_k0 e); sjmp lend; SLbl lelse; slda_imm (truth_k1 e); SLbl lend].

(** when the code jumps to [lelse] *)
Definition truth_jump (cfg : config) (e : bexp) (st : mstate) : bool :=
  match e with
  | BNot x => negb (var_val cfg x st =? 0)
  | _ => bexp_holds cfg e st
  end.

Lemma slines_truth : forall cfg e lelse lend lstart here, bexp_wf cfg e ->
  lelse <> ""%string -> lend <> ""%string -> lstart <> ""%string -> here <> ""%string ->
  slines_of (truth_tpl_at e lelse lend lstart here) = Some (struth e lelse lend lstart here).
Proof.
  intros cfg e lelse lend lstart here Hw He Hd Hs Hh.
  destruct e as [c|x y|x y|x]; cbn [truth_tpl_at bexp_wf] in *; unfold struth;
    cbn [struth_cond truth_k0 truth_k1 app].
  - apply slines_app; [apply (slines_pcond_code cfg); assumption|]. slines_tac.
  - destruct Hw as ((Vx & _) & (Vy & _)). slines_tac.
  - destruct Hw as ((Vx & _) & (Vy & _)). slines_tac.
  - destruct Hw as (Vx & _). slines_tac.
Qed.

Lemma struth_cond_jw : forall cfg e lelse lstart here, ports cfg = [] -> bexp_wf cfg e ->
  jumps_when cfg (struth_cond e lelse lstart here) lelse (truth_jump cfg e).
Proof.
  intros cfg e lelse lstart here Hp Hw.
  destruct e as [c|x y|x y|x]; cbn [struth_cond truth_jump bexp_holds bexp_wf] in *.
  - apply (jw_pcond cfg c lelse here Hp Hw).
  - destruct Hw as (Hx & Hy). apply (jw_and cfg x y lelse lstart Hp Hx Hy).
  - destruct Hw as (Hx & Hy).
    apply (jw_or cfg _ _ lelse _ _ (jw_nz cfg x lelse Hp Hx) (jw_nz cfg y lelse Hp Hy) eq_refl).
    intros s s' (Em & _). unfold var_val. rewrite Em. reflexivity.
  - apply (jw_nz cfg x lelse Hp Hw).
Qed.

Lemma struth_cond_defs : forall e lelse lstart here l,
  In l (sdefs (struth_cond e lelse lstart here)) -> l = here \/ l = lstart.
Proof.
  intros e lelse lstart here l H. destruct e as [c|x y|x y|x]; cbn [struth_cond] in H.
  - left. apply (sdefs_scond_code _ _ _ _ H).
  - cbn [sdefs slda sbr In] in H. destruct H as [E|[]]. right. symmetry. exact E.
  - cbn [sdefs app slda sbr In] in H. contradiction.
  - cbn [sdefs slda sbr In] in H. contradiction.
Qed.

Lemma truth_reach : forall cfg e lelse lend lstart here post st,
  ports cfg = [] -> bexp_wf cfg e ->
  lelse <> lend -> lelse <> lstart -> lelse <> here -> lend <> lstart -> lend <> here ->
  bytes_ok st ->
  reach cfg (struth e lelse lend lstart here ++ post) 0 st
    (fun (_ pc' : nat) (s' : mstate) =>
       pc' = length (struth e lelse lend lstart here) /\ same_mxys st s' /\ bytes_ok s' /\
       rA s' = b2z (bexp_holds cfg e st)).
Proof.
  intros cfg e lelse lend lstart here post st Hp Hw Ned Nes Neh Nds Ndh Hb.
  assert (Hk0 : 0 <= truth_k0 e < 256) by (destruct e; cbn [truth_k0]; lia).
  assert (Hk1 : 0 <= truth_k1 e < 256) by (destruct e; cbn [truth_k1]; lia).
  unfold struth at 1. rewrite <- app_assoc.
  eapply reach_weaken;
    [|apply (select_reach cfg (struth_cond e lelse lstart here) lelse lend (truth_jump cfg e)
               LDA (OImm (INum (truth_k0 e))) (imm (truth_k0 e)) (fun s => lda_st s (truth_k0 e))
               LDA (OImm (INum (truth_k1 e))) (imm (truth_k1 e)) (fun s => lda_st s (truth_k1 e))
               [] post st (struth_cond_jw cfg e lelse lstart here Hp Hw)
               (fun s => exec_lda_imm cfg _ s Hk0) (fun s => exec_lda_imm cfg _ s Hk1) Ned);
      [intros H; destruct (struth_cond_defs _ _ _ _ _ H); congruence
      |intros H; destruct (struth_cond_defs _ _ _ _ _ H); congruence
      |intros []|intros []|intros l _ []|exact Hb]].
  intros n pc' s' (Hpc & mid & Hs & Hbm & ->). cbv beta.
  split; [exact Hpc|].
  destruct e as [c|x y|x y|x]; cbn [truth_jump bexp_holds truth_k0 truth_k1];
    [| | |destruct (var_val cfg x st =? 0); cbn [negb]];
    try match goal with |- context [if ?b then _ else _] => destruct b end;
    (split; [apply (same_mxys_trans _ _ _ Hs (lda_st_same _ _))|];
     split; [apply lda_st_bytes_ok; [exact Hbm|lia]|reflexivity]).
Qed.
Print Assumptions truth_reach.

Definition struth_n (e : bexp) (n : N) : list sline :=
  struth e (lname ".else" n) (lname ".ifend" n) (lname ".ifstart" n) (lname ".ifhere" (n + 1)).

Lemma slines_truth_n : forall cfg e n, bexp_wf cfg e ->
  slines_of (truth_tpl e n) = Some (struth_n e n).
Proof.
  intros cfg e n Hw. apply (slines_truth cfg); auto with lname.
Qed.

(** ** [truth_tpl_correct]: A = 1 if the C condition holds, else 0; memory, X, Y, S untouched *)
Theorem truth_tpl_correct : forall cfg e n st,
  ports cfg = [] -> bexp_wf cfg e -> bytes_ok st ->
  exists st', halts_to cfg (truth_tpl e n) st st' /\
    rA st' = b2z (bexp_holds cfg e st) /\ same_mxys st st' /\ bytes_ok st'.
Proof.
  intros cfg e n st Hp Hw Hb.
  eapply halts_to_reach; [apply (slines_truth_n cfg e n Hw)|].
  rewrite <- (app_nil_r (struth_n e n)) at 1.
  eapply reach_weaken; [|apply truth_reach; auto with lname].
  intros k pc' s' (Hpc & Hs & Hb' & HA). split; [exact Hpc|]. split; [exact HA|]. split; assumption.
Qed.
Print Assumptions truth_tpl_correct.

(** [rnext] at line [length pre + i] of [pre ++ l] *)
Ltac sfx_step := eapply reach_next_at; [reflexivity|exec_solve|].

(** a truth value, then a suffix: the suffix starts with the truth value in A and with the memory,
    X, Y, S of [st] *)
Lemma truth_then : forall cfg e n sfx ssfx st (P : mstate -> Prop),
  ports cfg = [] -> bexp_wf cfg e -> bytes_ok st -> slines_of sfx = Some ssfx ->
  (forall s1, same_mxys st s1 -> bytes_ok s1 -> rA s1 = b2z (bexp_holds cfg e st) ->
     reach cfg (struth_n e n ++ ssfx) (length (struth_n e n) + 0) s1
       (fun (_ pc' : nat) (s' : mstate) =>
          pc' = (length (struth_n e n) + length ssfx)%nat /\ P s')) ->
  exists st', halts_to cfg (truth_tpl e n ++ sfx) st st' /\ P st'.
Proof.
  intros cfg e n sfx ssfx st P Hp Hw Hb Hs H.
  eapply halts_to_reach; [apply slines_app; [apply (slines_truth_n cfg e n Hw)|exact Hs]|].
  apply reach_seq. eapply reach_weaken; [|apply truth_reach; auto with lname].
  intros k pc1 s1 (-> & Hs1 & Hb1 & HA). rewrite app_length. apply reach_at0, (H s1 Hs1 Hb1 HA).
Qed.

(** ** [store16_truth_correct]: the 16-bit object holds the truth value: the low byte 0 or 1, the
    HIGH byte 0; every other cell, X, Y, S unchanged (the operands of the condition may be [dst]
    itself: they are read before) *)
Theorem store16_truth_correct : forall cfg dst e n pd st,
  ports cfg = [] -> bexp_wf cfg e -> var_name dst -> layout cfg dst = Some pd ->
  0 <= pd -> pd + 1 < 65536 -> bytes_ok st ->
  exists st', halts_to cfg (store16_truth dst e n) st st' /\
    word (mem st') pd = b2z (bexp_holds cfg e st) /\
    mget (mem st') pd = b2z (bexp_holds cfg e st) /\ mget (mem st') (pd + 1) = 0 /\
    only_changes [pd; pd + 1] st st' /\ keeps_xys st st'.
Proof.
  intros cfg dst e n pd st Hp Hw Vd Ld Rd Rd' Hb.
  eapply (truth_then cfg e n _ _ st _ Hp Hw Hb); [slines_tac|].
  intros s1 (Em & Ex & Ey & Es) Hb1 HA. repeat sfx_step. apply reach_stop.
  split; [reflexivity|].
  unfold word, only_changes, keeps_xys. state_simp. change (byte 0) with 0. rewrite HA, Em.
  split; [mem_simp; lia|]. split; [mem_simp; reflexivity|]. split; [mem_simp; reflexivity|].
  split; [msets_frame|repeat split; assumption].
Qed.
Print Assumptions store16_truth_correct.

Theorem store8_truth_correct : forall cfg dst e n pd st,
  ports cfg = [] -> bexp_wf cfg e -> var_name dst -> layout cfg dst = Some pd ->
  0 <= pd < 65536 -> bytes_ok st ->
  exists st', halts_to cfg (store8_truth dst e n) st st' /\
    mget (mem st') pd = b2z (bexp_holds cfg e st) /\
    only_changes [pd] st st' /\ keeps_xys st st'.
Proof.
  intros cfg dst e n pd st Hp Hw Vd Ld Rd Hb.
  eapply (truth_then cfg e n _ _ st _ Hp Hw Hb); [slines_tac|].
  intros s1 (Em & Ex & Ey & Es) Hb1 HA. repeat sfx_step. apply reach_stop.
  split; [reflexivity|].
  unfold only_changes, keeps_xys. state_simp. rewrite HA, Em.
  split; [mem_simp; reflexivity|].
  split; [msets_frame|repeat split; assumption].
Qed.
Print Assumptions store8_truth_correct.

(** [dst16 = e + k] for a byte constant [k]: the 8-bit sum, high byte 0 *)
Theorem store16_truth_plus_correct : forall cfg dst e k n pd st,
  ports cfg = [] -> bexp_wf cfg e -> var_name dst -> layout cfg dst = Some pd ->
  0 <= pd -> pd + 1 < 65536 -> 0 <= k < 256 -> bytes_ok st ->
  exists st', halts_to cfg (store16_truth_plus dst e k n) st st' /\
    word (mem st') pd = (b2z (bexp_holds cfg e st) + k) mod 256 /\
    only_changes [pd; pd + 1] st st' /\ keeps_xys st st'.
Proof.
  intros cfg dst e k n pd st Hp Hw Vd Ld Rd Rd' Rk Hb.
  eapply (truth_then cfg e n _ _ st _ Hp Hw Hb); [slines_tac|].
  intros s1 (Em & Ex & Ey & Es) Hb1 HA. repeat sfx_step. apply reach_stop.
  split; [reflexivity|].
  unfold word, only_changes, keeps_xys. state_simp. change (byte 0) with 0.
  rewrite (byte_id k Rk), HA, Em.
  split; [mem_simp; unfold byte; lia|].
  split; [msets_frame|repeat split; assumption].
Qed.
Print Assumptions store16_truth_plus_correct.

(** [dst16 = x16 + e]: the carry goes into the high byte.  [dst] may be [x]; its low cell is not
    the high cell of [x] *)
Theorem add16_truth_correct : forall cfg dst x e n pd px st,
  ports cfg = [] -> bexp_wf cfg e -> var_name dst -> var_name x ->
  layout cfg dst = Some pd -> layout cfg x = Some px ->
  0 <= pd -> pd + 1 < 65536 -> 0 <= px -> px + 1 < 65536 -> pd <> px + 1 ->
  bytes_ok st ->
  exists st', halts_to cfg (add16_truth dst x e n) st st' /\
    word (mem st') pd = (word (mem st) px + b2z (bexp_holds cfg e st)) mod 65536 /\
    only_changes [pd; pd + 1] st st' /\ keeps_xys st st'.
Proof.
  intros cfg dst x e n pd px st Hp Hw Vd Vx Ld Lx Rd Rd' Rx Rx' Nd Hb.
  pose proof Hb as (_ & _ & _ & _ & HM).
  eapply (truth_then cfg e n _ _ st _ Hp Hw Hb); [slines_tac|].
  intros s1 (Em & Ex & Ey & Es) Hb1 HA. repeat sfx_step. apply reach_stop.
  split; [reflexivity|].
  unfold word, only_changes, keeps_xys. state_simp. change (byte 0) with 0. rewrite HA, Em.
  pose proof (HM px) as M0. pose proof (HM (px + 1)) as M1.
  split; [mem_simp; arith_tac|]. split; [msets_frame|repeat split; assumption].
Qed.
Print Assumptions add16_truth_correct.

Definition tcond_wf (cfg : config) (c : tcond) : Prop :=
  match c with TCmp c => cond_wf cfg c | TNz x => var_at cfg x end.

Definition tcond_holds (cfg : config) (c : tcond) (st : mstate) : bool :=
  match c with TCmp c => cond_holds cfg c st | TNz x => negb (var_val cfg x st =? 0) end.

Definition addr_of (cfg : config) (x : string) : list Z :=
  match layout cfg x with Some p => [p] | None => [] end.
Definition tcond_reads (cfg : config) (c : tcond) : list Z :=
  match c with
  | TCmp (CVar _ x y) => addr_of cfg x ++ addr_of cfg y
  | TCmp (CConst _ x _) => addr_of cfg x
  | TNz x => addr_of cfg x
  end.

Lemma var_val_reads : forall cfg x s s',
  (forall a, In a (addr_of cfg x) -> mget (mem s') a = mget (mem s) a) ->
  var_val cfg x s' = var_val cfg x s.
Proof.
  intros cfg x s s' H. unfold var_val, addr_of in *. destruct (layout cfg x); [|reflexivity].
  apply H. left. reflexivity.
Qed.

Lemma tcond_holds_reads : forall cfg c s s',
  (forall a, In a (tcond_reads cfg c) -> mget (mem s') a = mget (mem s) a) ->
  tcond_holds cfg c s' = tcond_holds cfg c s.
Proof.
  intros cfg c s s' H. destruct c as [[o x y|o x k]|x]; cbn [tcond_holds tcond_reads] in *;
    unfold cond_holds, cond_lhs_val, cond_rhs_val; cbn [cond_op cond_lhs].
  - rewrite (var_val_reads cfg x s s'), (var_val_reads cfg y s s'); [reflexivity| |];
      intros a Ha; apply H; apply in_or_app; [right|left]; exact Ha.
  - rewrite (var_val_reads cfg x s s'); [reflexivity|exact H].
  - rewrite (var_val_reads cfg x s s'); [reflexivity|exact H].
Qed.

(** the assembled condition, jumping to [lbl] when it FAILS *)
Definition stcond (c : tcond) (lbl here : string) : list sline :=
  match c with
  | TCmp c => scond_code c lbl here
  | TNz x => [slda x; sbr BEQ lbl false]
  end.

Lemma stcond_jw : forall cfg c lbl here, ports cfg = [] -> tcond_wf cfg c ->
  jumps_when cfg (stcond c lbl here) lbl (fun st => negb (tcond_holds cfg c st)).
Proof.
  intros cfg c lbl here Hp Hw. destruct c as [c|x]; cbn [stcond tcond_holds tcond_wf] in *.
  - apply (jw_cond cfg c lbl here Hp Hw).
  - intros pre post kl st Hfr Hkl Hb.
    eapply reach_weaken; [|apply (jw_z cfg x lbl Hp Hw pre post kl st Hfr Hkl Hb)].
    intros n pc' s' H. cbv beta in *. rewrite negb_involutive. exact H.
Qed.

Lemma stcond_defs : forall c lbl here l, In l (sdefs (stcond c lbl here)) -> l = here.
Proof.
  intros c lbl here l H. destruct c as [c|x]; cbn [stcond] in H.
  - apply (sdefs_scond_code _ _ _ _ H).
  - cbn [sdefs slda sbr In] in H. contradiction.
Qed.

Lemma slines_tcond : forall cfg c lbl here, tcond_wf cfg c -> lbl <> ""%string -> here <> ""%string ->
  slines_of (tcond_code_at c lbl here) = Some (stcond c lbl here).
Proof.
  intros cfg c lbl here Hw Hl Hh. destruct c as [c|x]; cbn [tcond_code_at stcond tcond_wf] in *.
  - apply (slines_cond_code cfg); assumption.
  - destruct Hw as (Vx & _). slines_tac.
Qed.

Definition opnd_wf (cfg : config) (o : opnd16) : Prop :=
  match o with
  | OVar t => var_name t /\ exists p, layout cfg t = Some p /\ 0 <= p /\ p + 1 < 65536
  | OConst k => 0 <= k < 65536
  end.

Definition val16 (cfg : config) (o : opnd16) (st : mstate) : Z :=
  match o with
  | OVar t => match layout cfg t with Some p => word (mem st) p | None => 0 end
  | OConst k => k
  end.

Definition opnd_hi_cell (cfg : config) (o : opnd16) : list Z :=
  match o with
  | OVar t => match layout cfg t with Some p => [p + 1] | None => [] end
  | OConst _ => []
  end.

Definition slo (o : opnd16) : sline :=
  match o with OVar t => slda t | OConst k => slda_imm (k mod 256) end.
Definition shi (o : opnd16) : sline :=
  match o with OVar t => slda_hi t | OConst k => slda_imm (k / 256) end.

(** the two passes of the statement: the low bytes ([h = false]), then the high bytes: the line
    that loads a byte of an operand, the value loaded, the line that stores it *)
Definition shalf (h : bool) (o : opnd16) : sline := if h then shi o else slo o.
Definition half_val (cfg : config) (h : bool) (o : opnd16) (s : mstate) : Z :=
  match o with
  | OVar t => match layout cfg t with Some p => mget (mem s) (if h then p + 1 else p) | None => 0 end
  | OConst k => if h then k / 256 else k mod 256
  end.
Definition ssta (h : bool) (dst : string) : sline :=
  SIns STA (OMem dst (if h then 1 else 0) IxNone) false (if h then hi dst else dst).

Definition is_ins (l : sline) : Prop := match l with SIns _ _ _ _ => True | _ => False end.

Lemma shi_is_ins : forall o, is_ins (shi o).
Proof. intros o. destruct o; exact I. Qed.

Lemma half_val16 : forall cfg o s, opnd_wf cfg o ->
  half_val cfg false o s + 256 * half_val cfg true o s = val16 cfg o s.
Proof.
  intros cfg o s Hw. destruct o as [t|k]; cbn [opnd_wf half_val val16] in *; [|Z.div_mod_to_equations; lia].
  destruct Hw as (_ & p & L & _). rewrite L. reflexivity.
Qed.

Lemma half_val_range : forall cfg h o s, opnd_wf cfg o -> bytes_ok s -> 0 <= half_val cfg h o s < 256.
Proof.
  intros cfg h o s Hw (_ & _ & _ & _ & HM). destruct o as [t|k]; cbn [opnd_wf half_val] in *.
  - destruct (layout cfg t); [apply HM|lia].
  - destruct h; Z.div_mod_to_equations; lia.
Qed.

Lemma half_val_same : forall cfg h o s s', same_mxys s s' -> half_val cfg h o s' = half_val cfg h o s.
Proof. intros cfg h o s s' (Em & _). destruct o; cbn [half_val]; rewrite ?Em; reflexivity. Qed.

Lemma shalf_load : forall cfg h o, ports cfg = [] -> opnd_wf cfg o ->
  exists op raw, shalf h o = SIns LDA op false raw /\
    forall s, exists k, exec cfg LDA op s = XOk (lda_st s (half_val cfg h o s)) k FNext.
Proof.
  intros cfg h o Hp Hw. destruct o as [t|k]; cbn [opnd_wf half_val] in *.
  - destruct Hw as (_ & p & L & R0 & R1). rewrite L.
    destruct h; do 2 eexists; (split; [reflexivity|]); intros s; eexists.
    + rewrite (exec_rd_mem cfg LDA s t 1 p Hp eq_refl L ltac:(lia)). reflexivity.
    + rewrite (exec_rd_mem cfg LDA s t 0 p Hp eq_refl L ltac:(lia)), Z.add_0_r. reflexivity.
  - destruct h; do 2 eexists; (split; [reflexivity|]); intros s; apply exec_lda_imm; Z.div_mod_to_equations; lia.
Qed.

Lemma slines_half : forall (h : bool) (o : opnd16) cfg r sr, opnd_wf cfg o -> slines_of r = Some sr ->
  slines_of (ins LDA (if h then hi_text o else lo_text o) :: r) = Some (shalf h o :: sr).
Proof.
  intros h o cfg r sr Hw Hr. destruct o as [t|k]; cbn [opnd_wf] in Hw;
    destruct h; cbn [hi_text lo_text shalf shi slo]; apply slines_ins; try exact Hr;
    try (apply parse_imm_num; [reflexivity|Z.div_mod_to_equations; lia]);
    [apply vn_hi|apply vn_lo]; (exact (proj1 Hw) || reflexivity).
Qed.

Definition stern_half (c : tcond) (x y : opnd16) (dst : string) (h : bool)
    (lelse lend here : string) : list sline :=
  stcond c lelse here
  ++ [shalf h x; sjmp lend; SLbl lelse; shalf h y; SLbl lend; ssta h dst].

Lemma sdefs_stern_half : forall c x y dst h lelse lend here l,
  In l (sdefs (stern_half c x y dst h lelse lend here)) -> In l [lelse; lend; here].
Proof.
  intros c x y dst h lelse lend here l H. unfold stern_half in H.
  rewrite sdefs_app, in_app_iff in H. destruct H as [H|H].
  - rewrite (stcond_defs _ _ _ _ H). right. right. left. reflexivity.
  - destruct h, x, y; cbn in *; tauto.
Qed.

Lemma nodup3_inv : forall a b c : string, NoDup [a; b; c] -> a <> b /\ a <> c /\ b <> c.
Proof.
  intros a b c H. inversion H as [|? ? H1 H2]; subst. inversion H2 as [|? ? H3 _]; subst.
  cbn [In] in H1, H3. repeat split; intros E; subst; tauto.
Qed.

Lemma tern_half_reach : forall cfg c x y dst h lelse lend here pd pre post st,
  ports cfg = [] -> tcond_wf cfg c -> opnd_wf cfg x -> opnd_wf cfg y ->
  NoDup [lelse; lend; here] -> (forall l, In l [lelse; lend; here] -> ~ In l (sdefs pre)) ->
  layout cfg dst = Some pd -> 0 <= pd -> pd + 1 < 65536 -> bytes_ok st ->
  reach cfg (pre ++ stern_half c x y dst h lelse lend here ++ post) (length pre) st
    (fun (_ pc' : nat) (s' : mstate) =>
       pc' = length (pre ++ stern_half c x y dst h lelse lend here) /\
       mem s' = mset (mem st) (pd + (if h then 1 else 0))
                  (if tcond_holds cfg c st then half_val cfg h x st else half_val cfg h y st) /\
       keeps_xys st s' /\ bytes_ok s').
Proof.
  intros cfg c x y dst h lelse lend here pd pre post st Hp Hw Hx Hy Hnd Hfr Ld Rd Rd' Hb.
  destruct (nodup3_inv _ _ _ Hnd) as (Ned & Neh & Ndh).
  destruct (shalf_load cfg h x Hp Hx) as (ox & rx & Ex & Lx).
  destruct (shalf_load cfg h y Hp Hy) as (oy & ry & Ey & Ly).
  unfold stern_half. rewrite Ex, Ey, <- app_assoc.
  set (segs := [pre; stcond c lelse here;
                [SIns LDA ox false rx; sjmp lend; SLbl lelse; SIns LDA oy false ry; SLbl lend];
                [ssta h dst]; post]).
  apply reach_seq.
  eapply reach_weaken;
    [|apply (select_reach cfg (stcond c lelse here) lelse lend (fun s => negb (tcond_holds cfg c s))
               LDA ox rx (fun s => lda_st s (half_val cfg h x s))
               LDA oy ry (fun s => lda_st s (half_val cfg h y s))
               pre ([ssta h dst] ++ post) st (stcond_jw cfg c lelse here Hp Hw) Lx Ly Ned);
      [intros H; apply stcond_defs in H; congruence
      |intros H; apply stcond_defs in H; congruence
      |apply Hfr; left; reflexivity|apply Hfr; right; left; reflexivity
      |intros l H; apply stcond_defs in H; subst l; apply Hfr; right; right; left; reflexivity
      |exact Hb]].
  intros n pc1 s1 (-> & mid & Hs & Hbm & ->). cbv beta.
  set (v := if tcond_holds cfg c st then half_val cfg h x st else half_val cfg h y st).
  assert (Ev : (if negb (tcond_holds cfg c st) then lda_st mid (half_val cfg h y mid)
                else lda_st mid (half_val cfg h x mid)) = lda_st mid v).
  { unfold v. rewrite !(half_val_same cfg h _ _ _ Hs). destruct (tcond_holds cfg c st); reflexivity. }
  assert (Rv : 0 <= v < 256)
    by (unfold v; destruct (tcond_holds cfg c st); apply half_val_range; assumption).
  pose proof Hs as (Em & Kx & Ky & Ks). rewrite Ev.
  apply (seg_ins cfg segs 3 _ _ _ _ _ _ _ _ eq_refl
           (exec_st_mem cfg STA _ dst (if h then 1 else 0) pd Hp eq_refl Ld ltac:(destruct h; lia))).
  apply reach_stop. split; [reflexivity|].
  cbn [mem set_mem lda_st set_nz set_a st_reg rA]. rewrite Em.
  split; [reflexivity|].
  split; [repeat split; assumption|].
  destruct Hbm as (HA & HX & HY & HS & HM). destruct Hb as (_ & _ & _ & _ & HMst).
  apply bytes_ok_mk; try assumption. apply mget_mset_bytes; [exact HMst|exact Rv].
Qed.

Definition stern16 (dst : string) (c : tcond) (x y : opnd16) (le1 ld1 h1 le2 ld2 h2 : string)
  : list sline :=
  stern_half c x y dst false le1 ld1 h1 ++ stern_half c x y dst true le2 ld2 h2.

Lemma slines_tern16 : forall cfg dst c x y le1 ld1 h1 le2 ld2 h2,
  tcond_wf cfg c -> opnd_wf cfg x -> opnd_wf cfg y -> var_name dst ->
  (forall l, In l [le1; ld1; h1; le2; ld2; h2] -> l <> ""%string) ->
  slines_of (tern16_tpl_at dst c x y le1 ld1 h1 le2 ld2 h2)
  = Some (stern16 dst c x y le1 ld1 h1 le2 ld2 h2).
Proof.
  intros cfg dst c x y le1 ld1 h1 le2 ld2 h2 Hc Hx Hy Vd Hne.
  assert (Hh : forall (h : bool) le ld hr, le <> ""%string -> ld <> ""%string -> hr <> ""%string ->
            slines_of (tern_byte_at c (if h then hi_text x else lo_text x)
                         (if h then hi_text y else lo_text y) (if h then hi dst else dst) le ld hr)
            = Some (stern_half c x y dst h le ld hr)).
  { intros h le ld hr N1 N2 N3. unfold tern_byte_at, stern_half.
    apply slines_app; [apply (slines_tcond cfg); assumption|].
    apply (slines_half h x cfg); [exact Hx|]. apply slines_jmp; [exact N2|]. apply slines_lbl.
    apply (slines_half h y cfg); [exact Hy|]. apply slines_lbl. destruct h; slines_tac. }
  apply slines_app; [apply (Hh false)|apply (Hh true)]; apply Hne; cbn [In]; tauto.
Qed.

Lemma tcond_reads_nonneg : forall cfg c a, tcond_wf cfg c -> In a (tcond_reads cfg c) -> 0 <= a.
Proof.
  assert (Hv : forall cfg x a, var_at cfg x -> In a (addr_of cfg x) -> 0 <= a).
  { intros cfg x a (_ & p & L & R) H. unfold addr_of in H. rewrite L in H.
    destruct H as [<-|[]]. lia. }
  intros cfg c a Hw H. destruct c as [[o x y|o x k]|x]; cbn [tcond_wf cond_wf tcond_reads] in *.
  - destruct Hw as (Hx & Hy). apply in_app_or in H. destruct H as [H|H]; [apply (Hv cfg x a Hx H)|apply (Hv cfg y a Hy H)].
  - apply (Hv cfg x a (proj1 Hw) H).
  - apply (Hv cfg x a Hw H).
Qed.

Lemma hi_val_mset : forall cfg o s s1 pd v, opnd_wf cfg o -> 0 <= pd ->
  ~ In pd (opnd_hi_cell cfg o) -> mem s1 = mset (mem s) pd v ->
  half_val cfg true o s1 = half_val cfg true o s.
Proof.
  intros cfg o s s1 pd v Hw Hpd Hn E. destruct o as [t|k]; cbn [half_val opnd_wf opnd_hi_cell] in *;
    [|reflexivity].
  destruct Hw as (_ & p & L & R0 & R1). rewrite L in *. rewrite E.
  apply mget_mset_other; [intros E'; apply Hn; left; symmetry; exact E'|lia|lia].
Qed.

(** ** [tern16_correct]: [dst16 = c ? x : y].  Needed: the condition does not read the LOW cell of
    [dst] (it is evaluated a second time after that cell is written), and the high cell of a
    variable alternative is not the low cell of [dst] *)
Theorem tern16_correct : forall cfg dst c x y le1 ld1 h1 le2 ld2 h2 pd st,
  ports cfg = [] -> tcond_wf cfg c -> opnd_wf cfg x -> opnd_wf cfg y ->
  var_name dst -> layout cfg dst = Some pd -> 0 <= pd -> pd + 1 < 65536 ->
  NoDup [le1; ld1; h1; le2; ld2; h2] ->
  (forall l, In l [le1; ld1; h1; le2; ld2; h2] -> l <> ""%string) ->
  ~ In pd (tcond_reads cfg c) -> ~ In pd (opnd_hi_cell cfg x) -> ~ In pd (opnd_hi_cell cfg y) ->
  bytes_ok st ->
  exists st', halts_to cfg (tern16_tpl_at dst c x y le1 ld1 h1 le2 ld2 h2) st st' /\
    word (mem st') pd = (if tcond_holds cfg c st then val16 cfg x st else val16 cfg y st) /\
    only_changes [pd; pd + 1] st st' /\ keeps_xys st st'.
Proof.
  intros cfg dst c x y le1 ld1 h1 le2 ld2 h2 pd st Hp Hc Hx Hy Vd Ld Rd Rd' Hnd Hne
    Ac Ax Ay Hb.
  eapply halts_to_reach; [apply (slines_tern16 cfg); assumption|].
  unfold stern16.
  set (seg1 := stern_half c x y dst false le1 ld1 h1).
  set (seg2 := stern_half c x y dst true le2 ld2 h2).
  apply reach_seq. eapply reach_weaken;
    [|apply (tern_half_reach cfg c x y dst false le1 ld1 h1 pd [] seg2 st Hp Hc Hx Hy
               (nodup_app_l _ [le1; ld1; h1] _ Hnd) (fun _ _ H => H) Ld Rd Rd' Hb)].
  intros n1 pc1 s1 (-> & Em1 & Hk1 & Hb1). cbv beta. rewrite Z.add_0_r in Em1.
  (* the condition and the high bytes are what they were *)
  assert (Ec : tcond_holds cfg c s1 = tcond_holds cfg c st).
  { apply tcond_holds_reads. intros a Ha. rewrite Em1.
    apply mget_mset_other; [intros E; apply Ac; rewrite E; exact Ha|lia
                           |apply (tcond_reads_nonneg cfg c a Hc Ha)]. }
  change (length ([] ++ seg1)) with (length seg1). rewrite <- (app_nil_r (seg1 ++ seg2)), <- app_assoc.
  eapply reach_weaken;
    [|apply (tern_half_reach cfg c x y dst true le2 ld2 h2 pd seg1 [] s1 Hp Hc Hx Hy
               (nodup_app_r _ [le1; ld1; h1] _ Hnd)); [|exact Ld|exact Rd|exact Rd'|exact Hb1]].
  - intros n2 pc2 s2 (-> & Em2 & Hk2 & Hb2). cbv beta.
    rewrite Ec, (hi_val_mset cfg x st s1 pd _ Hx Rd Ax Em1),
      (hi_val_mset cfg y st s1 pd _ Hy Rd Ay Em1) in Em2.
    split; [rewrite app_nil_r; reflexivity|].
    split; [|split; [|apply (keeps_xys_trans _ _ _ Hk1 Hk2)]].
    + unfold word. rewrite Em2, Em1.
      rewrite mget_mset_same. rewrite mget_mset_other by lia. rewrite mget_mset_same.
      rewrite <- (half_val16 cfg x st Hx), <- (half_val16 cfg y st Hy).
      destruct (tcond_holds cfg c st); reflexivity.
    + unfold only_changes. rewrite Em2, Em1. msets_frame.
  - intros l Hl Hin. apply sdefs_stern_half in Hin.
    apply (StrFacts.nodup_app_disj [le1; ld1; h1] [le2; ld2; h2] l Hnd Hin Hl).
Qed.
Print Assumptions tern16_correct.

(** ** with the compiler's labels: [.elseN] / [.ifendN], then [.else(N+1)] / [.ifend(N+1)] *)

Lemma lname_number : forall p n m, n <> m -> lname p n <> lname p m.
Proof.
  intros p n m H E. apply H. unfold lname in E. apply string_of_N_inj. apply (StrFacts.str_app_inv_head p _ _ E).
Qed.

Lemma notin_cons : forall (x a : string) l, x <> a -> ~ In x l -> ~ In x (a :: l).
Proof. intros x a l H1 H2 [E|H]; [exact (H1 (eq_sym E))|exact (H2 H)]. Qed.

#[export] Hint Resolve lname_number notin_cons NoDup_cons NoDup_nil in_nil : lname.
#[export] Hint Extern 1 (_ <> _ :> N) => lia : lname.

Definition tern_labels (n : N) : list string :=
  [lname ".else" n; lname ".ifend" n; lname ".ifhere" (n + 2);
   lname ".else" (n + 1); lname ".ifend" (n + 1); lname ".ifhere" (n + 3)].

Lemma tern_labels_nodup : forall n, NoDup (tern_labels n).
Proof. intros n. unfold tern_labels. auto 20 with lname. Qed.

Lemma tern_labels_ne : forall n l, In l (tern_labels n) -> l <> ""%string.
Proof.
  intros n l H. apply (Forall_forall (fun l => l <> ""%string) (tern_labels n)); [|exact H].
  repeat constructor; auto with lname.
Qed.

(** * What the repair changed: the sequences emitted before it, run on the semantics

    (layout of Proofs/GenTemplatesFacts.v: a, b, c at 128, 129, 130; s, t, u at 134, 136, 138;
    the result is the 16-bit value of [s]) *)
Definition run_s (c : code) (st : mstate) : option Z :=
  match slines_of c with
  | Some sl =>
      match Sem.run cfg_listing [] (fun _ _ => None) (fun _ _ => None) 100 "f" sl 0 [] st [] 0%N with
      | Halt s' _ _ => Some (word (mem s') 134)
      | _ => None
      end
  | None => None
  end.

Definition st_truth (va vb vc tlo thi : Z) : mstate :=
  mkS 0 1 2 255 false false false false
    (mset (mset (mset (mset (mset mem_empty 128 va) 129 vb) 130 vc) 136 tlo) 137 thi).

(** [s = (a == b);] before the repair: the truth code a second time, its result into [s+1] *)
Definition store16_truth_old (dst : string) (e : bexp) (n : N) : code :=
  truth_tpl e n ++ [ins STA dst] ++ truth_tpl e (n + 1) ++ [ins STA (hi dst)].

Example store16_truth_old_refuted :
  run_s (store16_truth_old "s" (BCond (CVar REq "a" "b")) 1) (st_truth 7 7 0 0 0) = Some 257 /\
  run_s (store16_truth "s" (BCond (CVar REq "a" "b")) 1) (st_truth 7 7 0 0 0) = Some 1.
Proof. vm_compute. split; reflexivity. Qed.

(** [s = c ? t : u;] before the repair: the second pass loaded the LOW bytes again *)
Definition tern16_old (dst : string) (c : tcond) (x y : opnd16) (n : N) : code :=
  tern_byte_at c (lo_text x) (lo_text y) dst (lname ".else" n) (lname ".ifend" n)
    (lname ".ifhere" (n + 2))
  ++ tern_byte_at c (lo_text x) (lo_text y) (hi dst) (lname ".else" (n + 1)) (lname ".ifend" (n + 1))
       (lname ".ifhere" (n + 3)).

(** t = 0x1234, c = 1: the old code leaves 0x3434 = 13364, the new one 0x1234 = 4660 *)
Example tern16_old_refuted :
  run_s (tern16_old "s" (TNz "c") (OVar "t") (OVar "u") 1) (st_truth 0 0 1 52 18) = Some 13364 /\
  run_s (tern16_tpl "s" (TNz "c") (OVar "t") (OVar "u") 1) (st_truth 0 0 1 52 18) = Some 4660.
Proof. vm_compute. split; reflexivity. Qed.
