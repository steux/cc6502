(** C07, the repaired behaviour: the text and the directives of a group that is not selected
    raise no errors.  An unterminated string literal, an unknown directive and a missing
    #if / #elif expression are errors only where the text is selected (resp. where the
    expression decides something).

    [scan_parts] (Model/ScanSpec.v) gives what the scanner hands to the line processor whichever
    way the scan of the line ended: with [ScanOk], or at a string literal that never closes
    ([ScanUnterminated], which carries the text that precedes the opening quote). *)
From Coq Require Import String Ascii List Bool Arith NArith Lia.
From CC Require Import Base.Str Model.Cpp Model.CondSpec Model.ScanSpec.
From CC Require Import Proofs.StrFacts Proofs.ScanFacts Proofs.CondFacts.
Import ListNotations.
Open Scope list_scope.
Open Scope string_scope.

(** the directives that are dispatched on the trimmed scanner output BEFORE macro substitution *)
Definition early_directive (t : string) : bool :=
  starts_with "#ifdef" t || starts_with "#ifndef" t || starts_with "#undef" t || starts_with "#define" t.

(** the directive names recognised after macro substitution *)
Definition known_directive (name : string) : bool :=
  existsb (String.eqb name) ["#include"; "#if"; "#elif"; "#else"; "#endif"; "#error"].

(** the scanner result [r] is used by the line processor, in conditional state [st], with these
    parts: always for [ScanOk]; for [ScanUnterminated] only when [st] is not Active *)
Definition scan_gives (st : cstate) (r : scan_res) (out : string) (ins : bool) (sc : scan_state) : Prop :=
  r = ScanOk out ins sc \/ (st <> Active /\ r = ScanUnterminated out ins sc).

Lemma scan_gives_not_active : forall st r out ins sc,
    st <> Active -> scan_parts r = (out, ins, sc) -> scan_gives st r out ins sc.
Proof.
  intros st r out ins sc Hst Hp. destruct r as [o i s|o i s]; cbn [scan_parts] in Hp; inversion Hp; subst.
  - left. reflexivity.
  - right. split; [exact Hst|reflexivity].
Qed.

Lemma early_directive_hash : forall t, starts_with "#" t = false -> early_directive t = false.
Proof.
  intros t Hh. unfold early_directive.
  rewrite (hash_prefix_false "ifdef" _ Hh), (hash_prefix_false "ifndef" _ Hh),
    (hash_prefix_false "undef" _ Hh), (hash_prefix_false "define" _ Hh).
  reflexivity.
Qed.

Lemma early_directive_false : forall t, early_directive t = false ->
    starts_with "#ifdef" t = false /\ starts_with "#ifndef" t = false
    /\ starts_with "#undef" t = false /\ starts_with "#define" t = false.
Proof.
  intros t H. unfold early_directive in H.
  apply orb_false_iff in H. destruct H as [H H4].
  apply orb_false_iff in H. destruct H as [H H3].
  apply orb_false_iff in H. destruct H as [H1 H2]. auto.
Qed.

Lemma line_step_scan_gives : forall rec fs fname inc asm p line buf out ins sc,
    scan_gives (p_state p) (scan_line asm buf (c_scan (p_ctx p))) out ins sc ->
    line_step rec fs fname inc asm p line buf = line_body rec fs fname inc p line buf out ins sc.
Proof.
  intros rec fs fname inc asm p line buf out ins sc [Hs|[Hst Hs]]; unfold line_step; rewrite Hs.
  - reflexivity.
  - rewrite (not_active _ Hst). reflexivity.
Qed.

Lemma line_step_not_active : forall rec fs fname inc asm p line buf out ins sc,
    p_state p <> Active ->
    scan_parts (scan_line asm buf (c_scan (p_ctx p))) = (out, ins, sc) ->
    line_step rec fs fname inc asm p line buf = line_body rec fs fname inc p line buf out ins sc.
Proof.
  intros rec fs fname inc asm p line buf out ins sc Hst Hp.
  apply line_step_scan_gives, scan_gives_not_active; assumption.
Qed.

(** [line_body] on an inserted line that is none of the four early directives ([He]), unfolded
    down to the dispatch on the text after macro substitution *)
Ltac late_dispatch He :=
  let H1 := fresh in let H2 := fresh in let H3 := fresh in let H4 := fresh in
  destruct (early_directive_false _ He) as (H1 & H2 & H3 & H4);
  unfold line_body; cbv zeta; cbn [negb set_scan p_state p_stack p_ctx c_macros];
  rewrite H1, H2, H3, H4.

(** an unterminated string literal in SELECTED text is an error, whatever else the line contains *)
Theorem unterminated_string_selected_is_error : forall rec fs fname inc asm p line buf out ins sc,
    p_state p = Active ->
    scan_line asm buf (c_scan (p_ctx p)) = ScanUnterminated out ins sc ->
    line_step rec fs fname inc asm p line buf = PErr (mkErr ESyntax fname line inc "Unterminated string").
Proof.
  intros rec fs fname inc asm p line buf out ins sc Hst Hs.
  unfold line_step. rewrite Hs, Hst. reflexivity.
Qed.
Print Assumptions unterminated_string_selected_is_error.

(** ** text of a group that is not selected never raises an error *)

(** The repaired behaviour.  In a state that is not Active, a line whose scanner output is not a
    directive line -- its trimmed text does not start with "#", before and after macro substitution (the
    model, like the code, looks for "#ifdef/#ifndef/#undef/#define" before substitution and for
    the other directives after it) -- is processed without error and leaves everything but the
    scanner state as it is: output text, line table, macros, conditional state and stack.
    Whatever the line contains: string literals closed or not, comments closed or not, any
    scanner state (in particular no hypothesis about an unfinished block comment is needed: a
    line that is entirely inside a comment has [ins = false] and is dropped as well).
    The hypothesis about the text after substitution cannot be dropped: substitution runs on
    skipped lines too and may produce a directive ([inactive_not_inert_with_macros] in
    Proofs/CondFacts.v: "x" defined as "#endif" closes the group). *)
Theorem skipped_text_never_errors : forall rec fs fname inc asm p line buf out ins sc,
    p_state p <> Active ->
    scan_parts (scan_line asm buf (c_scan (p_ctx p))) = (out, ins, sc) ->
    starts_with "#" (trim out) = false ->
    starts_with "#" (trim (replace_all_c (c_macros (p_ctx p)) out)) = false ->
    line_step rec fs fname inc asm p line buf = POk (set_scan p sc).
Proof.
  intros rec fs fname inc asm p line buf out ins sc Hst Hp Hh Hh2.
  rewrite (line_step_not_active rec fs fname inc asm p line buf out ins sc Hst Hp).
  destruct ins; [|reflexivity].
  assert (He : early_directive (trim (hash_blanks out)) = false)
    by (rewrite (hash_blanks_nohash out Hh); exact (early_directive_hash _ Hh)).
  late_dispatch He. rewrite (hash_blanks_nohash out Hh), Hh2, (not_active _ Hst). reflexivity.
Qed.
Print Assumptions skipped_text_never_errors.

(** the same, spelt out: no error, and only the scanner state may have changed *)
Corollary skipped_text_keeps_everything : forall rec fs fname inc asm p line buf out ins sc,
    p_state p <> Active ->
    scan_parts (scan_line asm buf (c_scan (p_ctx p))) = (out, ins, sc) ->
    starts_with "#" (trim out) = false ->
    starts_with "#" (trim (replace_all_c (c_macros (p_ctx p)) out)) = false ->
    exists p', line_step rec fs fname inc asm p line buf = POk p'
               /\ p_out p' = p_out p /\ p_map p' = p_map p
               /\ c_macros (p_ctx p') = c_macros (p_ctx p)
               /\ p_state p' = p_state p /\ p_stack p' = p_stack p
               /\ c_scan (p_ctx p') = sc.
Proof.
  intros rec fs fname inc asm p line buf out ins sc Hst Hp Hh Hh2.
  exists (set_scan p sc). split; [apply (skipped_text_never_errors _ _ _ _ _ _ _ _ out ins); assumption|].
  repeat split.
Qed.
Print Assumptions skipped_text_keeps_everything.

(** with no macro defined substitution is the identity: one hypothesis is enough *)
Corollary skipped_text_never_errors_no_macros : forall rec fs fname inc asm p line buf out ins sc,
    p_state p <> Active ->
    c_macros (p_ctx p) = [] ->
    scan_parts (scan_line asm buf (c_scan (p_ctx p))) = (out, ins, sc) ->
    starts_with "#" (trim out) = false ->
    line_step rec fs fname inc asm p line buf = POk (set_scan p sc).
Proof.
  intros rec fs fname inc asm p line buf out ins sc Hst Hms Hp Hh.
  apply (skipped_text_never_errors _ _ _ _ _ _ _ _ out ins); try assumption.
  rewrite Hms, replace_all_c_nil. exact Hh.
Qed.
Print Assumptions skipped_text_never_errors_no_macros.

(** ([hash_blanks out]: the scanned text once the blanks between a leading '#' and the directive
    name are removed; [directive_name_arg]: '#' and the letters that follow, then the argument.)
    In a state that is not Active, a line that is none of the directives the machine knows
    (not one of the four early ones before substitution, and after substitution either no
    directive at all or a directive with another name: #pragma, #warning, #line ...) is
    ignored.  This contains [skipped_text_never_errors]. *)
Theorem skipped_unknown_directive_ignored : forall rec fs fname inc asm p line buf out ins sc,
    p_state p <> Active ->
    scan_parts (scan_line asm buf (c_scan (p_ctx p))) = (out, ins, sc) ->
    early_directive (trim (hash_blanks out)) = false ->
    known_directive (fst (directive_name_arg (trim (replace_all_c (c_macros (p_ctx p)) (hash_blanks out))))) = false ->
    line_step rec fs fname inc asm p line buf = POk (set_scan p sc).
Proof.
  intros rec fs fname inc asm p line buf out ins sc Hst Hp He Hk.
  rewrite (line_step_not_active rec fs fname inc asm p line buf out ins sc Hst Hp).
  destruct ins; [|reflexivity]. late_dispatch He.
  destruct (starts_with "#" (trim (replace_all_c (c_macros (p_ctx p)) (hash_blanks out)))).
  2:{ rewrite (not_active _ Hst). reflexivity. }
  destruct (directive_name_arg (trim (replace_all_c (c_macros (p_ctx p)) (hash_blanks out)))) as [name arg].
  cbn [fst] in Hk. unfold known_directive in Hk.
  repeat (apply orb_false_iff in Hk; destruct Hk as [?Hn Hk]).
  rewrite Hn, Hn0, Hn1, Hn2, Hn3, Hn4, (not_active _ Hst). reflexivity.
Qed.
Print Assumptions skipped_unknown_directive_ignored.

(** in selected text an unknown directive is an error *)
Theorem unknown_directive_selected_is_error : forall rec fs fname inc asm p line buf out sc,
    p_state p = Active ->
    scan_line asm buf (c_scan (p_ctx p)) = ScanOk out true sc ->
    early_directive (trim (hash_blanks out)) = false ->
    starts_with "#" (trim (replace_all_c (c_macros (p_ctx p)) (hash_blanks out))) = true ->
    known_directive (fst (directive_name_arg (trim (replace_all_c (c_macros (p_ctx p)) (hash_blanks out))))) = false ->
    line_step rec fs fname inc asm p line buf
    = PErr (mkErr ESyntax fname line inc "Unrecognised preprocessor directive").
Proof.
  intros rec fs fname inc asm p line buf out sc Hst Hs He Hh Hk.
  rewrite (line_step_scan_gives rec fs fname inc asm p line buf out true sc (or_introl Hs)).
  late_dispatch He. rewrite Hh.
  destruct (directive_name_arg (trim (replace_all_c (c_macros (p_ctx p)) (hash_blanks out)))) as [name arg].
  cbn [fst] in Hk. unfold known_directive in Hk.
  repeat (apply orb_false_iff in Hk; destruct Hk as [?Hn Hk]).
  rewrite Hn, Hn0, Hn1, Hn2, Hn3, Hn4, Hst. reflexivity.
Qed.
Print Assumptions unknown_directive_selected_is_error.


Lemma directive_name_hash : forall t z arg,
    directive_name_arg t = (String "#" z, arg) -> starts_with "#" t = true.
Proof.
  intros t z arg Hd. unfold directive_name_arg in Hd.
  destruct (before_prefix "//" t) as [y Hy].
  destruct (before "//" t) as [|h r]; [discriminate|].
  cbv beta iota zeta in Hd. destruct (take_alpha r) as [w rest]. inversion Hd; subst h.
  rewrite Hy. reflexivity.
Qed.

(** #if in a state that is not Active: the state is pushed and becomes Skip, whether an
    expression follows or not ([arg = None]: no error "Expected expression after `#if`") and
    whatever the expression is (it is not evaluated) *)
Theorem skipped_if_pushes_skip : forall rec fs fname inc asm p line buf out sc arg,
    p_state p <> Active ->
    scan_parts (scan_line asm buf (c_scan (p_ctx p))) = (out, true, sc) ->
    early_directive (trim (hash_blanks out)) = false ->
    directive_name_arg (trim (replace_all_c (c_macros (p_ctx p)) (hash_blanks out))) = ("#if", arg) ->
    line_step rec fs fname inc asm p line buf
    = POk (set_state (set_scan p sc) Skip (p_state p :: p_stack p)).
Proof.
  intros rec fs fname inc asm p line buf out sc arg Hst Hp He Hd.
  rewrite (line_step_not_active rec fs fname inc asm p line buf out true sc Hst Hp).
  late_dispatch He. rewrite (directive_name_hash _ _ _ Hd), Hd.
  rewrite (not_active _ Hst). reflexivity.
Qed.
Print Assumptions skipped_if_pushes_skip.

Corollary skipped_if_without_expression : forall rec fs fname inc asm p line buf out sc,
    p_state p <> Active ->
    scan_parts (scan_line asm buf (c_scan (p_ctx p))) = (out, true, sc) ->
    early_directive (trim (hash_blanks out)) = false ->
    directive_name_arg (trim (replace_all_c (c_macros (p_ctx p)) (hash_blanks out))) = ("#if", None) ->
    line_step rec fs fname inc asm p line buf
    = POk (set_state (set_scan p sc) Skip (p_state p :: p_stack p)).
Proof. intros. eapply skipped_if_pushes_skip; eassumption. Qed.
Print Assumptions skipped_if_without_expression.

(** where the expression decides (state Active) its absence is an error *)
Theorem if_without_expression_selected_is_error : forall rec fs fname inc asm p line buf out sc,
    p_state p = Active ->
    scan_line asm buf (c_scan (p_ctx p)) = ScanOk out true sc ->
    early_directive (trim (hash_blanks out)) = false ->
    directive_name_arg (trim (replace_all_c (c_macros (p_ctx p)) (hash_blanks out))) = ("#if", None) ->
    line_step rec fs fname inc asm p line buf
    = PErr (mkErr ESyntax fname line inc "Expected expression after `#if`").
Proof.
  intros rec fs fname inc asm p line buf out sc Hst Hs He Hd.
  rewrite (line_step_scan_gives rec fs fname inc asm p line buf out true sc (or_introl Hs)).
  late_dispatch He. rewrite (directive_name_hash _ _ _ Hd), Hd.
  rewrite Hst. reflexivity.
Qed.
Print Assumptions if_without_expression_selected_is_error.

(** #elif in a state that is not Inactive (a branch of the group was already taken, or the whole
    group is skipped): the state becomes Skip, the stack is kept, whether an expression follows or
    not ([arg = None]: no error "Expected expression after `#elif`") and whatever it is.
    The state may be Active here, where an unterminated literal is an error: hence [scan_gives]
    ([ScanOk], or [ScanUnterminated] in a state that is not Active). *)
Theorem elif_not_inactive_skips : forall rec fs fname inc asm p line buf out sc arg,
    p_state p <> Inactive ->
    scan_gives (p_state p) (scan_line asm buf (c_scan (p_ctx p))) out true sc ->
    early_directive (trim (hash_blanks out)) = false ->
    directive_name_arg (trim (replace_all_c (c_macros (p_ctx p)) (hash_blanks out))) = ("#elif", arg) ->
    line_step rec fs fname inc asm p line buf = POk (set_state (set_scan p sc) Skip (p_stack p)).
Proof.
  intros rec fs fname inc asm p line buf out sc arg Hst Hg He Hd.
  rewrite (line_step_scan_gives rec fs fname inc asm p line buf out true sc Hg).
  late_dispatch He. rewrite (directive_name_hash _ _ _ Hd), Hd.
  assert (Hni : cstate_eqb (p_state p) Inactive = false)
    by (destruct (p_state p); try reflexivity; contradiction).
  rewrite Hni. reflexivity.
Qed.
Print Assumptions elif_not_inactive_skips.

Corollary skipped_elif_without_expression : forall rec fs fname inc asm p line buf out sc,
    p_state p = Skip ->
    scan_parts (scan_line asm buf (c_scan (p_ctx p))) = (out, true, sc) ->
    early_directive (trim (hash_blanks out)) = false ->
    directive_name_arg (trim (replace_all_c (c_macros (p_ctx p)) (hash_blanks out))) = ("#elif", None) ->
    line_step rec fs fname inc asm p line buf = POk (set_state (set_scan p sc) Skip (p_stack p)).
Proof.
  intros rec fs fname inc asm p line buf out sc Hst Hp He Hd.
  apply (elif_not_inactive_skips rec fs fname inc asm p line buf out sc None); try assumption.
  - rewrite Hst. discriminate.
  - apply scan_gives_not_active; [rewrite Hst; discriminate|exact Hp].
Qed.
Print Assumptions skipped_elif_without_expression.

(** where the expression decides (state Inactive: no branch taken yet) its absence is an error *)
Theorem elif_without_expression_inactive_is_error : forall rec fs fname inc asm p line buf out sc,
    p_state p = Inactive ->
    scan_parts (scan_line asm buf (c_scan (p_ctx p))) = (out, true, sc) ->
    early_directive (trim (hash_blanks out)) = false ->
    directive_name_arg (trim (replace_all_c (c_macros (p_ctx p)) (hash_blanks out))) = ("#elif", None) ->
    line_step rec fs fname inc asm p line buf
    = PErr (mkErr ESyntax fname line inc "Expected expression after `#elif`").
Proof.
  intros rec fs fname inc asm p line buf out sc Hst Hp He Hd.
  assert (Hna : p_state p <> Active) by (rewrite Hst; discriminate).
  rewrite (line_step_not_active rec fs fname inc asm p line buf out true sc Hna Hp).
  late_dispatch He. rewrite (directive_name_hash _ _ _ Hd), Hd.
  rewrite Hst. reflexivity.
Qed.
Print Assumptions elif_without_expression_inactive_is_error.


(** the input of known finding F-C07-skipped-text-errors: an apostrophe-and-quote line and a
    directive of another compiler inside "#if 0" *)
Example skipped_group_example :
  match run_cpp [] "m.c" [] (map (fun l => l ++ nl)
        ["#if 0"; "this isn't ""closed"; "#pragma once"; "#endif"; "ok"]) with
  | POk p => p_out p = "ok" ++ nl /\ p_map p = [("m.c", 5%N, None)] /\ p_state p = Active /\ p_stack p = []
             /\ c_scan (p_ctx p) = mkScan false 0 []
  | PErr _ => False
  end.
Proof. vm_compute. repeat split; reflexivity. Qed.

(** the same two lines in selected text: each is an error *)
Example unterminated_selected_example :
  run_cpp [] "m.c" [] (map (fun l => l ++ nl) ["this isn't ""closed"; "#pragma once"; "ok"])
  = PErr (mkErr ESyntax "m.c" 1 None "Unterminated string")
  /\ run_cpp [] "m.c" [] (map (fun l => l ++ nl) ["#pragma once"; "ok"])
     = PErr (mkErr ESyntax "m.c" 1 None "Unrecognised preprocessor directive").
Proof. vm_compute. split; reflexivity. Qed.

(** #if / #elif without expression (directly, or through a macro with an empty body) inside a
    group that is not selected; a directive that follows an unterminated literal's line start
    still counts (the #endif below closes the group although a quote follows it) *)
Example skipped_if_elif_example :
  match run_cpp [] "m.c" [("E", "")] (map (fun l => l ++ nl)
        ["#if 0"; "#if E"; "x"; "#elif"; "y"; "#endif"; "#endif ""open"; "ok"]) with
  | POk p => p_out p = "ok" ++ nl /\ p_state p = Active /\ p_stack p = []
  | PErr _ => False
  end.
Proof. vm_compute. repeat split; reflexivity. Qed.

(** ... while the same directives are errors where the expression decides *)
Example if_elif_selected_example :
  run_cpp [] "m.c" [("E", "")] (map (fun l => l ++ nl) ["#if E"; "x"; "#endif"])
  = PErr (mkErr ESyntax "m.c" 1 None "Expected expression after `#if`")
  /\ run_cpp [] "m.c" [] (map (fun l => l ++ nl) ["#if 0"; "x"; "#elif"; "y"; "#endif"])
     = PErr (mkErr ESyntax "m.c" 3 None "Expected expression after `#elif`")
  /\ match run_cpp [] "m.c" [] (map (fun l => l ++ nl) ["#if 1"; "x"; "#elif"; "y"; "#endif"]) with
     | POk p => p_out p = "x" ++ nl
     | PErr _ => False
     end.
Proof. vm_compute. repeat split; reflexivity. Qed.

(** what the scanner hands over at an unterminated literal: the text before the quote; literals
    closed earlier on the line stay recorded *)
Example scan_unterminated_parts :
  scan_line false ("#endif ""open" ++ nl) (mkScan false 0 []) = ScanUnterminated "#endif " true (mkScan false 0 [])
  /\ scan_line false ("a ""b"" c ""d" ++ nl) (mkScan false 3 []) = ScanUnterminated "a @3@ c " true (mkScan false 4 ["b"]).
Proof. vm_compute. split; reflexivity. Qed.


(** "# else" is #else: the group that was not selected ends there *)
Example blank_after_hash_else_example :
  match run_cpp [] "m.c" [] (map (fun l => l ++ nl) ["#if 0"; "A"; "# else"; "B"; "#endif"; "tail"]) with
  | POk p => p_out p = "B" ++ nl ++ "tail" ++ nl /\ p_state p = Active /\ p_stack p = []
  | PErr _ => False
  end.
Proof. vm_compute. repeat split; reflexivity. Qed.

(** "#if!FOO" is an #if: inside a group that is not selected it counts as an opener, and its
    #endif closes it, not the outer group *)
Example nested_if_bang_example :
  match run_cpp [] "m.c" [] (map (fun l => l ++ nl) ["#if 0"; "#if!FOO"; "x"; "#endif"; "#endif"; "tail"]) with
  | POk p => p_out p = "tail" ++ nl /\ p_state p = Active /\ p_stack p = []
  | PErr _ => False
  end.
Proof. vm_compute. repeat split; reflexivity. Qed.

(** "#if!N" with N defined as 1 is "#if !1": the else branch is selected *)
Example if_bang_defined_example :
  match run_cpp [] "m.c" [("N", "1")] (map (fun l => l ++ nl) ["#if!N"; "a"; "#else"; "b"; "#endif"]) with
  | POk p => p_out p = "b" ++ nl
  | PErr _ => False
  end
  /\ match run_cpp [] "m.c" [("N", "0")] (map (fun l => l ++ nl) ["#if!N"; "a"; "#else"; "b"; "#endif"]) with
     | POk p => p_out p = "a" ++ nl
     | PErr _ => False
     end
  (* "#if(A)" is #if with the argument "(A)", which reaches the evaluator (it knows no
     parentheses) *)
  /\ run_cpp [] "m.c" [("A", "1")] (map (fun l => l ++ nl) ["#if(A)"; "a"; "#endif"])
     = PErr (mkErr ESyntax "m.c" 1 None "Expected term, found nothing").
Proof. vm_compute. repeat split; reflexivity. Qed.
