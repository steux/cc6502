(** GLOBAL soundness of the long-branch repair [check_branches] (C03): whenever the original code
    halts (falls off its end), the repaired code halts in the SAME state -- registers, flags,
    memory -- on the executor [crun] / [halts] of Model/OptSimCF.v and on [Sem.run].

    The theorems are those of Proofs/OptSimCallFacts.v ([gwindow_gen_sim], the window theorem for
    windows of DIFFERENT lengths, and [check_branches_call_sound]) under the oracle that answers
    no call, read on the runs that fall off the end ([OptSimCFFacts.halts_ghalts]).  Theorems:
    [window_gen], [check_branches_sound], [check_branches_run] (on [Sem.run]), and the pipeline
    [pipeline_sound], [pipeline_run]: [check_branches (fst (optimize c))]. *)
From Coq Require Import String Ascii List Bool NArith ZArith Lia Arith.
From CC Require Import Base.Str Asm.Lines M6502.Isa Asm.Operand M6502.Sem
     Model.CheckBranches Model.CbSpec Model.Optimize Model.OptSem Model.OptSim Model.OptSimCF Model.CbSim
     Model.OptSimCall Proofs.CbFacts Proofs.OptSimFacts Proofs.OptSimCallFacts Proofs.OptSimCFFacts.
From CC Require Proofs.OptFacts Proofs.GenLoopsFacts.
Import ListNotations.
Open Scope nat_scope.
Open Scope list_scope.

(** windows of different lengths: [D] contains no label (so it is entered only at its top), the
    labels of [M] are fresh, and from the top of the window every halting run leaves [D] at a
    position and in a state that [M] reaches too *)
Theorem window_gen (A D M T : code) :
  all_labels D = [] ->
  (forall l, In l (all_labels M) -> ~ In l (all_labels (A ++ D ++ T))) ->
  forall cfg, D <> [] -> enters_alike cfg A D M T ->
  forall s s', halts cfg (A ++ D ++ T) s s' -> halts cfg (A ++ M ++ T) s s'.
Proof.
  intros HD FRESH cfg NE ENTRY s s' H. apply halts_ghalts in H. destruct H as [n H]. cbn [endpos] in H.
  assert (ENTRY' : genters_alike no_calls cfg A D M T (length (A ++ D ++ T))).
  { intros _ m s0 fin G. apply grun_crun in G; [|apply n_Sn].
    destruct (ENTRY m s0 fin G) as (m' & k & s1 & j & LT & OK & C & C').
    exists m', k, s1, j. repeat split; try assumption; apply crun_grun; assumption. }
  destruct (gwindow_gen_sim A D M T HD FRESH no_calls cfg NE _ (le_n _) ENTRY' n 0 s s' H (or_introl (Nat.le_0_l _)))
    as [n' H'].
  rewrite sh_len, sh_lo in H' by (destruct D; [congruence|cbn; lia]).
  apply halts_ghalts. exists n'. exact H'.
Qed.

Theorem check_branches_sound : forall cfg c c' n s s',
  no_fix_labels c -> check_branches c = CbOk c' n ->
  halts cfg c s s' -> halts cfg c' s s'.
Proof.
  intros cfg c c' n s s' NF CBK H. apply halts_ghalts. apply halts_ghalts in H.
  exact (check_branches_call_sound no_calls cfg c c' n s false s' NF CBK H).
Qed.
Print Assumptions check_branches_sound.

Theorem check_branches_run : forall cfg c c' n s s',
  no_fix_labels c -> cf_ok cfg c = true -> check_branches c = CbOk c' n ->
  GenLoopsFacts.halts_to cfg c s s' -> GenLoopsFacts.halts_to cfg c' s s'.
Proof.
  intros cfg c c' n s s' NF OK CBK HT. pose proof HT as (sl & SL & _).
  destruct (cb_loop_asm _ _ _ _ _ sl CBK SL) as [sl' SL'].
  apply (halts_halts_to cfg c' sl' s s' SL').
  exact (check_branches_sound cfg c c' n s s' NF CBK (halts_to_halts cfg c s s' OK HT)).
Qed.
Print Assumptions check_branches_run.

(** what is emitted for a function body at -O1: [check_branches] after [optimize] *)

Theorem pipeline_sound : forall cfg c c2 n s s',
  ports cfg = [] -> bytes_ok s -> cf_ok cfg c = true -> NoDup (lbls c) -> rb_free c = true ->
  no_fix_labels c -> check_branches (fst (optimize c)) = CbOk c2 n ->
  halts cfg c s s' ->
  exists s'', halts cfg c2 s s'' /\ eq_state s'' s'.
Proof.
  intros cfg c c2 n s s' HP HB OK ND RB NF CBK H.
  destruct (optimize_cf_sound cfg c s s' HP HB OK ND RB H) as (s1 & H1 & E).
  exists s1. split; [|exact E].
  exact (check_branches_sound cfg (fst (optimize c)) c2 n s s1 (optimize_no_fix c NF) CBK H1).
Qed.
Print Assumptions pipeline_sound.

Theorem pipeline_run : forall cfg c c2 n s s',
  ports cfg = [] -> bytes_ok s -> cf_ok cfg c = true -> NoDup (lbls c) -> rb_free c = true ->
  no_fix_labels c -> check_branches (fst (optimize c)) = CbOk c2 n ->
  GenLoopsFacts.halts_to cfg c s s' ->
  exists s'', GenLoopsFacts.halts_to cfg c2 s s'' /\ eq_state s'' s'.
Proof.
  intros cfg c c2 n s s' HP HB OK ND RB NF CBK HT.
  destruct (optimize_cf_run cfg c s s' HP HB OK ND RB HT) as (s1 & H1 & E).
  exists s1. split; [|exact E].
  exact (check_branches_run cfg (fst (optimize c)) c2 n s s1 (optimize_no_fix c NF)
           (optimize_cf_ok cfg c OK) CBK H1).
Qed.
Print Assumptions pipeline_run.

#[local] Open Scope string_scope.
#[local] Open Scope list_scope.

(** a forward branch over 65 "INC w" (130 bytes): repaired with the three-line shape; the branch
    is not taken here (A = 9), the 65 increments are executed, at shifted positions *)
Definition cb_code : code :=
  [sim_ins LDA "w"; sim_ins BEQ "far"] ++ repeat (sim_ins INC "w") 65 ++ [Lbl "far"; sim_ins LDX "#2"].

Definition cb_of (c : code) : code := match check_branches c with CbOk c' _ => c' | _ => [] end.

Example cb_code_repaired :
  exists c', check_branches cb_code = CbOk c' 1%N /\ length cb_code = 69 /\ length c' = 71 /\
             firstn 5 c' = [sim_ins LDA "w"; mk_branch BNE ".fix1"; mk_jmp "far"; Lbl ".fix1"; sim_ins INC "w"].
Proof. vm_compute. eexists. repeat split; reflexivity. Qed.

Example check_branches_sound_example :
  no_fix_labels cb_code /\
  exists c' s', check_branches cb_code = CbOk c' 1%N /\
                halts sim_cfg cb_code sim_state s' /\ halts sim_cfg c' sim_state s' /\
                rA s' = 9%Z /\ rX s' = 2%Z /\ mget (mem s') 128 = 74%Z.
Proof.
  assert (NF : no_fix_labels cb_code).
  { intros l Hl. vm_compute in Hl. destruct Hl as [<-|[]]. reflexivity. }
  split; [exact NF|].
  destruct (check_branches cb_code) as [c' n| |] eqn:CBK; try (vm_compute in CBK; discriminate CBK).
  assert (n = 1%N) by (vm_compute in CBK; inversion CBK; reflexivity). subst n.
  destruct (crun sim_cfg cb_code 69 0 sim_state) as [[pc s']|] eqn:E; [|vm_compute in E; discriminate E].
  assert (PC : pc = length cb_code) by (vm_compute in E; inversion E; reflexivity). subst pc.
  assert (H : halts sim_cfg cb_code sim_state s') by (exists 69; exact E).
  exists c', s'. split; [reflexivity|]. split; [exact H|].
  split; [exact (check_branches_sound sim_cfg cb_code c' 1%N sim_state s' NF CBK H)|].
  vm_compute in E. inversion E. vm_compute. repeat split; reflexivity.
Qed.
Print Assumptions check_branches_sound_example.

(** the pair "BCC far; BEQ far" ("lower or equal"): repaired with the five-line shape, the BEQ
    protected; BCC is taken here (1 < 2) *)
Definition cb_pair_code : code :=
  [sim_ins LDA "#1"; sim_ins CMP "#2"; sim_ins BCC "far"; sim_ins BEQ "far"]
  ++ repeat (sim_ins INC "w") 65 ++ [Lbl "far"; sim_ins LDX "#2"].

Example cb_pair_example :
  exists c' s', check_branches cb_pair_code = CbOk c' 1%N /\
    firstn 7 c' = [sim_ins LDA "#1"; sim_ins CMP "#2"; mk_branch_prot BEQ ".fixup1"; mk_branch BCS ".fix1";
                   Lbl ".fixup1"; mk_jmp "far"; Lbl ".fix1"] /\
    halts sim_cfg cb_pair_code sim_state s' /\ halts sim_cfg c' sim_state s' /\
    rX s' = 2%Z /\ mget (mem s') 128 = 9%Z.
Proof.
  assert (NF : no_fix_labels cb_pair_code).
  { intros l Hl. vm_compute in Hl. destruct Hl as [<-|[]]. reflexivity. }
  destruct (check_branches cb_pair_code) as [c' n| |] eqn:CBK; try (vm_compute in CBK; discriminate CBK).
  assert (n = 1%N) by (vm_compute in CBK; inversion CBK; reflexivity). subst n.
  destruct (crun sim_cfg cb_pair_code 5 0 sim_state) as [[pc s']|] eqn:E; [|vm_compute in E; discriminate E].
  assert (PC : pc = length cb_pair_code) by (vm_compute in E; inversion E; reflexivity). subst pc.
  assert (H : halts sim_cfg cb_pair_code sim_state s') by (exists 5; exact E).
  exists c', s'. split; [reflexivity|]. split; [vm_compute in CBK; inversion CBK; reflexivity|].
  split; [exact H|].
  split; [exact (check_branches_sound sim_cfg cb_pair_code c' 1%N sim_state s' NF CBK H)|].
  vm_compute in E. inversion E. vm_compute. split; reflexivity.
Qed.

(** the pipeline: [optimize] removes two instructions, [check_branches] repairs the branch *)
Definition pipe_code : code :=
  [sim_ins LDA "#0"; sim_ins STA "w"; sim_ins LDA "w"; sim_ins BNE "far"]
  ++ repeat (sim_ins INC "w") 65 ++ [Lbl "far"; sim_ins LDX "#2"; sim_ins LDX "#2"].

Example pipeline_sound_example :
  snd (optimize pipe_code) = 2%N /\
  exists c2 s' s'', check_branches (fst (optimize pipe_code)) = CbOk c2 1%N /\ length c2 = 74 /\
    halts sim_cfg pipe_code sim_state s' /\ halts sim_cfg c2 sim_state s'' /\ eq_state s'' s' /\
    rX s' = 2%Z /\ mget (mem s') 128 = 65%Z.
Proof.
  split; [vm_compute; reflexivity|].
  assert (OK : cf_ok sim_cfg pipe_code = true) by (vm_compute; reflexivity).
  assert (ND : NoDup (lbls pipe_code)) by (apply StrFacts.nodupb_sound; vm_compute; reflexivity).
  assert (RB : rb_free pipe_code = true) by (vm_compute; reflexivity).
  assert (NF : no_fix_labels pipe_code).
  { intros l Hl. vm_compute in Hl. destruct Hl as [<-|[]]. reflexivity. }
  destruct (check_branches (fst (optimize pipe_code))) as [c2 n| |] eqn:CBK;
    try (vm_compute in CBK; discriminate CBK).
  assert (n = 1%N) by (vm_compute in CBK; inversion CBK; reflexivity). subst n.
  destruct (crun sim_cfg pipe_code 72 0 sim_state) as [[pc s']|] eqn:E; [|vm_compute in E; discriminate E].
  assert (PC : pc = length pipe_code) by (vm_compute in E; inversion E; reflexivity). subst pc.
  assert (H : halts sim_cfg pipe_code sim_state s') by (exists 72; exact E).
  destruct (pipeline_sound sim_cfg pipe_code c2 1%N sim_state s' eq_refl sim_state_bytes OK ND RB NF CBK H)
    as (s'' & H2 & Q).
  exists c2, s', s''. split; [reflexivity|]. split; [vm_compute in CBK; inversion CBK; reflexivity|].
  split; [exact H|]. split; [exact H2|]. split; [exact Q|].
  vm_compute in E. inversion E. vm_compute. split; reflexivity.
Qed.
Print Assumptions pipeline_sound_example.
