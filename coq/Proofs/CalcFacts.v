(** The Pratt parser of the constant calculator (Model/Calc.v) groups every expression without ?:
    exactly as C's grammar does: [calc (lin e) = ceval e], for expressions of any size, with the
    fuel that [calc] really uses. *)
From Coq Require Import String List Bool ZArith Lia.
From CC Require Import Model.Calc Model.CalcSpec.
Import ListNotations.
Open Scope Z_scope.

Lemma prec_c_prec : forall o, is_ternary o = false -> prec o = 10 * c_prec o.
Proof. intros o H. destruct o; try discriminate H; reflexivity. Qed.

Lemma prec_lt_iff : forall o1 o2, is_ternary o1 = false -> is_ternary o2 = false ->
  (prec o1 < prec o2 <-> c_prec o1 < c_prec o2).
Proof. intros o1 o2 H1 H2. rewrite (prec_c_prec _ H1), (prec_c_prec _ H2). lia. Qed.

Lemma prec_le_iff : forall o1 o2, is_ternary o1 = false -> is_ternary o2 = false ->
  (prec o1 <= prec o2 <-> c_prec o1 <= c_prec o2).
Proof. intros o1 o2 H1 H2. rewrite (prec_c_prec _ H1), (prec_c_prec _ H2). lia. Qed.

Lemma right_assoc_non_ternary : forall o, is_ternary o = false -> right_assoc o = false.
Proof. intros o H. destruct o; try discriminate H; reflexivity. Qed.

Lemma prec_bounds : forall o, 10 <= prec o <= 120.
Proof. destruct o; cbn; lia. Qed.

Lemma c_prec_bounds : forall o, 1 <= c_prec o <= 12.
Proof. destruct o; cbn; lia. Qed.

Definition nud (f : nat) (ts : list tok) : option (cres * list tok) :=
  match ts with
  | TNum n :: r => Some (COk n, r)
  | TParen inner :: r =>
      match pexpr f inner 0 with
      | Some (v, []) => Some (v, r)
      | _ => None
      end
  | TUn o :: r =>
      match pexpr f r (prefix_prec - 1) with
      | Some (COk v, r') => Some (COk (apply_un o v), r')
      | other => other
      end
  | _ => None
  end.

Lemma pexpr_S : forall f ts rbp,
  pexpr (S f) ts rbp =
  match nud f ts with
  | None => None
  | Some (lhs, rest) => led f lhs rest rbp
  end.
Proof. reflexivity. Qed.

Lemma led_S : forall f lhs ts rbp,
  led (S f) lhs ts rbp =
  match ts with
  | TBin o :: r =>
      if rbp <? prec o then
        match pexpr f r (if right_assoc o then prec o - 1 else prec o) with
        | Some (rhs, r') => led f (bin_res o lhs rhs) r' rbp
        | None => None
        end
      else Some (lhs, ts)
  | [] => Some (lhs, [])
  | _ => None
  end.
Proof. reflexivity. Qed.

Lemma pexpr_0 : forall ts rbp, pexpr 0 ts rbp = None.
Proof. reflexivity. Qed.
Lemma led_0 : forall lhs ts rbp, led 0 lhs ts rbp = None.
Proof. reflexivity. Qed.

Local Opaque pexpr led.

Lemma fuel_mono_step : forall f,
  (forall ts rbp res, pexpr f ts rbp = Some res -> pexpr (S f) ts rbp = Some res) /\
  (forall lhs ts rbp res, led f lhs ts rbp = Some res -> led (S f) lhs ts rbp = Some res).
Proof.
  induction f as [|f [IHp IHl]]; split.
  - intros ts rbp res H. rewrite pexpr_0 in H. discriminate H.
  - intros lhs ts rbp res H. rewrite led_0 in H. discriminate H.
  - intros ts rbp res H. rewrite pexpr_S in H. rewrite pexpr_S.
    assert (Hn : forall x, nud f ts = Some x -> nud (S f) ts = Some x).
    { intros x N. destruct ts as [|[n|inner|o|o] r]; cbn [nud] in N |- *; try exact N.
      - destruct (pexpr f inner 0) as [[v rr]|] eqn:E; [|discriminate N].
        rewrite (IHp _ _ _ E). exact N.
      - destruct (pexpr f r (prefix_prec - 1)) as [[v rr]|] eqn:E; [|discriminate N].
        rewrite (IHp _ _ _ E). exact N. }
    destruct (nud f ts) as [[lhs rest]|] eqn:N; [|discriminate H].
    rewrite (Hn _ eq_refl). apply IHl. exact H.
  - intros lhs ts rbp res H. rewrite led_S in H. rewrite led_S.
    destruct ts as [|[n|inner|o|o] r]; try exact H.
    destruct (rbp <? prec o); [|exact H].
    destruct (pexpr f r (if right_assoc o then prec o - 1 else prec o)) as [[rhs rr]|] eqn:E;
      [|discriminate H].
    rewrite (IHp _ _ _ E). apply IHl. exact H.
Qed.

Lemma pexpr_mono : forall f f' ts rbp res,
  (f <= f')%nat -> pexpr f ts rbp = Some res -> pexpr f' ts rbp = Some res.
Proof.
  intros f f' ts rbp res Hle H. induction Hle as [|f' Hle IH]; [exact H|].
  apply (proj1 (fuel_mono_step f')). exact IH.
Qed.

Lemma led_mono : forall f f' lhs ts rbp res,
  (f <= f')%nat -> led f lhs ts rbp = Some res -> led f' lhs ts rbp = Some res.
Proof.
  intros f f' lhs ts rbp res Hle H. induction Hle as [|f' Hle IH]; [exact H|].
  apply (proj2 (fuel_mono_step f')). exact IH.
Qed.

Lemma toks_size_app : forall a b, toks_size (a ++ b) = (toks_size a + toks_size b)%nat.
Proof.
  induction a as [|t a IH]; intros b; [reflexivity|].
  cbn [app]. unfold toks_size in *. cbn [fold_right]. rewrite IH. lia.
Qed.
Lemma toks_size_cons : forall t l, toks_size (t :: l) = (tok_size t + toks_size l)%nat.
Proof. reflexivity. Qed.
Lemma toks_size_paren : forall l, toks_size [TParen l] = S (toks_size l).
Proof. intros l. unfold toks_size. cbn [fold_right tok_size]. lia. Qed.
Lemma toks_size_nil : toks_size [] = 0%nat.
Proof. reflexivity. Qed.

(** [stops rbp rest]: the loop [led _ _ rest rbp] returns at once: the input is exhausted or the
    next token is a binary operator that does not bind tighter than [rbp] *)
Definition stops (rbp : Z) (rest : list tok) : Prop :=
  match rest with
  | [] => True
  | TBin o :: _ => prec o <= rbp
  | _ => False
  end.

Definition follow_ok (p : Z) (rest : list tok) : Prop := stops (10 * p) rest.

Lemma led_stops : forall f lhs rest rbp,
  stops rbp rest -> led (S f) lhs rest rbp = Some (lhs, rest).
Proof.
  intros f lhs rest rbp H. rewrite led_S.
  destruct rest as [|[n|inner|o|o] r]; cbn [stops] in H; try contradiction; [reflexivity|].
  destruct (rbp <? prec o) eqn:E; [|reflexivity].
  apply Z.ltb_lt in E. lia.
Qed.

Lemma stops_mono : forall a b rest, a <= b -> stops a rest -> stops b rest.
Proof.
  intros a b rest Hab H. destruct rest as [|[n|inner|o|o] r]; cbn [stops] in *; try exact H. lia.
Qed.

Lemma follow_ok_mono : forall p q rest, p <= q -> follow_ok p rest -> follow_ok q rest.
Proof. intros p q rest Hpq. apply stops_mono. lia. Qed.

Lemma stops_prefix : forall p rest, follow_ok p rest -> stops (prefix_prec - 1) rest.
Proof.
  intros p rest H. destruct rest as [|[n|inner|o|o] r]; cbn [follow_ok stops] in *; try exact H.
  pose proof (prec_bounds o). unfold prefix_prec. lia.
Qed.

Lemma pexpr_num_step : forall f n rest rbp,
  pexpr (S f) (TNum n :: rest) rbp = led f (COk n) rest rbp.
Proof. intros. rewrite pexpr_S. reflexivity. Qed.

Lemma pexpr_paren_step : forall f inner v rest rbp,
  pexpr f inner 0 = Some (v, []) ->
  pexpr (S f) (TParen inner :: rest) rbp = led f v rest rbp.
Proof. intros f inner v rest rbp H. rewrite pexpr_S. cbn [nud]. rewrite H. reflexivity. Qed.

Lemma pexpr_un_step : forall f o ts v rest rbp,
  pexpr f ts (prefix_prec - 1) = Some (v, rest) ->
  pexpr (S f) (TUn o :: ts) rbp = led f (un_res o v) rest rbp.
Proof.
  intros f o ts v rest rbp H. rewrite pexpr_S. cbn [nud]. rewrite H. destruct v; reflexivity.
Qed.

Lemma led_bin_step : forall f o lhs ts rhs rest rbp,
  is_ternary o = false -> rbp < prec o ->
  pexpr f ts (prec o) = Some (rhs, rest) ->
  led (S f) lhs (TBin o :: ts) rbp = led f (bin_res o lhs rhs) rest rbp.
Proof.
  intros f o lhs ts rhs rest rbp Ho Hlt H. rewrite led_S.
  apply Z.ltb_lt in Hlt. rewrite Hlt, (right_assoc_non_ternary _ Ho), H. reflexivity.
Qed.

Lemma pexpr_group : forall g f inner v rest rbp res,
  pexpr g inner 0 = Some (v, []) ->
  led f v rest rbp = Some res ->
  pexpr (S (Nat.max g f)) (TParen inner :: rest) rbp = Some res.
Proof.
  intros g f inner v rest rbp res Hin Hled.
  rewrite (pexpr_paren_step _ inner v).
  - apply (led_mono f); [lia | exact Hled].
  - apply (pexpr_mono g); [lia | exact Hin].
Qed.

(** ** the Pratt invariant
    Parsing, at binding power [rbp], an operand [e] that was written at C level [p] and is
    followed by [rest] amounts to: take the value C gives to [e], and continue the operator loop
    on [rest] — provided the operators that [lin_at p] leaves unparenthesised at the top of [e]
    all bind tighter than [rbp] (so that the loop does not stop inside [e]) and the token after
    [e] does not bind tighter than the operators of [e] (so that it does not steal [e]'s right
    operand).  Fuel: twice the number of tokens of [e] on top of what the continuation needs. *)
Lemma pexpr_lin_at : forall e, no_ternary e ->
  forall p rest rbp res f,
  (forall o, is_ternary o = false -> p <= c_prec o -> rbp < prec o) ->
  follow_ok p rest ->
  led f (ceval e) rest rbp = Some res ->
  pexpr (f + 2 * toks_size (lin_at p e)) (lin_at p e ++ rest) rbp = Some res.
Proof.
  induction e as [n | u e IHe | o l IHl r IHr | e IHe]; intros Hnt p rest rbp res f Hrbp Hfol Hled.
  - cbn [lin_at ceval app] in *. apply (pexpr_mono (S f)).
    + rewrite toks_size_cons, toks_size_nil. cbn [tok_size]. lia.
    + rewrite pexpr_num_step. exact Hled.
  - cbn [lin_at ceval] in *.
    rewrite <- app_comm_cons, toks_size_cons. cbn [tok_size].
    set (s := toks_size (lin_at unary_level e)).
    assert (Hop : pexpr (1 + 2 * s) (lin_at unary_level e ++ rest) (prefix_prec - 1)
                  = Some (ceval e, rest)).
    { apply (IHe Hnt unary_level rest (prefix_prec - 1) (ceval e, rest) 1%nat).
      - intros o' _ Hle. pose proof (c_prec_bounds o'). unfold unary_level in Hle. lia.
      - eapply stops_mono; [|exact (stops_prefix _ _ Hfol)].
        unfold unary_level, prefix_prec. lia.
      - apply led_stops. exact (stops_prefix _ _ Hfol). }
    apply (pexpr_mono (S (Nat.max (1 + 2 * s) f))); [lia|].
    rewrite (pexpr_un_step _ u _ (ceval e) rest).
    + apply (led_mono f); [lia | exact Hled].
    + apply (pexpr_mono (1 + 2 * s)); [lia | exact Hop].
  - destruct Hnt as [Ho [Hntl Hntr]].
    set (L := lin_at (c_prec o) l). set (R := lin_at (c_prec o + 1) r).
    set (body := L ++ TBin o :: R).
    assert (Hbody : forall rest' rbp' res' f',
      rbp' < prec o -> follow_ok (c_prec o) rest' ->
      led f' (bin_res o (ceval l) (ceval r)) rest' rbp' = Some res' ->
      pexpr (f' + 2 * toks_size body) (body ++ rest') rbp' = Some res').
    { intros rest' rbp' res' f' Hlt Hfol' Hled'.
      unfold body. rewrite <- app_assoc, <- app_comm_cons.
      rewrite toks_size_app, toks_size_cons. cbn [tok_size].
      set (sL := toks_size L). set (sR := toks_size R).
      assert (HR : pexpr (1 + 2 * sR) (R ++ rest') (prec o) = Some (ceval r, rest')).
      { apply (IHr Hntr (c_prec o + 1) rest' (prec o) (ceval r, rest') 1%nat).
        - intros o' Ho' Hle. rewrite (prec_c_prec _ Ho), (prec_c_prec _ Ho'). lia.
        - apply (follow_ok_mono (c_prec o)); [lia | exact Hfol'].
        - apply led_stops. rewrite (prec_c_prec _ Ho). exact Hfol'. }
      set (g := Nat.max (1 + 2 * sR) f').
      assert (HL : led (S g) (ceval l) (TBin o :: R ++ rest') rbp' = Some res').
      { rewrite (led_bin_step g o (ceval l) (R ++ rest') (ceval r) rest' rbp' Ho Hlt).
        - apply (led_mono f'); [unfold g; lia | exact Hled'].
        - apply (pexpr_mono (1 + 2 * sR)); [unfold g; lia | exact HR]. }
      apply (pexpr_mono (S g + 2 * sL)); [unfold g; lia|].
      apply (IHl Hntl (c_prec o) (TBin o :: R ++ rest') rbp' res' (S g)).
      - intros o' Ho' Hle. rewrite (prec_c_prec _ Ho) in Hlt. rewrite (prec_c_prec _ Ho'). lia.
      - unfold follow_ok. cbn [stops]. rewrite (prec_c_prec _ Ho). lia.
      - exact HL. }
    cbn [lin_at]. fold L R body.
    destruct (c_prec o <? p) eqn:Ecmp.
    + (* C needs parentheses here *)
      rewrite toks_size_paren.
      assert (Hin : pexpr (1 + 2 * toks_size body) body 0
                    = Some (bin_res o (ceval l) (ceval r), [])).
      { rewrite <- (app_nil_r body) at 2. apply Hbody.
        - pose proof (prec_bounds o). lia.
        - exact I.
        - apply led_stops. exact I. }
      apply (pexpr_mono (S (Nat.max (1 + 2 * toks_size body) f))); [lia|].
      exact (pexpr_group _ _ _ _ _ _ _ Hin Hled).
    + apply Z.ltb_ge in Ecmp. apply Hbody.
      * apply Hrbp; assumption.
      * apply (follow_ok_mono p); assumption.
      * exact Hled.
  - cbn [lin_at ceval app] in *.
    rewrite toks_size_paren.
    set (s := toks_size (lin_at 0 e)).
    assert (Hin : pexpr (1 + 2 * s) (lin_at 0 e) 0 = Some (ceval e, [])).
    { rewrite <- (app_nil_r (lin_at 0 e)).
      apply (IHe Hnt 0 [] 0 (ceval e, []) 1%nat).
      - intros o' _ _. pose proof (prec_bounds o'). lia.
      - exact I.
      - apply led_stops. exact I. }
    apply (pexpr_mono (S (Nat.max (1 + 2 * s) f))); [lia|].
    exact (pexpr_group _ _ _ _ _ _ _ Hin Hled).
Qed.

Lemma pexpr_lin : forall e fuel, no_ternary e ->
  (2 * toks_size (lin e) + 1 <= fuel)%nat ->
  pexpr fuel (lin e) 0 = Some (ceval e, []).
Proof.
  intros e fuel Hnt Hfuel. unfold lin in *.
  apply (pexpr_mono (1 + 2 * toks_size (lin_at 0 e))); [lia|].
  rewrite <- (app_nil_r (lin_at 0 e)) at 2.
  apply (pexpr_lin_at e Hnt 0 [] 0 (ceval e, []) 1%nat).
  - intros o _ _. pose proof (prec_bounds o). lia.
  - exact I.
  - apply led_stops. exact I.
Qed.

Theorem calc_lin_fuel : forall e, no_ternary e ->
  exists fuel, pexpr fuel (lin e) 0 = Some (ceval e, []).
Proof. intros e Hnt. eexists. apply pexpr_lin; [exact Hnt | apply le_n]. Qed.

(** with the fuel [calc] really uses, every expression without ?: — of any size, any mixture of
    levels, any redundant parentheses, erroneous or not — has the value C gives it *)
Theorem calc_lin : forall e, no_ternary e -> calc (lin e) = ceval e.
Proof.
  intros e Hnt. unfold calc. rewrite (pexpr_lin e _ Hnt); [reflexivity | lia].
Qed.
Print Assumptions calc_lin.

Lemma lin_at_open : forall p o l r, p <= c_prec o ->
  lin_at p (EBin o l r) = lin_at (c_prec o) l ++ TBin o :: lin_at (c_prec o + 1) r.
Proof. intros p o l r H. cbn [lin_at]. apply Z.ltb_ge in H. rewrite H. reflexivity. Qed.

Theorem calc_lin_par : forall e, no_ternary e -> calc (lin (EPar e)) = calc (lin e).
Proof.
  intros e Hnt. rewrite (calc_lin (EPar e)), (calc_lin e); [reflexivity | exact Hnt | exact Hnt].
Qed.
Print Assumptions calc_lin_par.

(** parentheses around both operands of a binary operator change nothing; deeper contexts
    follow from [calc_lin] in the same way *)
Theorem calc_lin_par_bin : forall o l r, no_ternary (EBin o l r) ->
  calc (lin (EBin o (EPar l) (EPar r))) = calc (lin (EBin o l r)).
Proof.
  intros o l r Hnt. rewrite (calc_lin (EBin o l r) Hnt). rewrite calc_lin; [reflexivity|exact Hnt].
Qed.

(** errors are results of [ceval], hence covered: a division by a zero-valued sub-expression,
    anywhere on the right of /, is reported as such when the left operand evaluates *)
Theorem calc_lin_div_zero : forall l r a,
  no_ternary l -> no_ternary r -> ceval l = COk a -> ceval r = COk 0 ->
  calc (lin (EBin ODiv l r)) = CDivZero.
Proof.
  intros l r a Hl Hr El Er. rewrite calc_lin.
  - cbn [ceval]. rewrite El, Er. reflexivity.
  - repeat split; assumption.
Qed.
Print Assumptions calc_lin_div_zero.

(** an error in a sub-expression is the value of the whole expression: left error wins *)
Theorem calc_lin_error_left : forall o l r,
  no_ternary (EBin o l r) -> (forall v, ceval l <> COk v) ->
  calc (lin (EBin o l r)) = ceval l.
Proof.
  intros o l r Hnt Herr. rewrite (calc_lin _ Hnt). cbn [ceval].
  destruct (ceval l) as [v| | |]; [exfalso; exact (Herr v eq_refl) | reflexivity ..].
Qed.

(** ** the "needs parentheses" reading of the unparser is the same function *)
Definition paren_at (p : Z) (e : cexpr) : bool :=
  match top_bin e with Some o => c_prec o <? p | None => false end.

Lemma paren_at_low : forall p e, p <= 1 -> paren_at p e = false.
Proof.
  intros p e Hp. unfold paren_at. destruct (top_bin e) as [o|]; [|reflexivity].
  pose proof (c_prec_bounds o). apply Z.ltb_ge. lia.
Qed.

Lemma paren_at_unary : forall e, paren_at unary_level e = needs_paren_prefix e.
Proof.
  intros e. unfold paren_at, needs_paren_prefix, unary_level. destruct (top_bin e) as [o|]; [|reflexivity].
  pose proof (c_prec_bounds o). apply Z.ltb_lt. lia.
Qed.

Lemma paren_at_right : forall o e, paren_at (c_prec o + 1) e = needs_paren_right o e.
Proof.
  intros o e. unfold paren_at, needs_paren_right. destruct (top_bin e) as [o'|]; [|reflexivity].
  destruct (Z.leb_spec (c_prec o') (c_prec o)); [apply Z.ltb_lt | apply Z.ltb_ge]; lia.
Qed.

Lemma lin_at_np : forall e p, lin_at p e = wrap_if (paren_at p e) (lin_np e).
Proof.
  induction e as [n | u e IHe | o l IHl r IHr | e IHe]; intros p; cbn [lin_at lin_np].
  - reflexivity.
  - rewrite IHe, paren_at_unary. reflexivity.
  - rewrite IHl, IHr, paren_at_right. reflexivity.
  - rewrite IHe, paren_at_low by lia. reflexivity.
Qed.

Theorem lin_is_lin_np : forall e, lin e = lin_np e.
Proof. intros e. unfold lin. rewrite lin_at_np, paren_at_low by lia. reflexivity. Qed.

Theorem calc_lin_np : forall e, no_ternary e -> calc (lin_np e) = ceval e.
Proof. intros e Hnt. rewrite <- lin_is_lin_np. exact (calc_lin e Hnt). Qed.
Print Assumptions calc_lin_np.

(** ** non-vacuity: 1 + 2 * 3 - (4 - 5) << 1 == 7 | 8, seven operators on six levels *)
Definition ex7 : cexpr :=
  EBin OOr
    (EBin OEq
      (EBin OShl
        (EBin OSub (EBin OAdd (ENum 1) (EBin OMul (ENum 2) (ENum 3)))
                   (EBin OSub (ENum 4) (ENum 5)))
        (ENum 1))
      (ENum 7))
    (ENum 8).

Example ex7_tokens :
  lin ex7 = [TNum 1; TBin OAdd; TNum 2; TBin OMul; TNum 3; TBin OSub;
             TParen [TNum 4; TBin OSub; TNum 5]; TBin OShl; TNum 1; TBin OEq; TNum 7;
             TBin OOr; TNum 8].
Proof. vm_compute. reflexivity. Qed.

Example ex7_no_ternary : no_ternary ex7.
Proof. cbn. repeat split. Qed.

Example ex7_both_ways : calc (lin ex7) = COk 8 /\ ceval ex7 = COk 8.
Proof. split; vm_compute; reflexivity. Qed.

(** the same with an erroneous sub-expression: 1 + 2 / (3 - 3) * 4 - !0 *)
Definition ex_div0 : cexpr :=
  EBin OSub
    (EBin OAdd (ENum 1)
       (EBin OMul (EBin ODiv (ENum 2) (EBin OSub (ENum 3) (ENum 3))) (ENum 4)))
    (EUn UNot (ENum 0)).

Example ex_div0_both_ways :
  lin ex_div0 = [TNum 1; TBin OAdd; TNum 2; TBin ODiv; TParen [TNum 3; TBin OSub; TNum 3];
                 TBin OMul; TNum 4; TBin OSub; TUn UNot; TNum 0]
  /\ calc (lin ex_div0) = CDivZero /\ ceval ex_div0 = CDivZero.
Proof. repeat split; vm_compute; reflexivity. Qed.

(** prefix operators: - ~ ! (1 + 2) * - 3 *)
Example ex_prefix :
  let e := EBin OMul (EUn UNeg (EUn UBNot (EUn UNot (EBin OAdd (ENum 1) (ENum 2)))))
                     (EUn UNeg (ENum 3)) in
  lin e = [TUn UNeg; TUn UBNot; TUn UNot; TParen [TNum 1; TBin OAdd; TNum 2]; TBin OMul;
           TUn UNeg; TNum 3]
  /\ calc (lin e) = ceval e /\ ceval e = COk (-3).
Proof. repeat split; vm_compute; reflexivity. Qed.
