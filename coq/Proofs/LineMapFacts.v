(** Facts about the line-mapping table of the preprocessor model (property C06), under the labels of
    the specification Model/LineMapSpec.v: one entry per output line (L1), origin of the entries
    (L2 / L3), then the offset -> line translation with its two boundary cases, offset 0 and the
    offset of a newline (L0). *)
From Coq Require Import String Ascii List Bool Arith NArith Lia Sorted.
From CC Require Import Base.Str Model.Cpp Model.LineMapSpec Model.ScanSpec Proofs.StrFacts Proofs.ScanFacts.
Import ListNotations.

Open Scope list_scope.
Open Scope string_scope.

Lemma count_nl_app (a b : string) : count_nl (a ++ b) = count_nl a + count_nl b.
Proof. induction a; simpl; [reflexivity|rewrite IHa; lia]. Qed.

Lemma nlfree_app (a b : string) : nlfree (a ++ b) = nlfree a && nlfree b.
Proof. induction a; simpl; [reflexivity|rewrite IHa, andb_assoc; reflexivity]. Qed.

Lemma nlfree_count (s : string) : nlfree s = true -> count_nl s = 0.
Proof.
  induction s; simpl; intros H; [reflexivity|].
  apply andb_true_iff in H. destruct H as [H1 H2]. destruct (is_nl a); [discriminate|].
  rewrite IHs; auto.
Qed.

Lemma nlfree_one_line (s : string) : nlfree s = true -> one_line s = true.
Proof.
  induction s; simpl; intros H; [reflexivity|].
  apply andb_true_iff in H. destruct H as [H1 H2]. destruct (is_nl a); [discriminate|auto].
Qed.

Lemma one_line_app (a b : string) : b <> "" -> one_line (a ++ b) = nlfree a && one_line b.
Proof.
  intros Hb. induction a as [|c a IH]; [reflexivity|]. cbn [append one_line nlfree]. rewrite IH.
  destruct (is_nl c); [|reflexivity]. destruct a; [destruct b; [contradiction|reflexivity]|reflexivity].
Qed.

Lemma one_line_app_nonempty (a b : string) :
  one_line (a ++ b) = true -> b <> "" -> nlfree a = true.
Proof. intros H Hb. rewrite one_line_app in H by exact Hb. apply andb_true_iff in H. apply H. Qed.

Lemma one_line_app_r (a b : string) : one_line (a ++ b) = true -> one_line b = true.
Proof.
  destruct b; [reflexivity|]. rewrite one_line_app by discriminate. intros H.
  apply andb_true_iff in H. apply H.
Qed.

Lemma one_line_app_l (a b : string) : one_line (a ++ b) = true -> one_line a = true.
Proof.
  destruct b as [|c b].
  - rewrite app_empty_r. auto.
  - intros H. apply nlfree_one_line. eapply one_line_app_nonempty; [exact H|discriminate].
Qed.

Lemma one_line_nlfree_app (a b : string) : nlfree a = true -> one_line (a ++ b) = one_line b.
Proof.
  intros H. destruct b; [rewrite app_empty_r; apply nlfree_one_line, H|].
  rewrite one_line_app, H by discriminate. reflexivity.
Qed.

(** a middle part [b] may be dropped or give way to newline-free text, as long as something
    followed [a]: with [b ++ c] empty, [a] may end in the newline *)
Lemma one_line_replace_mid (a b m c : string) :
  one_line (a ++ b ++ c) = true -> b ++ c <> "" -> nlfree m = true -> one_line (a ++ m ++ c) = true.
Proof.
  intros H Hbc Hm.
  assert (Ha : nlfree a = true) by (eapply one_line_app_nonempty; eauto).
  rewrite !one_line_nlfree_app by assumption.
  apply one_line_app_r in H. apply one_line_app_r in H. exact H.
Qed.

Lemma one_line_insert_mid (a m c : string) :
  one_line (a ++ c) = true -> nlfree m = true -> c <> "" -> one_line (a ++ m ++ c) = true.
Proof. intros H Hm Hc. exact (one_line_replace_mid a "" m c H Hc Hm). Qed.

Lemma one_line_cases (s : string) :
  one_line s = true -> nlfree s = true \/ exists s', s = s' ++ nl /\ nlfree s' = true.
Proof.
  induction s; simpl; intros H; [left; reflexivity|].
  destruct (is_nl a) eqn:E.
  - destruct s; [|discriminate]. right. exists "". split; [|reflexivity].
    unfold is_nl in E. apply Ascii.eqb_eq in E. subst. reflexivity.
  - destruct (IHs H) as [F|[s' [-> F]]].
    + left. simpl. exact F.
    + right. exists (String a s'). split; [reflexivity|]. simpl. rewrite E. exact F.
Qed.

Lemma one_line_count (s : string) : one_line s = true -> count_nl s = if ends_nl s then 1 else 0.
Proof.
  induction s; simpl; intros H; [reflexivity|].
  destruct (is_nl a).
  - destruct s; [reflexivity|discriminate].
  - rewrite IHs by exact H. destruct s; reflexivity.
Qed.

Lemma ends_nl_app (a b : string) : b <> "" -> ends_nl (a ++ b) = ends_nl b.
Proof.
  intros Hb. induction a; [reflexivity|].
  simpl. destruct (a0 ++ b) eqn:E.
  - destruct a0; simpl in E; [congruence|discriminate].
  - exact IHa.
Qed.

Lemma ends_nl_app_nl (a : string) : ends_nl (a ++ nl) = true.
Proof. rewrite ends_nl_app by discriminate. reflexivity. Qed.

Lemma ends_nl_nonempty (s : string) : ends_nl s = true -> s <> "".
Proof. destruct s; [discriminate|discriminate]. Qed.

Lemma complete_app (a b : string) : ends_nl b = true -> complete (a ++ b) = true.
Proof.
  intros H. pose proof (ends_nl_nonempty _ H) as Hb.
  unfold complete. destruct (a ++ b) eqn:E.
  - reflexivity.
  - rewrite <- E. rewrite ends_nl_app by exact Hb. exact H.
Qed.

Lemma nlfree_rev (s : string) : nlfree (rev_string s) = nlfree s.
Proof.
  induction s; [reflexivity|].
  rewrite rev_string_cons, nlfree_app, IHs. simpl. rewrite andb_true_r, andb_comm. reflexivity.
Qed.

Lemma ends_with_nl (s : string) : ends_with nl s = ends_nl s.
Proof.
  induction s as [|a s IH]; [reflexivity|]. destruct s as [|b s].
  - cbn. unfold is_nl. rewrite Ascii.eqb_sym. apply andb_true_r.
  - rewrite ends_with_cons_long by (cbn; lia). exact IH.
Qed.

Lemma drop_app_length (a b : string) : string_drop (String.length a) (a ++ b) = b.
Proof. apply drop_length_app. Qed.

Lemma nlfree_app_l (a b : string) : nlfree (a ++ b) = true -> nlfree a = true.
Proof. rewrite nlfree_app. intros H. apply andb_true_iff in H. tauto. Qed.
Lemma nlfree_app_r (a b : string) : nlfree (a ++ b) = true -> nlfree b = true.
Proof. rewrite nlfree_app. intros H. apply andb_true_iff in H. tauto. Qed.

Lemma nlfree_drop (n : nat) (s : string) : nlfree s = true -> nlfree (string_drop n s) = true.
Proof. intros H. destruct (drop_suffix n s) as [x Hx]. rewrite Hx in H. eapply nlfree_app_r; eauto. Qed.

Lemma nlfree_take (n : nat) (s : string) : nlfree s = true -> nlfree (string_take n s) = true.
Proof. intros H. destruct (take_prefix n s) as [x Hx]. rewrite Hx in H. eapply nlfree_app_l; eauto. Qed.

Lemma one_line_drop (n : nat) (s : string) : one_line s = true -> one_line (string_drop n s) = true.
Proof. intros H. destruct (drop_suffix n s) as [x Hx]. rewrite Hx in H. eapply one_line_app_r; eauto. Qed.

Lemma one_line_take (n : nat) (s : string) : one_line s = true -> one_line (string_take n s) = true.
Proof. intros H. destruct (take_prefix n s) as [x Hx]. rewrite Hx in H. eapply one_line_app_l; eauto. Qed.

Lemma nlfree_before (pat s : string) : nlfree s = true -> nlfree (before pat s) = true.
Proof. intros H. destruct (before_prefix pat s) as [x Hx]. rewrite Hx in H. eapply nlfree_app_l; eauto. Qed.

Lemma nlfree_split_once (pat s b t : string) :
  split_once pat s = Some (b, t) -> nlfree s = true -> nlfree b = true /\ nlfree t = true.
Proof.
  intros E H. apply split_once_app in E. subst.
  split; [eapply nlfree_app_l; eauto|]. apply nlfree_app_r in H. eapply nlfree_app_r; eauto.
Qed.

Lemma nlfree_trim_start (s : string) : nlfree s = true -> nlfree (trim_start s) = true.
Proof. intros H. destruct (trim_start_decomp s) as [x Hx]. rewrite Hx in H. eapply nlfree_app_r; eauto. Qed.

Lemma nlfree_trim_end (s : string) : nlfree s = true -> nlfree (trim_end s) = true.
Proof.
  intros H. unfold trim_end. rewrite nlfree_rev. apply nlfree_trim_start. rewrite nlfree_rev. exact H.
Qed.

Lemma nlfree_trim (s : string) : nlfree s = true -> nlfree (trim s) = true.
Proof. intros H. unfold trim. apply nlfree_trim_end, nlfree_trim_start, H. Qed.

Lemma one_line_trim_end (s : string) : one_line s = true -> nlfree (trim_end s) = true.
Proof.
  intros H. destruct (one_line_cases s H) as [F|[s' [-> F]]].
  - apply nlfree_trim_end, F.
  - unfold trim_end. rewrite nlfree_rev, rev_string_app. change (rev_string nl) with nl.
    change (trim_start (nl ++ rev_string s')) with (trim_start (rev_string s')).
    apply nlfree_trim_start. rewrite nlfree_rev. exact F.
Qed.

Lemma one_line_trim_start (s : string) : one_line s = true -> one_line (trim_start s) = true.
Proof. intros H. destruct (trim_start_decomp s) as [x Hx]. rewrite Hx in H. eapply one_line_app_r; eauto. Qed.

Lemma one_line_trim (s : string) : one_line s = true -> nlfree (trim s) = true.
Proof. intros H. unfold trim. apply one_line_trim_end, one_line_trim_start, H. Qed.

Lemma find_close_suffix (f : nat) (s acc body rest : string) :
  find_close f s acc = Some (body, rest) -> exists m, s = m ++ rest.
Proof.
  revert s acc. induction f; intros s acc H; cbn [find_close] in H; [discriminate|].
  destruct (split_once """" s) as [[lft r0]|] eqn:E; [|discriminate].
  apply split_once_app in E.
  destruct (Nat.even (trailing_backslashes lft)).
  - inversion H; subst. exists (lft ++ """"). rewrite app_assoc_s. reflexivity.
  - apply IHf in H. destruct H as [m Hm]. exists (lft ++ """" ++ m). rewrite Hm in E.
    rewrite E. rewrite !app_assoc_s. reflexivity.
Qed.

Lemma digit_not_nl (c : ascii) : is_digit c = true -> is_nl c = false.
Proof.
  intros H. unfold is_nl. destruct (Ascii.eqb_spec c nlc) as [->|]; [discriminate H|reflexivity].
Qed.

Lemma nlfree_string_of_N (n : N) : nlfree (string_of_N n) = true.
Proof.
  unfold string_of_N. apply dec_digits_ind; [|reflexivity].
  intros d s Hd Hs. cbn [nlfree]. rewrite (digit_not_nl _ (proj1 (digit_char d Hd))). exact Hs.
Qed.

Lemma drop_S_app (a : string) (c : ascii) (w : string) :
  string_drop (S (String.length a)) (a ++ String c w) = w.
Proof. induction a; simpl; auto. Qed.

(** whichever way the scan ends ([ScanOk], or [ScanUnterminated] with the text before the quote).
    Invariant of a turn: [out ++ remaining] is one line; a turn copies a prefix of [remaining] to
    [out], possibly drops what follows it or puts a marker in its place, and goes on in a suffix. *)
Lemma scan_loop_one_line_parts (f : nat) (asm : bool) :
  forall remaining out ins st out' ins' st',
    scan_parts (scan_loop f asm remaining out ins st) = (out', ins', st') ->
    one_line (out ++ remaining) = true -> one_line out' = true.
Proof.
  induction f; intros remaining out ins st out' ins' st' H Hinv.
  { inversion H; subst. eapply one_line_app_l; exact Hinv. }
  destruct (String.eqb remaining "") eqn:Erem.
  { apply String.eqb_eq in Erem. subst remaining. rewrite scan_loop_empty in H.
    inversion H; subst. eapply one_line_app_l; exact Hinv. }
  destruct (sc_in_comment st) eqn:Ecom.
  - rewrite scan_loop_comment in H by assumption.
    destruct (split_once "*/" remaining) as [[b after]|] eqn:E.
    2:{ inversion H; subst. eapply one_line_app_l; exact Hinv. }
    apply split_once_app in E. subst remaining.
    assert (Hafter : one_line (out ++ after) = true).
    { apply (one_line_replace_mid out (b ++ "*/") "" after); [|destruct b; discriminate|reflexivity].
      rewrite app_assoc_s. exact Hinv. }
    assert (Hnone : one_line (out ++ "") = true).
    { rewrite app_empty_r. eapply one_line_app_l; exact Hinv. }
    destruct (String.eqb after ""); [eapply IHf; eauto|].
    destruct (String.eqb after nl); eapply IHf; eauto.
  - rewrite scan_loop_code in H by assumption. cbv zeta in H.
    destruct (before_prefix "//" remaining) as [x Hx].
    destruct (match split_once "/*" (before "//" remaining) with
              | Some (b, t) => (b, Some t)
              | None => (before "//" remaining, None)
              end) as [s2 tail] eqn:E2.
    (* [s2] is a prefix of the line; when a comment opens, "/*" follows it there *)
    assert (Hs2 : exists y, remaining = s2 ++ y /\ (tail <> None -> exists z, y = "/*" ++ z)).
    { destruct (split_once "/*" (before "//" remaining)) as [[b t]|] eqn:E; inversion E2; subst.
      - apply split_once_app in E. exists ("/*" ++ t ++ x). split; [|eexists; reflexivity].
        rewrite Hx at 1. rewrite E, !app_assoc_s. reflexivity.
      - exists x. split; [exact Hx|]. intros N. contradiction. }
    destruct Hs2 as [y [Hy Hopen]].
    assert (Hplain : scan_parts (plain_of f asm remaining out ins st s2 tail) = (out', ins', st') ->
                     one_line out' = true).
    { unfold plain_of. intros Hp. destruct tail as [t|].
      - destruct Hopen as [z ->]; [discriminate|]. eapply IHf; [exact Hp|].
        rewrite Hy, drop_after_open.
        apply (one_line_replace_mid (out ++ s2) "/*" "" z); [|discriminate|reflexivity].
        rewrite app_assoc_s, <- Hy. exact Hinv.
      - injection Hp as <- _ _. rewrite Hy, <- app_assoc_s in Hinv. eapply one_line_app_l; exact Hinv. }
    destruct (negb (is_include_line s2) && negb asm); [|exact (Hplain H)].
    destruct (split_once """" s2) as [[lft z]|] eqn:E3; [|exact (Hplain H)].
    apply split_once_app in E3. subst s2.
    destruct (find_close _ _ _) as [[body rest]|] eqn:Efc in H.
    + eapply IHf; [exact H|].
      (* the literal, from its opening quote up to [rest], gives way to the marker *)
      assert (Hr : remaining = lft ++ String """" (z ++ y)) by (rewrite Hy, !app_assoc_s; reflexivity).
      rewrite Hr in Efc, Hinv. rewrite drop_S_app in Efc.
      apply find_close_suffix in Efc. destruct Efc as [mm Hmm]. rewrite Hmm in Hinv.
      rewrite <- (app_assoc_s out lft), app_assoc_s.
      apply (one_line_replace_mid _ (String """" mm)); [rewrite app_assoc_s; exact Hinv|discriminate|].
      rewrite !nlfree_app, nlfree_string_of_N. reflexivity.
    + injection H as <- _ _. rewrite Hy, !app_assoc_s, <- app_assoc_s in Hinv.
      eapply one_line_app_l; exact Hinv.
Qed.

Lemma scan_loop_one_line (f : nat) (asm : bool) :
  forall remaining out ins st out' ins' st',
    scan_loop f asm remaining out ins st = ScanOk out' ins' st' ->
    one_line (out ++ remaining) = true -> one_line out' = true.
Proof.
  intros remaining out ins st out' ins' st' H. eapply scan_loop_one_line_parts. rewrite H. reflexivity.
Qed.

Lemma scan_line_one_line_parts (asm : bool) (line : string) (st : scan_state) out ins st' :
  scan_parts (scan_line asm line st) = (out, ins, st') -> one_line line = true -> one_line out = true.
Proof.
  unfold scan_line. intros H Hl. eapply scan_loop_one_line_parts; [exact H|]. exact Hl.
Qed.

Lemma scan_line_one_line (asm : bool) (line : string) (st : scan_state) out ins st' :
  scan_line asm line st = ScanOk out ins st' -> one_line line = true -> one_line out = true.
Proof.
  intros H. eapply scan_line_one_line_parts. rewrite H. reflexivity.
Qed.

Definition macro_ok (m : macro) : Prop :=
  match snd m with MObj v => nlfree v = true | MFun _ t => nlfree t = true end.
Definition macros_ok (ms : list macro) : Prop := Forall macro_ok ms.

Lemma balanced_split (f d : nat) (s b r : string) : balanced f d s = Some (b, r) -> s = b ++ r.
Proof.
  revert d s b r. induction f; intros d s b r H; cbn [balanced] in H; [discriminate|].
  destruct s as [|a s]; [discriminate|].
  destruct (Ascii.eqb a ")").
  { inversion H; subst. reflexivity. }
  destruct (Ascii.eqb a "(").
  - destruct d; [discriminate|].
    destruct (balanced f d s) as [[g r']|] eqn:E1; [|discriminate].
    destruct (balanced f (S d) r') as [[b' r'']|] eqn:E2; [|discriminate].
    inversion H; subst. apply IHf in E1. apply IHf in E2. subst. simpl. rewrite app_assoc_s. reflexivity.
  - destruct (balanced f d s) as [[b' r']|] eqn:E1; [|discriminate].
    inversion H; subst. apply IHf in E1. subst. reflexivity.
Qed.

Lemma capture_arg_split (f : nat) (s b r : string) : capture_arg f s = (b, r) -> s = b ++ r.
Proof.
  revert s b r. induction f; intros s b r H; cbn [capture_arg] in H.
  { inversion H; subst. reflexivity. }
  destruct s as [|a s]. { inversion H; subst. reflexivity. }
  destruct (Ascii.eqb a "(").
  - destruct (balanced f 3 s) as [[g r']|] eqn:E1.
    + destruct (capture_arg f r') as [b' r''] eqn:E2. inversion H; subst.
      apply balanced_split in E1. apply IHf in E2. subst. simpl. rewrite app_assoc_s. reflexivity.
    + inversion H; subst. reflexivity.
  - destruct (special a). { inversion H; subst. reflexivity. }
    destruct (capture_arg f s) as [b' r'] eqn:E2. inversion H; subst.
    apply IHf in E2. subst. reflexivity.
Qed.

Lemma skip_blanks_suffix (s : string) : exists w, s = w ++ skip_blanks s.
Proof.
  induction s as [|a s [w Hw]]; [exists ""; reflexivity|].
  cbn [skip_blanks]. destruct (is_blank_or_tab a).
  - exists (String a w). cbn [append]. rewrite <- Hw. reflexivity.
  - exists "". reflexivity.
Qed.

Lemma capture_args_split (fuel n : nat) : forall (s : string) (l : list string) (r : string),
  capture_args fuel n s = Some (l, r) ->
  (exists m, s = m ++ r) /\
  (forall a, In a l -> exists x y, s = x ++ a ++ y /\ y <> "").
Proof.
  induction n as [|n IH]; intros s l r H.
  - cbn [capture_args] in H. destruct (skip_blanks_suffix s) as [w Hw].
    destruct (skip_blanks s) as [|c s']; [discriminate|].
    destruct (Ascii.eqb c ")"); [|discriminate]. inversion H; subst l r.
    split; [exists (w ++ String c ""); rewrite app_assoc_s; exact Hw|]. intros a [].
  - destruct n as [|n'].
    + cbn [capture_args] in H. destruct (capture_arg fuel s) as [a1 r0] eqn:E.
      apply capture_arg_split in E. destruct r0 as [|c r']; [discriminate|].
      destruct (Ascii.eqb c ")"); [|discriminate]. inversion H; subst.
      split.
      * exists (a1 ++ String c ""). rewrite app_assoc_s. reflexivity.
      * intros a [<-|[]]. exists "", (String c r). split; [reflexivity|discriminate].
    + remember (S n') as k. cbn [capture_args] in H. rewrite Heqk in H. rewrite <- Heqk in H.
      destruct (capture_arg fuel s) as [a1 r0] eqn:E.
      apply capture_arg_split in E. destruct r0 as [|c r1]; [discriminate|].
      destruct (Ascii.eqb c ","); [|discriminate].
      destruct (capture_args fuel k r1) as [[l' r'']|] eqn:E2; [|discriminate].
      inversion H; subst l r. apply IH in E2. destruct E2 as [[m Hm] Hargs].
      split.
      * exists (a1 ++ String c m). rewrite E, Hm. rewrite app_assoc_s. reflexivity.
      * intros a [<-|Hin].
        -- exists "", (String c r1). split; [exact E|discriminate].
        -- destruct (Hargs a Hin) as [x [y [Hxy Hy]]].
           exists (a1 ++ String c x), y. split; [|exact Hy].
           rewrite E, Hxy. rewrite app_assoc_s. reflexivity.
Qed.

Lemma take_word_split (s w t : string) : take_word s = (w, t) -> s = w ++ t.
Proof.
  revert w t. induction s; intros w t H; cbn [take_word] in H.
  - inversion H; subst. reflexivity.
  - destruct (is_word a).
    + destruct (take_word s) as [w' t']. inversion H; subst.
      rewrite (IHs w' t eq_refl). reflexivity.
    + inversion H; subst. reflexivity.
Qed.

Lemma nlfree_lookup_arg (name : string) (ps args : list string) :
  Forall (fun a => nlfree a = true) args -> nlfree (lookup_arg name ps args) = true.
Proof.
  revert args. induction ps; intros args H; cbn [lookup_arg]; [reflexivity|].
  destruct args as [|b args]; [reflexivity|]. inversion H; subst.
  destruct (String.eqb a name); auto.
Qed.

Lemma nlfree_expand_template (f : nat) (ps args : list string) :
  Forall (fun a => nlfree a = true) args ->
  forall t, nlfree t = true -> nlfree (expand_template f t ps args) = true.
Proof.
  intros Hargs. induction f; intros t Ht; cbn [expand_template]; [exact Ht|].
  destruct t as [|a r]; [reflexivity|].
  cbn [nlfree] in Ht. apply andb_true_iff in Ht. destruct Ht as [Ha Hr].
  destruct (Ascii.eqb a "$").
  - destruct r as [|b r']; [cbn [nlfree]; rewrite Ha; reflexivity|].
    destruct (Ascii.eqb b "$").
    + cbn [nlfree] in *. apply andb_true_iff in Hr. destruct Hr as [_ Hr]. rewrite IHf by exact Hr. reflexivity.
    + destruct (take_word (String b r')) as [w rest] eqn:E.
      destruct (String.eqb w "").
      * cbn [nlfree]. rewrite Ha, IHf by exact Hr. reflexivity.
      * apply take_word_split in E. rewrite E in Hr.
        rewrite nlfree_app, nlfree_lookup_arg by exact Hargs.
        rewrite IHf; [reflexivity|]. eapply nlfree_app_r; exact Hr.
  - cbn [nlfree]. rewrite Ha, IHf by exact Hr. reflexivity.
Qed.

(** the capped driver the line processor really calls stops where the uncapped one does after
    fewer rounds *)
Lemma replace_rounds_c_rounds (ms : list macro) : forall n orig res,
  exists m, replace_rounds_c n ms orig res = replace_rounds m ms orig res.
Proof.
  induction n as [|n IH]; intros orig res; [exists 0; reflexivity|].
  cbn [replace_rounds_c]. destruct (apply_all ms orig res false) as [res' c] eqn:E.
  destruct (IH res' res') as [m Hm].
  destruct c; [destruct (within_cap res')|]; [exists (S m)|exists 1|exists 1];
    cbn [replace_rounds]; rewrite E; [exact Hm|reflexivity|reflexivity].
Qed.

(** what the replacement loops need of a property of texts; "no newline" and "a newline only at
    the end" both have it.  [lp_copy]: the loop copies [a] and turns the rest [r] into [t].  For
    [one_line] a copied newline must stay last, so [t] has to be empty when [r] was; the loops
    give that beside [P t] (the [s = "" -> t = ""] of [replace_word_aux_P]). *)
Record line_pred (P : string -> bool) : Prop := mkLP {
  lp_ins : forall v t, nlfree v = true -> P t = true -> P (v ++ t) = true;
  lp_copy : forall a r t, P (String a r) = true -> P t = true -> (r = "" -> t = "") ->
                          P (String a t) = true;
  lp_suffix : forall a b, P (a ++ b) = true -> P b = true;
  lp_mid : forall x a y, P (x ++ a ++ y) = true -> y <> "" -> nlfree a = true
}.

Lemma nlfree_line_pred : line_pred nlfree.
Proof.
  split.
  - intros v t Hv Ht. rewrite nlfree_app, Hv, Ht. reflexivity.
  - intros a r t Har Ht _. cbn [nlfree] in *. apply andb_true_iff in Har. destruct Har as [-> _]. exact Ht.
  - intros a b. apply nlfree_app_r.
  - intros x a y H _. apply nlfree_app_r in H. eapply nlfree_app_l; exact H.
Qed.

Lemma one_line_line_pred : line_pred one_line.
Proof.
  split.
  - intros v t Hv Ht. rewrite one_line_nlfree_app; assumption.
  - intros a r t Har Ht Hemp. cbn [one_line] in *. destruct (is_nl a).
    + destruct r; [|discriminate]. rewrite Hemp; reflexivity.
    + exact Ht.
  - intros a b. apply one_line_app_r.
  - intros x a y H Hy. apply one_line_app_r in H. eapply one_line_app_nonempty; eauto.
Qed.

Section Replace.
  Variable P : string -> bool.
  Hypothesis HP : line_pred P.
  Let P_ins := lp_ins P HP.
  Let P_copy := lp_copy P HP.
  Let P_suffix := lp_suffix P HP.
  Let P_mid := lp_mid P HP.

  Lemma replace_word_aux_P (name value : string) (Hv : nlfree value = true) :
    forall f prev s t c, replace_word_aux f name value prev s = (t, c) ->
                         P s = true -> P t = true /\ (s = "" -> t = "").
  Proof.
    induction f; intros prev s t c H Hs; cbn [replace_word_aux] in H.
    { inversion H; subst. auto. }
    destruct s as [|a r]. { inversion H; subst. auto. }
    match type of H with (if ?b then _ else _) = _ => destruct b end.
    - destruct (replace_word_aux f name value _ _) as [t' c'] eqn:E in H.
      inversion H; subst. split; [|discriminate].
      apply P_ins; [exact Hv|]. eapply IHf; [exact E|].
      destruct (drop_suffix (String.length name) (String a r)) as [x Hx].
      rewrite Hx in Hs. eapply P_suffix; exact Hs.
    - destruct (replace_word_aux f name value (Some a) r) as [t' c'] eqn:E.
      inversion H; subst. split; [|discriminate].
      assert (Hr : P r = true) by (apply (P_suffix (String a "") r); exact Hs).
      destruct (IHf _ _ _ _ E Hr) as [Ht Hemp].
      apply (P_copy a r t'); assumption.
  Qed.

  Lemma replace_call_aux_P (name : string) (ps : list string) (tmpl : string) (Ht : nlfree tmpl = true) :
    forall f prev s t c, replace_call_aux f name ps tmpl prev s = (t, c) ->
                         P s = true -> P t = true /\ (s = "" -> t = "").
  Proof.
    induction f; intros prev s t c H Hs; cbn [replace_call_aux] in H.
    { inversion H; subst. auto. }
    destruct s as [|a r]. { inversion H; subst. auto. }
    match type of H with (match ?b with _ => _ end) = _ => destruct b as [[args rest]|] eqn:Etry end.
    - destruct (replace_call_aux f name ps tmpl _ rest) as [t' c'] eqn:E in H.
      remember (expand_template (S (String.length tmpl)) tmpl ps args) as ex eqn:Hex.
      injection H as H1 H2. subst t c. split; [|discriminate].
      match type of Etry with (if ?b then _ else _) = _ => destruct b; [|discriminate] end.
      destruct (drop_suffix (String.length name) (String a r)) as [z0 Hz0].
      destruct (skip_blanks_suffix (string_drop (String.length name) (String a r))) as [w Hw].
      destruct (skip_blanks (string_drop (String.length name) (String a r))) as [|c0 r0]; [discriminate|].
      destruct (Ascii.eqb c0 "("); [|discriminate].
      apply capture_args_split in Etry. destruct Etry as [[m Hm] Hargs].
      assert (Hz : String a r = ((z0 ++ w) ++ String c0 "") ++ r0).
      { rewrite Hz0 at 1. rewrite Hw at 1. rewrite !app_assoc_s. reflexivity. }
      remember ((z0 ++ w) ++ String c0 "") as z eqn:Ez. clear Ez Hz0 Hw.
      apply P_ins.
      + rewrite Hex. apply nlfree_expand_template; [|exact Ht].
        apply Forall_forall. intros arg Hin. destruct (Hargs arg Hin) as [x [y [Hxy Hy]]].
        rewrite Hxy in Hz. rewrite Hz in Hs. rewrite <- app_assoc_s in Hs.
        eapply P_mid; [exact Hs|exact Hy].
      + eapply IHf; [exact E|]. rewrite Hm in Hz. rewrite Hz in Hs.
        rewrite <- app_assoc_s in Hs. eapply P_suffix; exact Hs.
    - destruct (replace_call_aux f name ps tmpl (Some a) r) as [t' c'] eqn:E.
      inversion H; subst. split; [|discriminate].
      assert (Hr : P r = true) by (apply (P_suffix (String a "") r); exact Hs).
      destruct (IHf _ _ _ _ E Hr) as [Ht' Hemp].
      apply (P_copy a r t'); assumption.
  Qed.

  Lemma apply_macro_P (m : macro) (s : string) :
    macro_ok m -> P s = true -> P (fst (apply_macro m s)) = true.
  Proof.
    unfold macro_ok, apply_macro. intros Hm Hs. destruct (snd m) as [v|ps t].
    - unfold replace_word. destruct (replace_word_aux _ _ _ _ _) as [t c] eqn:E.
      exact (proj1 (replace_word_aux_P _ _ Hm _ _ _ _ _ E Hs)).
    - unfold replace_call. destruct (replace_call_aux _ _ _ _ _ _) as [t' c] eqn:E.
      exact (proj1 (replace_call_aux_P _ _ _ Hm _ _ _ _ _ E Hs)).
  Qed.

  Lemma apply_all_P (ms : list macro) (orig : string) :
    macros_ok ms -> forall res c, P res = true -> P (fst (apply_all ms orig res c)) = true.
  Proof.
    induction ms as [|m r IH]; intros Hms res c Hres; cbn [apply_all]; [exact Hres|].
    inversion Hms; subst.
    destruct (macro_matches m orig); [|apply IH; assumption].
    destruct (apply_macro m res) as [res' c'] eqn:E.
    apply IH; [assumption|]. change res' with (fst (res', c')). rewrite <- E.
    apply apply_macro_P; assumption.
  Qed.

  Lemma replace_rounds_P (ms : list macro) :
    macros_ok ms -> forall n orig res, P res = true -> P (replace_rounds n ms orig res) = true.
  Proof.
    intros Hms. induction n as [|n IHn]; intros orig res Hres; cbn [replace_rounds]; [exact Hres|].
    destruct (apply_all ms orig res false) as [res' c] eqn:E.
    assert (Hres' : P res' = true).
    { change res' with (fst (res', c)). rewrite <- E. apply apply_all_P; assumption. }
    destruct c; [apply IHn; exact Hres' | exact Hres'].
  Qed.

  Lemma replace_all_P (ms : list macro) (s : string) :
    macros_ok ms -> P s = true -> P (replace_all ms s) = true.
  Proof. intros. unfold replace_all. apply replace_rounds_P; assumption. Qed.

  Lemma replace_all_c_P (ms : list macro) (s : string) :
    macros_ok ms -> P s = true -> P (replace_all_c ms s) = true.
  Proof.
    intros. unfold replace_all_c. destruct (replace_rounds_c_rounds ms 64 s s) as [m ->].
    apply replace_rounds_P; assumption.
  Qed.
End Replace.

Lemma replace_all_nlfree (ms : list macro) (s : string) :
  macros_ok ms -> nlfree s = true -> nlfree (replace_all ms s) = true.
Proof. apply replace_all_P, nlfree_line_pred. Qed.

Lemma replace_all_one_line (ms : list macro) (s : string) :
  macros_ok ms -> one_line s = true -> one_line (replace_all ms s) = true.
Proof. apply replace_all_P, one_line_line_pred. Qed.

Lemma replace_all_c_nlfree (ms : list macro) (s : string) :
  macros_ok ms -> nlfree s = true -> nlfree (replace_all_c ms s) = true.
Proof. apply replace_all_c_P, nlfree_line_pred. Qed.

Lemma replace_all_c_one_line (ms : list macro) (s : string) :
  macros_ok ms -> one_line s = true -> one_line (replace_all_c ms s) = true.
Proof. apply replace_all_c_P, one_line_line_pred. Qed.

Lemma replace_word_nlfree (name value s : string) :
  nlfree value = true -> nlfree s = true -> nlfree (fst (replace_word name value s)) = true.
Proof. exact (apply_macro_P nlfree nlfree_line_pred (name, MObj value) s). Qed.

Lemma nlfree_take_word (s w t : string) :
  take_word s = (w, t) -> nlfree s = true -> nlfree w = true /\ nlfree t = true.
Proof.
  intros E H. apply take_word_split in E. subst. rewrite nlfree_app in H.
  apply andb_true_iff in H. exact H.
Qed.

Lemma nlfree_find_ident (s w t : string) :
  find_ident s = Some (w, t) -> nlfree s = true -> nlfree t = true.
Proof.
  revert w t. induction s; intros w t H Hs; cbn [find_ident] in H; [discriminate|].
  destruct (is_alpha a || Ascii.eqb a "_").
  - destruct (take_word (String a s)) as [w' t'] eqn:E. inversion H; subst.
    eapply nlfree_take_word in E; eauto. apply E.
  - apply andb_true_iff in Hs. eapply IHs; [exact H|apply Hs].
Qed.

Lemma nlfree_parse_params (f : nat) : forall (s : string) (acc ps : list string) (rest : string),
  parse_params f s acc = Some (ps, rest) -> nlfree s = true ->
  Forall (fun p => nlfree p = true) acc ->
  Forall (fun p => nlfree p = true) ps /\ nlfree rest = true.
Proof.
  induction f; intros s acc ps rest H Hs Hacc; cbn [parse_params] in H; [discriminate|].
  destruct s as [|a r]; [discriminate|].
  destruct (Ascii.eqb a ")").
  { inversion H; subst. split; [apply Forall_rev; exact Hacc|].
    cbn [nlfree] in Hs. apply andb_true_iff in Hs. apply Hs. }
  destruct (is_alpha a || Ascii.eqb a "_"); [|discriminate].
  destruct (take_word (String a r)) as [w rest0] eqn:E.
  eapply nlfree_take_word in E; [|exact Hs]. destruct E as [Hw Hrest0].
  pose proof (nlfree_trim_start _ Hrest0) as Htr.
  destruct (trim_start rest0) as [|c r']; [discriminate|].
  assert (Hr' : nlfree r' = true).
  { apply andb_true_iff in Htr. apply Htr. }
  destruct (Ascii.eqb c ",").
  - eapply IHf; [exact H|apply nlfree_trim_start; exact Hr'|constructor; assumption].
  - destruct (Ascii.eqb c ")"); [|discriminate].
    destruct (String.eqb rest0 (String c r')); [|discriminate]. inversion H; subst.
    split; [|exact Hr']. change (rev acc ++ [w])%list with (rev (w :: acc)). apply Forall_rev. constructor; assumption.
Qed.

Lemma nlfree_parse_define (e name : string) (params : option (list string)) (body : string) :
  parse_define e = Some (name, params, body) -> nlfree e = true ->
  nlfree body = true /\ (forall ps, params = Some ps -> Forall (fun p => nlfree p = true) ps).
Proof.
  unfold parse_define. intros H He.
  destruct (find_ident e) as [[nm rest]|] eqn:E; [|discriminate].
  eapply nlfree_find_ident in E; [|exact He].
  assert (Hdefault : Some (nm, @None (list string), trim_start rest) = Some (name, params, body) ->
                     nlfree body = true /\ (forall ps, params = Some ps -> Forall (fun p => nlfree p = true) ps)).
  { intros H0. inversion H0; subst. split; [apply nlfree_trim_start; exact E|discriminate]. }
  destruct rest as [|c r]; [auto|].
  destruct (Ascii.eqb c "(") eqn:Ec.
  - apply Ascii.eqb_eq in Ec. subst c.
    destruct (parse_params (S (String.length r)) r []) as [[ps rest']|] eqn:Ep; [|auto].
    inversion H; subst. eapply nlfree_parse_params in Ep.
    + destruct Ep as [Hps Hrest']. split; [apply nlfree_trim_start; exact Hrest'|].
      intros ps0 H0. inversion H0; subst. exact Hps.
    + apply andb_true_iff in E. apply E.
    + constructor.
  - assert (H' : Some (nm, @None (list string), trim_start (String c r)) = Some (name, params, body)).
    { destruct c as [[] [] [] [] [] [] [] []]; try exact H; discriminate. }
    auto.
Qed.

Lemma nlfree_split_blank (s b t : string) :
  split_blank s = Some (b, t) -> nlfree s = true -> nlfree b = true /\ nlfree t = true.
Proof.
  revert b t. induction s as [|a s IH]; intros b t E H; cbn [split_blank] in E; [discriminate|].
  cbn [nlfree] in H. destruct (is_nl a) eqn:Ea; [discriminate|].
  destruct (is_blank_or_tab a).
  - inversion E; subst. split; [reflexivity|exact H].
  - destruct (split_blank s) as [[b' t']|]; [|discriminate]. inversion E; subst.
    destruct (IH _ _ eq_refl H) as [H1 H2]. split; [cbn [nlfree]; rewrite Ea; exact H1|exact H2].
Qed.

Lemma nlfree_directive_parts (s e : string) :
  snd (directive_parts s) = Some e -> nlfree s = true -> nlfree e = true.
Proof.
  unfold directive_parts. intros H Hs.
  pose proof (nlfree_before "//" s Hs) as Hb.
  destruct (split_blank (before "//" s)) as [[w r]|] eqn:E; [|discriminate].
  eapply nlfree_split_blank in E; [|exact Hb]. destruct E as [_ Hr].
  cbn [snd] in H. destruct (String.eqb (trim r) ""); [discriminate|].
  inversion H; subst. apply nlfree_trim. exact Hr.
Qed.

Lemma take_alpha_split (s w rest : string) : take_alpha s = (w, rest) -> s = w ++ rest.
Proof.
  revert w rest. induction s as [|a s IH]; intros w rest H; cbn [take_alpha] in H.
  - inversion H; subst. reflexivity.
  - destruct (is_alpha a).
    + destruct (take_alpha s) as [w' t']. inversion H; subst. rewrite (IH _ _ eq_refl) at 1. reflexivity.
    + inversion H; subst. reflexivity.
Qed.

Lemma nlfree_directive_name_arg (s e : string) :
  snd (directive_name_arg s) = Some e -> nlfree s = true -> nlfree e = true.
Proof.
  unfold directive_name_arg. intros H Hs.
  pose proof (nlfree_before "//" s Hs) as Hb.
  destruct (before "//" s) as [|h r]; [discriminate|]. cbv beta iota zeta in H.
  destruct (take_alpha r) as [w rest] eqn:E. apply take_alpha_split in E.
  cbn [snd] in H. destruct (String.eqb (trim rest) ""); [discriminate|].
  inversion H; subst e. apply nlfree_trim.
  cbn [nlfree] in Hb. apply andb_true_iff in Hb. destruct Hb as [_ Hb].
  rewrite E in Hb. eapply nlfree_app_r; exact Hb.
Qed.

Lemma one_line_hash_blanks (out : string) : one_line out = true -> one_line (hash_blanks out) = true.
Proof.
  intros H. unfold hash_blanks. pose proof (one_line_trim_start _ H) as Ht.
  destruct (trim_start out) as [|h rest]; [exact H|].
  destruct (Ascii.eqb h "#") eqn:Eh; [|exact H].
  destruct (Nat.eqb (String.length (trim_start rest)) (String.length rest)); [exact H|].
  apply Ascii.eqb_eq in Eh. subst h.
  change (one_line rest = true) in Ht. change (one_line (trim_start rest) = true).
  apply one_line_trim_start. exact Ht.
Qed.

Lemma nlfree_remove_hashhash (f : nat) (s : string) :
  nlfree s = true -> nlfree (remove_hashhash f s) = true.
Proof.
  revert s. induction f; intros s H; cbn [remove_hashhash]; [exact H|].
  destruct s as [|a r]; [reflexivity|].
  cbn [nlfree] in H. apply andb_true_iff in H. destruct H as [Ha Hr].
  assert (Hcopy : nlfree (String a (remove_hashhash f r)) = true).
  { cbn [nlfree]. rewrite Ha, IHf by exact Hr. reflexivity. }
  destruct (Ascii.eqb a "#") eqn:Ea.
  - apply Ascii.eqb_eq in Ea. subst a.
    destruct r as [|b r']; [exact Hcopy|].
    destruct (Ascii.eqb b "#") eqn:Eb.
    + apply Ascii.eqb_eq in Eb. subst b. apply IHf.
      cbn [nlfree] in Hr. apply andb_true_iff in Hr. apply Hr.
    + destruct b as [[] [] [] [] [] [] [] []]; try exact Hcopy; discriminate.
  - destruct a as [[] [] [] [] [] [] [] []]; try exact Hcopy; discriminate.
Qed.

Lemma nlfree_templatize (ps : list string) (body : string) :
  Forall (fun p => nlfree p = true) ps -> nlfree body = true -> nlfree (templatize ps body) = true.
Proof.
  intros Hps Hb. unfold templatize. apply nlfree_remove_hashhash.
  revert body Hb. induction Hps; intros body Hb; cbn [fold_left]; [exact Hb|].
  apply IHHps. apply replace_word_nlfree; [|exact Hb]. exact H.
Qed.

Lemma macros_ok_undefine (ms : list macro) (n : string) : macros_ok ms -> macros_ok (undefine ms n).
Proof.
  unfold undefine. induction ms as [|[k v] r IH]; intros H; [exact H|].
  inversion H; subst. destruct (String.eqb k n); [assumption|]. constructor; [assumption|apply IH; assumption].
Qed.

Lemma macros_ok_init (defs : list (string * string)) :
  macros_single_line defs -> macros_ok (c_macros (init_ctx defs)).
Proof.
  unfold macros_single_line, init_ctx. induction 1; cbn [map]; constructor; auto.
Qed.

(** Three sub-expressions of [Cpp.line_body], copied out so that [line_step_cases] can name what a
    line does: [emit_text] is the [text] of its last branch (an ordinary line in state Active),
    [inc_pre] and [inc_post] are the [p1] and the [p4] (over [p3]) of its #include branch.  They
    have to follow [line_body] word for word: [line_step_cases] identifies them by [reflexivity]. *)
Definition emit_text (ms : list macro) (out buf : string) (inc : option (string * N)) : string :=
  let new_line := replace_all_c ms out in
  let included := match inc with Some _ => true | None => false end in
  if negb (ends_with nl new_line) && (ends_with nl buf || included) then new_line ++ nl else new_line.

Definition inc_pre (ps : pstate) (h : loc) (iname : string) : pstate :=
  if is_asm_file iname
  then emit (emit ps h ("=== ASSEMBLER BEGIN ===" ++ nl)) h ("; file: " ++ iname ++ nl)
  else ps.

Definition inc_post (ps p1 p2 : pstate) (h : loc) (iname : string) : pstate :=
  let p3 := mkP (mkCtx (c_macros (p_ctx p2))
                       (mkScan (sc_in_comment (c_scan (p_ctx p1)))
                               (sc_next_lit (c_scan (p_ctx p2)))
                               (sc_lits (c_scan (p_ctx p2)))))
                (p_out p2) (p_map p2) (p_state ps) (p_stack ps) in
  if is_asm_file iname then emit p3 h ("==== ASSEMBLER END ====" ++ nl) else p3.

(** text and table as they were; the macro table (the same, one entry less, or one more) is still
    free of newlines when the scanned line [out] was one line *)
Definition quiet_step (ms : list macro) (out : string) (p p' : pstate) : Prop :=
  p_out p' = p_out p /\ p_map p' = p_map p /\
  (macros_ok ms -> one_line out = true -> macros_ok (c_macros (p_ctx p'))).

Definition include_step (rec : string -> option (string * N) -> bool -> list string -> pstate -> presult)
           (fs : files) (ms : list macro) (out : string) (ps : pstate) (h : loc) (p' : pstate) : Prop :=
  exists e c iname tl ilines p2,
    snd (directive_name_arg (trim (replace_all_c ms out))) = Some e /\
    split_once c (string_drop 1 e) = Some (iname, tl) /\
    find_file fs iname = Some ilines /\
    rec iname (Some (fst (fst h), snd (fst h))) (is_asm_file iname) ilines (inc_pre ps h iname) = POk p2 /\
    p' = inc_post ps (inc_pre ps h iname) p2 h iname.

(** for a branch of [line_body] whose result has the text, the table and the macros of [p]: it is
    the [quiet_step] case *)
Ltac quiet_same H :=
  inversion H; subst; left; split; [reflexivity|split; [reflexivity|intros Hms _; exact Hms]].

Lemma line_step_cases rec fs fname inc asm p line buf p' :
  line_step rec fs fname inc asm p line buf = POk p' ->
  exists out0 ins sc,
    scan_parts (scan_line asm buf (c_scan (p_ctx p))) = (out0, ins, sc) /\
    let out := hash_blanks out0 in
    (quiet_step (c_macros (p_ctx p)) out p p' \/
     p' = emit (set_scan p sc) (fname, line, inc) (emit_text (c_macros (p_ctx p)) out buf inc) \/
     include_step rec fs (c_macros (p_ctx p)) out (set_scan p sc) (fname, line, inc) p').
Proof.
  intros H. unfold line_step in H.
  assert (Hbody : exists out ins sc,
             scan_parts (scan_line asm buf (c_scan (p_ctx p))) = (out, ins, sc) /\
             line_body rec fs fname inc p line buf out ins sc = POk p').
  { destruct (scan_line asm buf (c_scan (p_ctx p))) as [out ins sc|out ins sc] eqn:Escan.
    - exists out, ins, sc. split; [reflexivity|exact H].
    - destruct (cstate_eqb (p_state p) Active); [discriminate|].
      exists out, ins, sc. split; [reflexivity|exact H]. }
  clear H. destruct Hbody as [out0 [ins [sc [Escan H]]]].
  exists out0, ins, sc. split; [exact Escan|].
  unfold line_body in H. unfold err in H.
  remember (hash_blanks out0) as out eqn:Eout. clear Eout Escan.
  destruct ins; cbn [negb] in H.
  2:{ quiet_same H. }
  change (c_macros (p_ctx (set_scan p sc))) with (c_macros (p_ctx p)) in H.
  change (p_state (set_scan p sc)) with (p_state p) in H.
  destruct (starts_with "#ifdef" (trim out)).
  { destruct (snd (directive_parts (trim out))); [|discriminate]. quiet_same H. }
  destruct (starts_with "#ifndef" (trim out)).
  { destruct (snd (directive_parts (trim out))); [|discriminate]. quiet_same H. }
  destruct (starts_with "#undef" (trim out)).
  { destruct (cstate_eqb (p_state p) Active); [|quiet_same H].
    destruct (snd (directive_parts (trim out))) as [e|]; [|discriminate].
    destruct (get_macro (c_macros (p_ctx p)) e); [|quiet_same H].
    inversion H; subst. left. split; [reflexivity|split; [reflexivity|]].
    intros Hms _. apply macros_ok_undefine. exact Hms. }
  destruct (starts_with "#define" (trim out)).
  { destruct (cstate_eqb (p_state p) Active); [|quiet_same H].
    destruct (snd (directive_parts (trim out))) as [e|] eqn:Edp; [|discriminate].
    destruct (parse_define e) as [[[name params] body]|] eqn:Epd; [|discriminate].
    destruct (get_macro (c_macros (p_ctx p)) name); [discriminate|].
    match type of H with
      match ?d with Some _ => _ | None => _ end = _ => destruct d; [discriminate|]
    end.
    inversion H; subst. left. split; [reflexivity|split; [reflexivity|]].
    intros Hms Ho. apply Forall_app. split; [exact Hms|]. constructor; [|constructor].
    pose proof (nlfree_directive_parts _ _ Edp (one_line_trim _ Ho)) as He.
    destruct (nlfree_parse_define _ _ _ _ Epd He) as [Hb Hps].
    pose proof (replace_all_c_nlfree _ body Hms Hb) as Hv.
    destruct params as [ps|]; unfold macro_ok; cbn [snd]; [|exact Hv].
    apply nlfree_templatize; [apply Hps; reflexivity|exact Hv]. }
  destruct (starts_with "#" (trim (replace_all_c (c_macros (p_ctx p)) out))).
  2:{ destruct (cstate_eqb (p_state p) Active); [|quiet_same H].
      inversion H; subst. right; left. reflexivity. }
  destruct (directive_name_arg (trim (replace_all_c (c_macros (p_ctx p)) out))) as [name arg] eqn:Edp.
  destruct (String.eqb name "#include").
  { destruct (cstate_eqb (p_state p) Active); [|quiet_same H].
    destruct arg as [e|]; [|discriminate].
    match type of H with
      match ?cl with _ => _ end = _ => destruct cl as [c|]; [|discriminate]
    end.
    destruct (split_once c (string_drop 1 e)) as [[iname tl]|] eqn:Eso; [|discriminate].
    destruct (find_file fs iname) as [ilines|] eqn:Eff; [|discriminate].
    match type of H with
      match ?r with _ => _ end = _ => destruct r as [p2|] eqn:Erec; [|discriminate]
    end.
    inversion H; subst. right; right.
    exists e, c, iname, tl, ilines, p2.
    split; [rewrite Edp; reflexivity|]. split; [assumption|]. split; [assumption|].
    split; [exact Erec|reflexivity]. }
  destruct (String.eqb name "#if").
  { destruct (cstate_eqb (p_state p) Active); [|quiet_same H]. destruct arg; [|discriminate].
    destruct (evaluate s); [|discriminate]. quiet_same H. }
  destruct (String.eqb name "#elif").
  { destruct (cstate_eqb (p_state p) Inactive); [|quiet_same H]. destruct arg; [|discriminate].
    destruct (evaluate s); [|discriminate]. quiet_same H. }
  destruct (String.eqb name "#else").
  { destruct arg; [discriminate|]. quiet_same H. }
  destruct (String.eqb name "#endif").
  { destruct arg; [discriminate|]. destruct (p_stack (set_scan p sc)); [discriminate|]. quiet_same H. }
  destruct (String.eqb name "#error").
  { destruct (cstate_eqb (p_state p) Active); [|quiet_same H]. destruct arg; discriminate. }
  destruct (cstate_eqb (p_state p) Active); [discriminate|quiet_same H].
Qed.

(** The invariant of the run in two strengths, both with a macro table free of newlines.  [Sinv]: the
    text is complete and has as many newlines as the table has entries; every line needs it of the
    state it starts in, and restores it when what it emitted was terminated.  [Winv] is what is left
    after the one line that may not be, the last of the main file; nothing is processed after it,
    so [Winv] is only ever a conclusion. *)
Definition Sinv (p : pstate) : Prop :=
  macros_ok (c_macros (p_ctx p)) /\ complete (p_out p) = true /\
  List.length (p_map p) = count_nl (p_out p).

Definition Winv (p : pstate) : Prop := macros_ok (c_macros (p_ctx p)) /\ entries_cover_lines p.

Lemma Sinv_Winv p : Sinv p -> Winv p.
Proof. intros [H1 [H2 H3]]. split; [exact H1|]. unfold entries_cover_lines. rewrite H2, H3. lia. Qed.

Lemma Sinv_match p : Sinv p -> entries_match_lines p.
Proof. intros [H1 [H2 H3]]. unfold entries_match_lines. rewrite H2, H3. lia. Qed.

Lemma Sinv_emit_full p l text :
  Sinv p -> one_line text = true -> ends_nl text = true -> Sinv (emit p l text).
Proof.
  intros [H1 [H2 H3]] Ho He. unfold Sinv, emit. cbn [p_ctx p_out p_map].
  split; [exact H1|]. split; [apply complete_app; exact He|].
  rewrite count_nl_app, (one_line_count _ Ho), He. cbn [List.length]. lia.
Qed.

Lemma Winv_emit_partial p l text :
  Sinv p -> one_line text = true -> ends_nl text = false -> Winv (emit p l text).
Proof.
  intros [H1 [H2 H3]] Ho He. unfold Winv, entries_cover_lines, emit. cbn [p_ctx p_out p_map].
  split; [exact H1|].
  rewrite count_nl_app, (one_line_count _ Ho), He. cbn [List.length].
  destruct (complete (p_out p ++ text)); lia.
Qed.

Lemma one_line_not_ends (s : string) : one_line s = true -> ends_nl s = false -> nlfree s = true.
Proof.
  intros H E. destruct (one_line_cases s H) as [F|[s' [-> F]]]; [exact F|].
  rewrite ends_nl_app_nl in E. discriminate.
Qed.

Lemma emit_text_line (ms : list macro) (out buf : string) (inc : option (string * N)) :
  macros_ok ms -> one_line out = true ->
  one_line (emit_text ms out buf inc) = true /\
  (ends_nl buf = true \/ inc <> None -> ends_nl (emit_text ms out buf inc) = true).
Proof.
  intros Hms Ho. unfold emit_text.
  pose proof (replace_all_c_one_line ms out Hms Ho) as Hn.
  rewrite !ends_with_nl.
  destruct (ends_nl (replace_all_c ms out)) eqn:E; cbn [negb andb].
  - split; [exact Hn|auto].
  - destruct (ends_nl buf || match inc with Some _ => true | None => false end) eqn:Eb.
    + split; [|intros _; apply ends_nl_app_nl].
      rewrite one_line_nlfree_app; [reflexivity|]. apply one_line_not_ends; assumption.
    + split; [exact Hn|]. apply orb_false_iff in Eb. destruct Eb as [Eb1 Eb2].
      intros [Hb|Hi]; [rewrite Hb in Eb1; discriminate|]. destruct inc; [discriminate|congruence].
Qed.

(** what [line_step] and [go] assume of the function [rec] that processes an included file: the
    induction hypothesis over the include depth, which [process_L1] discharges with [process d] *)
Definition rec_ok (rec : string -> option (string * N) -> bool -> list string -> pstate -> presult)
           (fs : files) : Prop :=
  forall iname inc a ilines p p2,
    find_file fs iname = Some ilines -> inc <> None -> Sinv p ->
    rec iname inc a ilines p = POk p2 -> Sinv p2.

Lemma Sinv_emit_marker p l (s : string) : Sinv p -> nlfree s = true -> Sinv (emit p l (s ++ nl)).
Proof.
  intros H Hs. apply Sinv_emit_full; [exact H| |apply ends_nl_app_nl].
  rewrite one_line_nlfree_app by exact Hs. reflexivity.
Qed.

Lemma Sinv_inc_pre ps h iname : Sinv ps -> nlfree iname = true -> Sinv (inc_pre ps h iname).
Proof.
  intros H Hn. unfold inc_pre. destruct (is_asm_file iname); [|exact H].
  apply (Sinv_emit_marker _ _ ("; file: " ++ iname)); [|rewrite nlfree_app, Hn; reflexivity].
  apply (Sinv_emit_marker _ _ "=== ASSEMBLER BEGIN ==="); [exact H|reflexivity].
Qed.

Lemma Sinv_inc_post ps p1 p2 h iname : Sinv p2 -> Sinv (inc_post ps p1 p2 h iname).
Proof.
  intros H. unfold inc_post.
  match goal with |- Sinv (if _ then emit ?p3 _ _ else _) => assert (H3 : Sinv p3) by exact H end.
  destruct (is_asm_file iname); [|exact H3].
  apply (Sinv_emit_marker _ _ "==== ASSEMBLER END ===="); [exact H3|reflexivity].
Qed.

Lemma line_step_L1 rec fs fname inc asm p line buf p' :
  rec_ok rec fs -> Sinv p -> one_line buf = true ->
  line_step rec fs fname inc asm p line buf = POk p' ->
  Winv p' /\ (ends_nl buf = true \/ inc <> None -> Sinv p').
Proof.
  intros Hrec HS Hbuf H.
  apply line_step_cases in H. destruct H as [out0 [ins [sc [Hscan H]]]].
  pose proof (one_line_hash_blanks _ (scan_line_one_line_parts _ _ _ _ _ _ Hscan Hbuf)) as Hout.
  remember (hash_blanks out0) as out eqn:Eout. clear Eout Hscan.
  pose proof HS as [Hms [Hc Hl]].
  (* [Sinv p'] holds outright in every case but one, a line emitted without newline *)
  assert (Hstrong : Sinv p' -> Winv p' /\ (ends_nl buf = true \/ inc <> None -> Sinv p')).
  { intros HS'. split; [apply Sinv_Winv|intros _]; exact HS'. }
  destruct H as [Hq|[He|Hi]].
  - destruct Hq as [Hq1 [Hq2 Hq3]]. apply Hstrong.
    split; [exact (Hq3 Hms Hout)|]. rewrite Hq1, Hq2. auto.
  - subst p'. destruct (emit_text_line _ out buf inc Hms Hout) as [Hol Hen].
    destruct (ends_nl (emit_text (c_macros (p_ctx p)) out buf inc)) eqn:E.
    + apply Hstrong, Sinv_emit_full; [exact HS|exact Hol|exact E].
    + split.
      * apply Winv_emit_partial; [exact HS|exact Hol|exact E].
      * intros Hb. specialize (Hen Hb). congruence.
  - destruct Hi as [e [c [iname [tl [ilines [p2 [Hdp [Hso [Hff [Hr ->]]]]]]]]]].
    apply Hstrong, Sinv_inc_post. refine (Hrec _ _ _ _ _ _ Hff _ _ Hr); [discriminate|].
    apply Sinv_inc_pre; [exact HS|].
    apply nlfree_directive_name_arg in Hdp; [|apply one_line_trim, replace_all_c_one_line; assumption].
    eapply nlfree_split_once in Hso; [apply Hso|]. apply nlfree_drop. exact Hdp.
Qed.

Lemma stripped_nlfree (suf buf : string) :
  suf <> "" -> ends_with suf buf = true -> one_line buf = true ->
  nlfree (string_take (String.length buf - String.length suf) buf) = true.
Proof.
  intros Hsuf He Ho. destruct (ends_with_inv _ _ He) as [x ->].
  rewrite length_app_s, Nat.add_sub, take_length_app.
  exact (one_line_app_nonempty _ _ Ho Hsuf).
Qed.

Lemma lines_terminated_tail l r : lines_terminated (l :: r) -> lines_terminated r.
Proof. intros [_ H]. exact H. Qed.

Lemma splice_props (f : nat) : forall buf rest extra b e r,
  splice f buf rest extra = (b, e, r) ->
  one_line buf = true -> lines_single rest ->
  one_line b = true /\ lines_single r.
Proof.
  induction f; intros buf rest extra b e r H Hb Hs; cbn [splice] in H.
  { inversion H; subst. auto. }
  destruct (ends_with ("\" ++ nl) buf || ends_with ("\" ++ cr ++ nl) buf) eqn:Econt.
  2:{ inversion H; subst. auto. }
  assert (Hstr : nlfree (string_take (String.length buf -
              (if ends_with ("\" ++ cr ++ nl) buf then 3 else 2)) buf) = true).
  { destruct (ends_with ("\" ++ cr ++ nl) buf) eqn:Ecr.
    - apply (stripped_nlfree ("\" ++ cr ++ nl) buf); [discriminate|exact Ecr|exact Hb].
    - rewrite orb_false_r in Econt.
      apply (stripped_nlfree ("\" ++ nl) buf); [discriminate|exact Econt|exact Hb]. }
  remember (string_take (String.length buf - (if ends_with ("\" ++ cr ++ nl) buf then 3 else 2)) buf)
    as stripped.
  destruct rest as [|l r0].
  - inversion H; subst b e r. split; [apply nlfree_one_line; exact Hstr|constructor].
  - inversion Hs as [|l' r' Hl1 Hr1]; subst.
    apply IHf in H; [exact H| |assumption].
    rewrite one_line_nlfree_app by exact Hstr. assumption.
Qed.

Lemma splice_term (f : nat) : forall buf rest extra b e r,
  splice f buf rest extra = (b, e, r) ->
  lines_terminated (buf :: rest) -> lines_terminated (b :: r).
Proof.
  induction f; intros buf rest extra b e r H Ht; cbn [splice] in H.
  { inversion H; subst. auto. }
  destruct (ends_with ("\" ++ nl) buf || ends_with ("\" ++ cr ++ nl) buf).
  2:{ inversion H; subst. auto. }
  destruct rest as [|l r0].
  - inversion H; subst b e r. split; exact I.
  - apply IHf in H; [exact H|].
    destruct Ht as [_ [Hl Hr0]]. split; [|exact Hr0].
    destruct r0; [exact I|]. rewrite ends_nl_app; [exact Hl|]. apply ends_nl_nonempty. exact Hl.
Qed.

Lemma go_L1 rec fs fname inc asm (Hrec : rec_ok rec fs) :
  forall fuel ls line p p',
    lines_single ls -> inc <> None \/ lines_terminated ls -> Sinv p ->
    go rec fs fname inc asm fuel ls line p = POk p' ->
    Winv p' /\ (inc <> None \/ closed_aux fuel ls -> Sinv p').
Proof.
  induction fuel; intros ls line p p' Hs Ht HS H; cbn [go] in H.
  { inversion H; subst. split; [apply Sinv_Winv|intros _]; exact HS. }
  destruct ls as [|l0 rest0].
  { inversion H; subst. split; [apply Sinv_Winv|intros _]; exact HS. }
  cbn [closed_aux].
  destruct (splice (S (List.length rest0)) l0 rest0 0%N) as [[buf extra] rest] eqn:Espl.
  inversion Hs; subst.
  assert (Htr : inc <> None \/ lines_terminated (buf :: rest)).
  { destruct Ht as [Hi|Ht]; [left; exact Hi|right]. eapply splice_term; [exact Espl|exact Ht]. }
  apply splice_props in Espl; try assumption.
  destruct Espl as [Hb Hsr].
  destruct (line_step rec fs fname inc asm p (line + 1 + extra)%N buf) as [p1|] eqn:Estep; [|discriminate].
  apply line_step_L1 in Estep; try assumption. destruct Estep as [HW HSn].
  destruct rest as [|x r].
  - assert (p' = p1) by (destruct fuel; cbn [go] in H; congruence). subst p'.
    split; [exact HW|]. intros [Hi|Hc]; apply HSn; [right; exact Hi|left; exact Hc].
  - assert (HS1 : Sinv p1).
    { apply HSn. destruct Htr as [Hi|[Hen _]]; [right; exact Hi|left; exact Hen]. }
    eapply IHfuel; [exact Hsr| |exact HS1|exact H].
    destruct Htr as [Hi|[_ Htr]]; [left; exact Hi|right; exact Htr].
Qed.

Lemma find_file_In (fs : files) (n : string) (v : list string) :
  find_file fs n = Some v -> exists k, In (k, v) fs.
Proof.
  induction fs as [|[k w] r IH]; cbn [find_file]; intros H; [discriminate|].
  destruct (String.eqb k n).
  - inversion H; subst. exists k. left. reflexivity.
  - destruct (IH H) as [k' Hk]. exists k'. right. exact Hk.
Qed.

Lemma process_L1 (fs : files) (Hfs : Forall (fun f => lines_single (snd f)) fs) :
  forall d fname inc asm lines p0 p,
    lines_single lines -> inc <> None \/ lines_terminated lines -> Sinv p0 ->
    process d fs fname inc asm lines p0 = POk p ->
    Winv p /\ (inc <> None \/ file_closed lines -> Sinv p).
Proof.
  induction d; intros fname inc asm lines p0 p Hs Ht HS H; cbn [process] in H; [discriminate|].
  eapply go_L1 with (p := file_start p0); [|exact Hs|exact Ht|exact HS|exact H].
  intros iname inc' a ilines q q2 Hff Hinc Hq Hr.
  destruct (find_file_In _ _ _ Hff) as [k Hin].
  rewrite Forall_forall in Hfs.
  eapply IHd; [apply (Hfs _ Hin)|left; exact Hinc|exact Hq|exact Hr|left; exact Hinc].
Qed.

Lemma Sinv_init defs : macros_single_line defs -> Sinv (mkP (init_ctx defs) "" [] Active []).
Proof. intros H. split; [apply macros_ok_init; exact H|]. split; reflexivity. Qed.

(* [list_scope] opened last: in the statements about [p_map] that follow [++] is [app]; in the
   text lemmas above it was [append] *)
Open Scope string_scope.
Open Scope list_scope.

(** the same induction hypothesis over the include depth as [rec_ok], for the origin of the entries
    ([include_entries_origin] discharges it) *)
Definition rec_origin (rec : string -> option (string * N) -> bool -> list string -> pstate -> presult)
           (fs : files) : Prop :=
  forall iname inc a ilines p p2,
    rec iname inc a ilines p = POk p2 ->
    exists new, p_map p2 = new ++ p_map p /\ Forall (origin fs iname inc ilines) new.

Lemma splice_len (f : nat) : forall buf rest extra b e r,
  splice f buf rest extra = (b, e, r) ->
  (e + N.of_nat (List.length r) = extra + N.of_nat (List.length rest))%N.
Proof.
  induction f; intros buf rest extra b e r H; cbn [splice] in H.
  { inversion H; subst. reflexivity. }
  destruct (ends_with ("\" ++ nl) buf || ends_with ("\" ++ cr ++ nl) buf).
  2:{ inversion H; subst. reflexivity. }
  destruct rest as [|l r0].
  - inversion H; subst. reflexivity.
  - apply IHf in H. cbn [List.length]. lia.
Qed.

Lemma inc_pre_map ps h iname :
  exists pre, p_map (inc_pre ps h iname) = pre ++ p_map ps /\ Forall (fun e => e = h) pre.
Proof.
  unfold inc_pre. destruct (is_asm_file iname).
  - exists [h; h]. split; [reflexivity|repeat constructor].
  - exists []. split; [reflexivity|constructor].
Qed.

Lemma inc_post_map ps p1 p2 h iname :
  exists post, p_map (inc_post ps p1 p2 h iname) = post ++ p_map p2 /\ Forall (fun e => e = h) post.
Proof.
  unfold inc_post. destruct (is_asm_file iname).
  - exists [h]. split; [reflexivity|repeat constructor].
  - exists []. split; [reflexivity|constructor].
Qed.

(** what one logical line pushes: an entry of its own, entries with its own place around an
    included assembler file, and what the included file pushed *)
Lemma line_step_entries rec fs fname inc asm p line buf p' :
  rec_origin rec fs ->
  line_step rec fs fname inc asm p line buf = POk p' ->
  exists new, p_map p' = new ++ p_map p /\
    Forall (fun e => e = (fname, line, inc) \/
                     exists g gl, find_file fs g = Some gl /\ origin fs g (Some (fname, line)) gl e) new.
Proof.
  intros Hrec H.
  apply line_step_cases in H. destruct H as [out0 [ins [sc [Hscan H]]]].
  remember (hash_blanks out0) as out eqn:Eout. clear Eout Hscan.
  destruct H as [Hq|[He|Hi]].
  - destruct Hq as [_ [Hq _]]. exists []. split; [exact Hq|constructor].
  - subst p'. exists [(fname, line, inc)]. split; [reflexivity|]. constructor; [left; reflexivity|constructor].
  - destruct Hi as [e [c [iname [tl [ilines [p2 [Hdp [Hso [Hff [Hr ->]]]]]]]]]].
    destruct (inc_pre_map (set_scan p sc) (fname, line, inc) iname) as [pre [Hpre Fpre]].
    destruct (inc_post_map (set_scan p sc) (inc_pre (set_scan p sc) (fname, line, inc) iname) p2
                           (fname, line, inc) iname) as [post [Hpost Fpost]].
    apply Hrec in Hr. destruct Hr as [mid [Hmid Fmid]].
    exists (post ++ mid ++ pre). split.
    + rewrite Hpost, Hmid, Hpre. rewrite <- !app_assoc. reflexivity.
    + apply Forall_app. split; [eapply Forall_impl; [|exact Fpost]; intros; left; assumption|].
      apply Forall_app. split; [|eapply Forall_impl; [|exact Fpre]; intros; left; assumption].
      eapply Forall_impl; [|exact Fmid]. intros e0 He0. right. exists iname, ilines. split; assumption.
Qed.

Lemma line_step_origin rec fs fname inc asm p line buf p' lines :
  rec_origin rec fs ->
  1 <= N.to_nat line <= List.length lines ->
  line_step rec fs fname inc asm p line buf = POk p' ->
  exists new, p_map p' = new ++ p_map p /\ Forall (origin fs fname inc lines) new.
Proof.
  intros Hrec Hline H. destruct (line_step_entries _ _ _ _ _ _ _ _ _ Hrec H) as [new [Hm HF]].
  exists new. split; [exact Hm|]. eapply Forall_impl; [|exact HF].
  intros e [->|[g [gl [Hff Ho]]]]; [constructor; exact Hline|].
  exact (origin_include _ _ _ _ _ _ _ _ Hff Hline Ho).
Qed.

Lemma go_origin rec fs fname inc asm lines (Hrec : rec_origin rec fs) :
  forall fuel ls line p p',
    N.to_nat line + List.length ls <= List.length lines ->
    go rec fs fname inc asm fuel ls line p = POk p' ->
    exists new, p_map p' = new ++ p_map p /\ Forall (origin fs fname inc lines) new.
Proof.
  induction fuel; intros ls line p p' Hlen H; cbn [go] in H.
  { inversion H; subst. exists []. split; [reflexivity|constructor]. }
  destruct ls as [|l0 rest0].
  { inversion H; subst. exists []. split; [reflexivity|constructor]. }
  destruct (splice (S (List.length rest0)) l0 rest0 0%N) as [[buf extra] rest] eqn:Espl.
  apply splice_len in Espl. cbn [List.length] in Hlen.
  destruct (line_step rec fs fname inc asm p (line + 1 + extra)%N buf) as [p1|] eqn:Estep; [|discriminate].
  assert (Hl : 1 <= N.to_nat (line + 1 + extra) <= List.length lines) by lia.
  destruct (line_step_origin _ _ _ _ _ _ _ _ _ lines Hrec Hl Estep) as [new1 [Hm1 F1]].
  apply IHfuel in H; [|lia].
  destruct H as [new2 [Hm2 F2]]. exists (new2 ++ new1). split.
  - rewrite Hm2, Hm1, app_assoc. reflexivity.
  - apply Forall_app. split; assumption.
Qed.

Theorem include_entries_origin : forall d fs fname inc asm lines p0 p
  (Hrun : process d fs fname inc asm lines p0 = POk p),
  exists new, p_map p = (new ++ p_map p0)%list /\ Forall (origin fs fname inc lines) new.
Proof.
  intros d fs. induction d; intros fname inc asm lines p0 p H; cbn [process] in H; [discriminate|].
  change (p_map p0) with (p_map (file_start p0)).
  eapply go_origin; [| |exact H]; [|cbn; lia].
  intros iname inc' a ilines q q2 Hr. eapply IHd; exact Hr.
Qed.
Print Assumptions include_entries_origin.

Lemma origin_inc_some fs fname inc lines e :
  origin fs fname inc lines e -> inc <> None -> loc_inc e <> None.
Proof.
  induction 1; intros Hi; [exact Hi|]. apply IHorigin. discriminate.
Qed.

Lemma origin_none fs fname lines f n :
  origin fs fname None lines (f, n, None) -> f = fname /\ 1 <= N.to_nat n <= List.length lines.
Proof.
  intros H. inversion H; subst.
  - auto.
  - exfalso. eapply origin_inc_some; [eassumption|discriminate|reflexivity].
Qed.

Definition desc (m : list loc) : Prop := StronglySorted (fun a b => (loc_line b < loc_line a)%N) m.
Definition below (n : N) (m : list loc) : Prop := Forall (fun e => (loc_line e <= n)%N) m.

Lemma below_mono n n' m : (n <= n')%N -> below n m -> below n' m.
Proof. intros Hn H. eapply Forall_impl; [|exact H]. cbv beta. intros; lia. Qed.

Lemma line_step_desc rec fname inc asm p line line' buf p' :
  (line < line')%N -> desc (p_map p) -> below line (p_map p) ->
  line_step rec [] fname inc asm p line' buf = POk p' ->
  desc (p_map p') /\ below line' (p_map p').
Proof.
  intros Hlt Hd Hb H.
  apply line_step_cases in H. destruct H as [out0 [ins [sc [Hscan H]]]].
  remember (hash_blanks out0) as out eqn:Eout. clear Eout Hscan.
  destruct H as [Hq|[He|Hi]].
  - destruct Hq as [_ [Hq _]]. rewrite Hq. split; [exact Hd|]. eapply below_mono; [|exact Hb]. lia.
  - subst p'. split.
    + constructor; [exact Hd|]. eapply Forall_impl; [|exact Hb]. unfold loc_line. cbn. intros; lia.
    + constructor; [unfold loc_line; cbn; lia|]. eapply below_mono; [|exact Hb]. lia.
  - destruct Hi as [e [c [iname [tl [ilines [p2 [_ [_ [Hff _]]]]]]]]]. discriminate Hff.
Qed.

Lemma go_desc rec fname inc asm :
  forall fuel ls line p p',
    desc (p_map p) -> below line (p_map p) ->
    go rec [] fname inc asm fuel ls line p = POk p' -> desc (p_map p').
Proof.
  induction fuel; intros ls line p p' Hd Hb H; cbn [go] in H.
  { inversion H; subst. exact Hd. }
  destruct ls as [|l0 rest0]. { inversion H; subst. exact Hd. }
  destruct (splice (S (List.length rest0)) l0 rest0 0%N) as [[buf extra] rest].
  destruct (line_step rec [] fname inc asm p (line + 1 + extra)%N buf) as [p1|] eqn:Estep; [|discriminate].
  assert (Hlt : (line < line + 1 + extra)%N) by lia.
  destruct (line_step_desc _ _ _ _ _ _ _ _ _ Hlt Hd Hb Estep) as [Hd1 Hb1]. eapply IHfuel; [exact Hd1|exact Hb1|exact H].
Qed.

Lemma StronglySorted_app {A} (R : A -> A -> Prop) (l1 l2 : list A) :
  StronglySorted R l1 -> StronglySorted R l2 ->
  (forall a b, In a l1 -> In b l2 -> R a b) -> StronglySorted R (l1 ++ l2).
Proof.
  induction l1 as [|x l1 IH]; intros H1 H2 H; [exact H2|].
  inversion H1; subst. constructor.
  - apply IH; [assumption|assumption|]. intros a b Ha Hb. apply H; [right; exact Ha|exact Hb].
  - apply Forall_app. split; [assumption|]. apply Forall_forall. intros b Hb. apply H; [left; reflexivity|exact Hb].
Qed.

Lemma StronglySorted_rev {A} (R : A -> A -> Prop) (l : list A) :
  StronglySorted (fun a b => R b a) l -> StronglySorted R (rev l).
Proof.
  induction 1 as [|x l Hs IH Hx]; [constructor|].
  cbn [rev]. apply StronglySorted_app; [exact IH|repeat constructor|].
  intros a b Ha [<-|[]]. rewrite Forall_forall in Hx. apply Hx. apply in_rev. exact Ha.
Qed.

Open Scope string_scope.

(** Why [one_entry_per_line] need not ask that the last logical line of an INCLUDED file end with a
    newline.  On these three inputs the unrepaired preprocessor produced a table out of step with
    the text: such a line was glued to the next line of the including file, or left an entry
    without text (known finding F-C06-glued-include-line).  Lines of included files are now always
    terminated ([emit_text] with [inc <> None]), and entries and lines match. *)
Example include_without_final_newline_now_ok :
  let fs := [("a.h", ["int x;"])] in
  let lines := ["#include ""a.h""" ++ nl; "int y;" ++ nl] in
  exists p, run_cpp fs "m.c" [] lines = POk p /\
            p_out p = "int x;" ++ nl ++ "int y;" ++ nl /\
            rev (p_map p) = [("a.h", 1%N, Some ("m.c", 1%N)); ("m.c", 2%N, None)] /\
            entries_match_lines p.
Proof.
  eexists. split; [vm_compute; reflexivity|]. split; [reflexivity|]. split; [reflexivity|].
  unfold entries_match_lines. vm_compute. reflexivity.
Qed.

Example include_ending_in_splice_now_ok :
  let fs := [("a.h", ["int x;\" ++ nl])] in
  let lines := ["#include ""a.h""" ++ nl; "int y;" ++ nl] in
  exists p, run_cpp fs "m.c" [] lines = POk p /\
            p_out p = "int x;" ++ nl ++ "int y;" ++ nl /\
            rev (p_map p) = [("a.h", 1%N, Some ("m.c", 1%N)); ("m.c", 2%N, None)] /\
            entries_match_lines p.
Proof.
  eexists. split; [vm_compute; reflexivity|]. split; [reflexivity|]. split; [reflexivity|].
  unfold entries_match_lines. vm_compute. reflexivity.
Qed.

(** the unterminated last line of the included file expands to nothing: it is now an empty line
    of text with its own entry *)
Example include_empty_last_line_now_ok :
  let fs := [("a.h", ["int x;" ++ nl; "#define E" ++ nl; "E"])] in
  let lines := ["#include ""a.h""" ++ nl; "int y;" ++ nl] in
  exists p, run_cpp fs "m.c" [] lines = POk p /\
            p_out p = "int x;" ++ nl ++ nl ++ "int y;" ++ nl /\
            rev (p_map p) = [("a.h", 1%N, Some ("m.c", 1%N)); ("a.h", 3%N, Some ("m.c", 1%N));
                             ("m.c", 2%N, None)] /\
            entries_match_lines p.
Proof.
  eexists. split; [vm_compute; reflexivity|]. split; [reflexivity|]. split; [reflexivity|].
  unfold entries_match_lines. vm_compute. reflexivity.
Qed.

(** [one_entry_per_line] is false without [Hmain], its other hypotheses kept: the last line of the
    MAIN file, without newline, expands to nothing and leaves an entry with no text (a harmless
    trailing entry: no offset of the text can select it) *)
Example one_entry_per_line_false_empty_last_line :
  let lines := ["#define E" ++ nl; "E"] in
  macros_single_line [] /\ inputs_single_line lines [] /\ physical_lines_terminated lines [] /\
  exists p, run_cpp [] "m.c" [] lines = POk p /\
            p_out p = "" /\ rev (p_map p) = [("m.c", 2%N, None)] /\
            ~ entries_match_lines p.
Proof.
  split; [constructor|]. split; [split; repeat constructor|].
  split; [split; repeat constructor|].
  eexists. split; [vm_compute; reflexivity|]. split; [reflexivity|]. split; [reflexivity|].
  unfold entries_match_lines. vm_compute. discriminate.
Qed.

(** ... and false without [Hterm] ([file_closed lines] does hold here): a physical line in the
    middle of the main file without newline ([read_line] never produces one, but
    [inputs_single_line] as worded allows it) *)
Example one_entry_per_line_false_unterminated_middle_line :
  let lines := ["int a;"; "int b;" ++ nl] in
  macros_single_line [] /\ inputs_single_line lines [] /\
  exists p, run_cpp [] "m.c" [] lines = POk p /\
            p_out p = "int a;int b;" ++ nl /\ List.length (p_map p) = 2 /\
            ~ entries_match_lines p.
Proof.
  split; [constructor|]. split; [split; repeat constructor|].
  eexists. split; [vm_compute; reflexivity|]. split; [reflexivity|]. split; [reflexivity|].
  unfold entries_match_lines. vm_compute. discriminate.
Qed.

(** With the main file's physical lines terminated, the table has an entry for every line of
    text and at most one more; when its last logical line is closed too, exactly one per line. *)
Theorem one_entry_per_line_main_only : forall fs fname defs lines p
  (Hdefs : macros_single_line defs)
  (Hsingle : inputs_single_line lines fs)
  (Hterm : lines_terminated lines)
  (Hrun : run_cpp fs fname defs lines = POk p),
  entries_cover_lines p /\
  (file_closed lines ->
   entries_match_lines p /\ complete (p_out p) = true /\ List.length (p_map p) = count_nl (p_out p)).
Proof.
  intros. destruct Hsingle as [Hs1 Hs2]. unfold run_cpp in Hrun.
  eapply process_L1 in Hrun; [|exact Hs2|exact Hs1|right; exact Hterm|apply Sinv_init; exact Hdefs].
  destruct Hrun as [[_ HW] HS]. split; [exact HW|]. intros Hc.
  assert (HS' : Sinv p) by (apply HS; right; exact Hc).
  split; [apply Sinv_match; exact HS'|exact (proj2 HS')].
Qed.
Print Assumptions one_entry_per_line_main_only.

(** Beside [Hdefs] and [Hsingle] (no stray newline in the inputs), two hypotheses, neither of which
    can go (the two examples above):
    - [Hterm]: every physical line but the last of each file ends with a newline (a [read_line]
      fact; only the main file's half is used);
    - [Hmain]: the last logical line of the main file ends with a newline.
    Included files need no such hypothesis: their lines are terminated by construction.
    Conclusion: [entries_match_lines], and more precisely the text is complete and the table has
    exactly as many entries as the text has newlines. *)
Theorem one_entry_per_line : forall fs fname defs lines p
  (Hdefs : macros_single_line defs)
  (Hsingle : inputs_single_line lines fs)
  (Hterm : physical_lines_terminated lines fs)
  (Hmain : file_closed lines)
  (Hrun : run_cpp fs fname defs lines = POk p),
  entries_match_lines p /\
  complete (p_out p) = true /\ List.length (p_map p) = count_nl (p_out p).
Proof.
  intros. exact (proj2 (one_entry_per_line_main_only _ _ _ _ _ Hdefs Hsingle (proj1 Hterm) Hrun) Hmain).
Qed.
Print Assumptions one_entry_per_line.

(** When the main file's last logical line has no newline, the table still has an entry for every
    line of text, and at most one more (the entry of an empty unterminated last line). *)
Theorem one_entry_per_line_open_main : forall fs fname defs lines p
  (Hdefs : macros_single_line defs)
  (Hsingle : inputs_single_line lines fs)
  (Hterm : physical_lines_terminated lines fs)
  (Hrun : run_cpp fs fname defs lines = POk p),
  entries_cover_lines p.
Proof.
  intros. exact (proj1 (one_entry_per_line_main_only _ _ _ _ _ Hdefs Hsingle (proj1 Hterm) Hrun)).
Qed.
Print Assumptions one_entry_per_line_open_main.

Lemma file_closed_simple (ls : list string) :
  Forall (fun l => ends_nl l = true /\ no_continuation l) ls -> file_closed ls.
Proof.
  unfold file_closed. generalize (S (List.length ls)) as fuel. intros fuel. revert ls.
  induction fuel; intros ls H; cbn [closed_aux]; [exact I|].
  destruct ls as [|l0 rest0]; [exact I|]. inversion H as [|x y [He Hn] Hr]; subst.
  rewrite (splice_none _ _ _ _ (proj1 Hn) (proj2 Hn)).
  destruct rest0; [exact He|]. apply IHfuel. exact Hr.
Qed.

Theorem include_entries : forall d fs fname inc asm lines p0 p
  (Hrun : process d fs fname inc asm lines p0 = POk p),
  exists new, p_map p = (new ++ p_map p0)%list /\
    (forall e, In e new ->
       (fst (fst e) = fname /\ snd e = inc /\ 1 <= N.to_nat (snd (fst e)) <= List.length lines) \/
       (exists g glines k g' k',
           find_file fs g = Some glines /\ 1 <= N.to_nat k <= List.length lines /\
           origin fs g (Some (fname, k)) glines e /\ snd e = Some (g', k'))).
Proof.
  intros. destruct (include_entries_origin _ _ _ _ _ _ _ _ Hrun) as [new [Hm HF]].
  exists new. split; [exact Hm|]. intros e He. rewrite Forall_forall in HF. specialize (HF e He).
  inversion HF; subst.
  - left. auto.
  - right. match goal with Ho : origin fs ?g (Some ?x) ?gl e |- _ =>
      pose proof (origin_inc_some _ _ _ _ _ Ho) as Hs end.
    destruct (loc_inc e) as [[g' k']|] eqn:Ei.
    + exists g, glines, k, g', k'. repeat split; try assumption; try lia.
    + exfalso. apply Hs; [discriminate|reflexivity].
Qed.
Print Assumptions include_entries.

Lemma run_origin fs fname defs lines p :
  run_cpp fs fname defs lines = POk p -> Forall (origin fs fname None lines) (p_map p).
Proof.
  unfold run_cpp. intros H. apply include_entries_origin in H. destruct H as [new [Hm HF]].
  cbn [p_map] in Hm. rewrite app_nil_r in Hm. rewrite Hm. exact HF.
Qed.

Theorem entries_without_includer_are_main : forall fs fname defs lines p
  (Hrun : run_cpp fs fname defs lines = POk p),
  forall f n, In (f, n, None) (p_map p) -> f = fname /\ 1 <= N.to_nat n <= List.length lines.
Proof.
  intros fs fname defs lines p Hrun f n Hin.
  pose proof (run_origin _ _ _ _ _ Hrun) as HF. rewrite Forall_forall in HF.
  apply HF in Hin. apply origin_none in Hin. exact Hin.
Qed.
Print Assumptions entries_without_includer_are_main.

Theorem entries_are_physical_lines : forall fs fname defs lines p
  (Hrun : run_cpp fs fname defs lines = POk p),
  forall f n i, In (f, n, i) (p_map p) -> f = fname -> i = None ->
                1 <= N.to_nat n <= List.length lines.
Proof.
  intros fs fname defs lines p Hrun f n i Hin _ ->.
  exact (proj2 (entries_without_includer_are_main _ _ _ _ _ Hrun f n Hin)).
Qed.
Print Assumptions entries_are_physical_lines.

(** every entry of the table has an origin: the main file, or a file included (transitively)
    from a physical line of it *)
Theorem entries_have_origin : forall fs fname defs lines p
  (Hrun : run_cpp fs fname defs lines = POk p),
  Forall (origin fs fname None lines) (rev (p_map p)).
Proof. intros. apply Forall_rev. eapply run_origin; exact Hrun. Qed.
Print Assumptions entries_have_origin.

Theorem entries_increasing : forall fname defs lines p
  (Hrun : run_cpp [] fname defs lines = POk p),
  StronglySorted N.lt (map loc_line (rev (p_map p))).
Proof.
  intros. unfold run_cpp in Hrun.
  apply go_desc in Hrun; [|constructor|constructor].
  rewrite map_rev. apply StronglySorted_rev.
  unfold desc in Hrun. induction Hrun; cbn [map]; constructor; [assumption|].
  rewrite Forall_map. assumption.
Qed.
Print Assumptions entries_increasing.

(** the spliced logical line made of the physical lines [line+1] and [line+2] is processed with
    the number [line+2], and whatever it pushes for the file itself carries that number *)
Theorem entry_of_spliced_line : forall rec fs fname inc asm fu a b rest line p
  (Hjoined : no_continuation (a ++ b)),
  go rec fs fname inc asm (S fu) ((a ++ "\" ++ nl) :: b :: rest) line p =
  match line_step rec fs fname inc asm p (line + 2)%N (a ++ b) with
  | POk p' => go rec fs fname inc asm fu rest (line + 2)%N p'
  | PErr e => PErr e
  end.
Proof.
  intros. cbn [go List.length]. rewrite (splice_joins _ _ _ _ (proj1 Hjoined) (proj2 Hjoined)).
  replace (line + 1 + 1)%N with (line + 2)%N by lia. reflexivity.
Qed.
Print Assumptions entry_of_spliced_line.

Theorem entry_of_spliced_line_emitted : forall rec fs fname inc asm p line buf p' sc out
  (Hscan : scan_line asm buf (c_scan (p_ctx p)) = ScanOk out true sc)
  (Hstep : line_step rec fs fname inc asm p line buf = POk p')
  (Hemits : p_map p' <> p_map p)
  (Hnoinc : forall e, snd (directive_name_arg (trim (replace_all_c (c_macros (p_ctx p)) (hash_blanks out)))) = Some e -> False),
  p_map p' = (fname, line, inc) :: p_map p.
Proof.
  intros. apply line_step_cases in Hstep. destruct Hstep as [out' [ins' [sc' [Hscan' H]]]].
  rewrite Hscan in Hscan'. inversion Hscan'; subst out' ins' sc'.
  destruct H as [Hq|[He|Hi]].
  - destruct Hq as [_ [Hq _]]. contradiction.
  - subst p'. reflexivity.
  - destruct Hi as [e [c [iname [tl [ilines [p2 [Hdp _]]]]]]]. exfalso. eapply Hnoinc; exact Hdp.
Qed.
Print Assumptions entry_of_spliced_line_emitted.

Example entry_of_spliced_line_run :
  exists p, run_cpp [] "m.c" [("V", "1")]
                    ["/* c" ++ nl; " c */ int q;" ++ nl; "int a = V + \" ++ nl; "  2;" ++ nl; "int z;" ++ nl] = POk p /\
            p_out p = " int q;" ++ nl ++ "int a = 1 +   2;" ++ nl ++ "int z;" ++ nl /\
            rev (p_map p) = [("m.c", 2%N, None); ("m.c", 4%N, None); ("m.c", 5%N, None)].
Proof. eexists. split; [vm_compute; reflexivity|]. split; reflexivity. Qed.

Lemma count_nl_concat_full (ls : list string) :
  Forall full_line ls -> count_nl (String.concat "" ls) = List.length ls.
Proof.
  induction 1 as [|x l [Ho He] Hl IH]; [reflexivity|].
  rewrite concat_cons, count_nl_app, IH, (one_line_count _ Ho), He. reflexivity.
Qed.

Lemma take_app_plus (a b : string) (n : nat) :
  string_take (String.length a + n) (a ++ b) = a ++ string_take n b.
Proof. induction a; cbn; congruence. Qed.

Lemma take_app_le (a b : string) (n : nat) :
  n <= String.length a -> string_take n (a ++ b) = string_take n a.
Proof.
  revert n. induction a; intros n H; cbn in *.
  - assert (n = 0) by lia. subst. reflexivity.
  - destruct n; [reflexivity|]. cbn. rewrite IHa by lia. reflexivity.
Qed.

Lemma full_line_body (l : string) :
  full_line l -> exists body, l = body ++ nl /\ nlfree body = true.
Proof.
  intros [Ho He]. destruct (one_line_cases l Ho) as [F|[s' [-> F]]].
  - apply nlfree_count in F. rewrite (one_line_count _ Ho), He in F. discriminate.
  - exists s'. auto.
Qed.

(** the offset [n] of the k-th line: k newlines before the line, then those of its first [n]
    characters *)
Lemma offset_in_kth (ls : list string) k l n :
  nth_error ls k = Some l -> Forall full_line ls -> n <= String.length l ->
  offset_to_line (String.concat "" ls) (String.length (String.concat "" (firstn k ls)) + n)
  = k + count_nl (string_take n l).
Proof.
  intros Hk Hfull Hn. destruct (nth_error_split _ _ Hk) as [l1 [l2 [-> <-]]].
  apply Forall_app in Hfull. destruct Hfull as [Hpre _].
  rewrite firstn_app, firstn_all, Nat.sub_diag, app_nil_r.
  unfold offset_to_line. rewrite concat_app, concat_cons.
  rewrite take_app_plus, count_nl_app, (count_nl_concat_full _ Hpre), take_app_le by exact Hn.
  reflexivity.
Qed.

(** offsets inside the text of the k-th line (its newline excluded) translate to k ... *)
Theorem offset_to_line_in_line : forall (ls : list string) k l off
  (Hk : nth_error ls k = Some l)
  (Hfull : Forall full_line ls)
  (Hoff : 1 <= off <= String.length l - 1),
  offset_to_line (String.concat "" ls) (String.length (String.concat "" (firstn k ls)) + off) = k.
Proof.
  intros. rewrite (offset_in_kth ls k l off Hk Hfull) by lia.
  pose proof (proj1 (Forall_forall _ _) Hfull _ (nth_error_In _ _ Hk)) as Hl.
  destruct (full_line_body _ Hl) as [body [-> Hbody]].
  rewrite length_app_s in Hoff. cbn [String.length nl] in Hoff.
  rewrite take_app_le, (nlfree_count _ (nlfree_take _ _ Hbody)) by lia. lia.
Qed.
Print Assumptions offset_to_line_in_line.

(** ... and the offset of the k-th line's newline itself translates to k+1 *)
Theorem offset_at_newline_is_next_line : forall (ls : list string) k l
  (Hk : nth_error ls k = Some l)
  (Hfull : Forall full_line ls),
  offset_to_line (String.concat "" ls)
                 (String.length (String.concat "" (firstn k ls)) + String.length l) = S k.
Proof.
  intros. rewrite (offset_in_kth ls k l _ Hk Hfull) by lia.
  destruct (proj1 (Forall_forall _ _) Hfull _ (nth_error_In _ _ Hk)) as [Ho He].
  rewrite <- (app_empty_r l) at 2. rewrite take_length_app, (one_line_count _ Ho), He. lia.
Qed.
Print Assumptions offset_at_newline_is_next_line.

Example offset_zero_reports_last_line :
  let text := "int a;" ++ nl ++ "int b;" ++ nl ++ "int c;" ++ nl in
  offset_to_line text 0 = 0 /\ offset_to_line_rust text 0 = 3.
Proof. vm_compute. split; reflexivity. Qed.

Example offset_at_newline_next_line :
  let text := "int a;" ++ nl ++ "int b;" ++ nl ++ "int c;" ++ nl in
  (* characters 1..6 are "int a;", character 7 is the first newline *)
  offset_to_line text 6 = 0 /\ offset_to_line text 7 = 1 /\ offset_to_line_rust text 7 = 1.
Proof. vm_compute. repeat split; reflexivity. Qed.

Open Scope string_scope.
Open Scope list_scope.

Lemma text_lines (s : string) :
  exists ls tl, s = (String.concat "" ls ++ tl)%string /\ Forall full_line ls /\ nlfree tl = true /\
                List.length ls = count_nl s.
Proof.
  induction s as [|a r IH].
  - exists [], ""%string. repeat split; constructor.
  - destruct IH as [ls [tl [Hr [Hf [Ht Hl]]]]].
    destruct (is_nl a) eqn:Ea.
    + exists (String a "" :: ls), tl. rewrite concat_cons. cbn [append count_nl]. rewrite Ea.
      split; [congruence|]. split; [|split; [exact Ht|cbn [List.length]; lia]].
      constructor; [|exact Hf]. split; cbn; rewrite Ea; reflexivity.
    + destruct ls as [|l ls].
      * exists [], (String a tl). cbn [String.concat append count_nl nlfree] in *. rewrite Ea.
        split; [congruence|]. split; [constructor|]. split; [exact Ht|exact Hl].
      * exists (String a l :: ls), tl. rewrite concat_cons in *. cbn [append count_nl]. rewrite Ea.
        split; [congruence|]. split; [|split; [exact Ht|exact Hl]].
        inversion Hf as [|x y [Ho He] Hf']; subst. constructor; [|exact Hf'].
        split; [cbn [one_line]; rewrite Ea; exact Ho|].
        cbn [ends_nl]. destruct l; [discriminate He|exact He].
Qed.

Lemma nlfree_not_ends (s : string) : nlfree s = true -> ends_nl s = false.
Proof.
  intros H. pose proof (one_line_count s (nlfree_one_line s H)) as E. rewrite (nlfree_count s H) in E.
  destruct (ends_nl s); [discriminate|reflexivity].
Qed.

Lemma complete_lines (s : string) :
  complete s = true ->
  exists ls, s = String.concat "" ls /\ Forall full_line ls /\ List.length ls = count_nl s.
Proof.
  intros Hc. destruct (text_lines s) as [ls [tl [Hs [Hf [Ht Hl]]]]].
  destruct tl as [|c tl].
  - exists ls. rewrite app_empty_r in Hs. auto.
  - exfalso. unfold complete in Hc. destruct s; [destruct (String.concat "" ls); discriminate|].
    rewrite Hs in Hc. rewrite ends_nl_app in Hc by discriminate.
    rewrite (nlfree_not_ends _ Ht) in Hc. discriminate.
Qed.

(** C06, assembled: under the hypotheses of [one_entry_per_line] the output text is a sequence of
    full lines, the table has exactly one entry per line, every offset inside the text of line
    [k] is translated to [k] and so selects the [k]-th entry, and that entry is a place of the
    original text: the main file or a file reached by includes, with a physical line number of
    that file and the including file and line. *)
Theorem lookup_finds_an_origin : forall fs fname defs lines p
  (Hdefs : macros_single_line defs)
  (Hsingle : inputs_single_line lines fs)
  (Hterm : physical_lines_terminated lines fs)
  (Hmain : file_closed lines)
  (Hrun : run_cpp fs fname defs lines = POk p),
  exists ls,
    p_out p = String.concat "" ls /\ Forall full_line ls /\
    List.length ls = List.length (p_map p) /\
    forall k l off,
      nth_error ls k = Some l -> 1 <= off <= String.length l - 1 ->
      offset_to_line (p_out p) (String.length (String.concat "" (firstn k ls)) + off) = k /\
      exists e, nth_error (rev (p_map p)) k = Some e /\ origin fs fname None lines e.
Proof.
  intros. destruct (one_entry_per_line _ _ _ _ _ Hdefs Hsingle Hterm Hmain Hrun) as [_ [Hc Hlen]].
  destruct (complete_lines _ Hc) as [ls [Hs [Hf Hl]]].
  exists ls. split; [exact Hs|]. split; [exact Hf|]. split; [lia|].
  intros k l off Hk Hoff. split.
  - rewrite Hs. apply (offset_to_line_in_line ls k l off Hk Hf Hoff).
  - assert (Hlt : k < List.length (rev (p_map p))).
    { rewrite rev_length, Hlen, <- Hl. apply nth_error_Some. congruence. }
    destruct (nth_error (rev (p_map p)) k) as [e|] eqn:E.
    + exists e. split; [reflexivity|].
      pose proof (entries_have_origin _ _ _ _ _ Hrun) as Ho. rewrite Forall_forall in Ho.
      apply Ho. eapply nth_error_In; exact E.
    + apply nth_error_None in E. lia.
Qed.
Print Assumptions lookup_finds_an_origin.

Lemma go_app_plain rec fs fname inc asm (l1 r : list string) :
  Forall no_continuation l1 ->
  forall f line p,
    go rec fs fname inc asm (List.length l1 + f) (l1 ++ r) line p =
    match go rec fs fname inc asm (List.length l1) l1 line p with
    | POk p1 => go rec fs fname inc asm f r (line + N.of_nat (List.length l1))%N p1
    | PErr e => PErr e
    end.
Proof.
  induction 1 as [|x l1 Hx Hl IH]; intros f line p.
  - rewrite N.add_0_r. reflexivity.
  - cbn [List.length app Nat.add go].
    rewrite !(splice_none _ _ _ _ (proj1 Hx) (proj2 Hx)).
    destruct (line_step rec fs fname inc asm p (line + 1 + 0)%N x) as [p'|e]; [|reflexivity].
    rewrite IH. replace (line + 1 + 0 + N.of_nat (List.length l1))%N
      with (line + N.of_nat (S (List.length l1)))%N by lia.
    reflexivity.
Qed.

Lemma process_unfold d fs fname inc asm lines p0 :
  process (S d) fs fname inc asm lines p0 =
  go (process d fs) fs fname inc asm (S (List.length lines)) lines 0%N (file_start p0).
Proof. reflexivity. Qed.

(** The spliced logical line made of the physical lines [length l1 + 1] and [length l1 + 2] of
    the main file, after a prefix [l1] of lines that are not themselves continued (they may be
    anything else: comments, directives, conditionals, macro definitions and uses, includes):
    the run factors through the processing of [a ++ b] with the number [length l1 + 2], and every
    entry it pushes for the main file carries exactly that number. *)
Theorem entry_of_spliced_line_in_run : forall fs fname defs l1 a b l2 p
  (Hprefix : Forall no_continuation l1)
  (Hjoined : no_continuation (a ++ b)%string)
  (Hrun : run_cpp fs fname defs (l1 ++ (a ++ "\" ++ nl)%string :: b :: l2) = POk p),
  let rec := process 7 fs in
  let n := (N.of_nat (List.length l1) + 2)%N in
  exists p1 p2 new,
    go rec fs fname None false (List.length l1) l1 0%N
       (file_start (mkP (init_ctx defs) ""%string [] Active [])) = POk p1 /\
    line_step rec fs fname None false p1 n (a ++ b)%string = POk p2 /\
    go rec fs fname None false (S (S (List.length l2))) l2 n p2 = POk p /\
    p_map p2 = new ++ p_map p1 /\
    (forall e, In e new -> e = (fname, n, None) \/ loc_inc e <> None).
Proof.
  intros. unfold run_cpp in Hrun. rewrite (process_unfold 7) in Hrun. fold rec in Hrun.
  rewrite app_length in Hrun. cbn [List.length] in Hrun.
  replace (S (List.length l1 + S (S (List.length l2))))
    with (List.length l1 + S (S (S (List.length l2)))) in Hrun by lia.
  rewrite go_app_plain in Hrun by exact Hprefix.
  destruct (go rec fs fname None false (List.length l1) l1 0%N _) as [p1|] eqn:E1; [|discriminate].
  rewrite entry_of_spliced_line in Hrun by exact Hjoined.
  rewrite N.add_0_l in Hrun. fold n in Hrun.
  destruct (line_step rec fs fname None false p1 n (a ++ b)%string) as [p2|] eqn:E2; [|discriminate].
  assert (Hrec : rec_origin rec fs).
  { intros iname inc' a0 ilines q q2 Hr. eapply include_entries_origin; exact Hr. }
  destruct (line_step_entries _ _ _ _ _ _ _ _ _ Hrec E2) as [new [Hm HF]].
  exists p1, p2, new. split; [first [exact E1|reflexivity]|]. split; [first [exact E2|reflexivity]|].
  split; [exact Hrun|].
  split; [exact Hm|]. intros e He. rewrite Forall_forall in HF.
  destruct (HF e He) as [->|[g [gl [_ Ho]]]]; [left; reflexivity|right].
  eapply origin_inc_some; [exact Ho|discriminate].
Qed.
Print Assumptions entry_of_spliced_line_in_run.
