(** Hardware-access statements (Model/GenHw.v) on the executable 6502 semantics WITH THE TRACE:
    [Sem.run] from ANY machine state, [ports cfg = []], any program around, any fuel above the
    length of the code, empty call stack, halts normally and the trace of protected instructions
    is exactly the sequence of accesses of the source, once each, in order.

    [strobe_trace]          [strobe(r);]: the single event [EvI STA r]; A is stored in the cell of
                            [r], nothing else changes
    [load_store_trace]      [load(a); strobe(r); store(b);]: the three events in order; A = a, the
                            hardware cell = a, b = a
    [strobe_sleep_strobe]   [strobe(r0); csleep(4); strobe(r1);] with [r0], [r1] in page zero: the
                            events STA r0, NOP, NOP, STA r1 and exactly 3 + 2 + 2 + 3 = 10 cycles *)
From Coq Require Import String Ascii List Bool Arith NArith ZArith Lia.
From CC Require Import Base.Str Asm.Lines M6502.Isa Asm.Operand M6502.Sem
  Model.OptSem Proofs.OptSemFacts Model.GenTemplates Proofs.ExecFacts Proofs.GenTemplatesFacts Model.GenIf Model.GenHw.
Import ListNotations.
Open Scope string_scope.
Open Scope list_scope.
Open Scope Z_scope.

Lemma exec_nop : forall cfg s, exec cfg NOP ONone s = XOk s 2%N FNext.
Proof. reflexivity. Qed.

(** one protected instruction that falls through *)
Ltac hstep E := rewrite run_S; cbn [nth_error]; rewrite E; cbv zeta iota beta.

(** ** [strobe(r);] *)
Theorem strobe_trace : forall cfg r pr st,
  ports cfg = [] -> var_name r -> layout cfg r = Some pr -> 0 <= pr < 65536 ->
  exists sl, slines_of (strobe_tpl r) = Some sl /\
    forall prog inl_sem ext_call fname fuel, (length sl < fuel)%nat ->
      Sem.run cfg prog inl_sem ext_call fuel fname sl 0 [] st [] 0%N
      = Halt (set_mem st (mset (mem st) pr (rA st))) [EvI STA r] (cyc STA (amode pr) false).
Proof.
  intros cfg r pr st Hp Nr Lr Rr. eexists. split.
  - unfold strobe_tpl. apply slines_ins; [apply vn_lo; [exact Nr|reflexivity]|reflexivity].
  - intros prog inl_sem ext_call fname fuel Hf. cbn [length] in Hf.
    destruct fuel as [|[|f]]; try lia.
    pose proof (exec_st_mem cfg STA st r 0 pr Hp eq_refl Lr ltac:(lia)) as E.
    rewrite Z.add_0_r in E. cbn [st_reg] in E.
    hstep E. rewrite run_S. cbn [nth_error rev app]. reflexivity.
Qed.
Print Assumptions strobe_trace.

(** only the cell of [r] changes; the registers do not *)
Corollary strobe_only_cell : forall st pr, 0 <= pr ->
  let st' := set_mem st (mset (mem st) pr (rA st)) in
  mget (mem st') pr = rA st /\ only_changes [pr] st st' /\ keeps_xys st st' /\ rA st' = rA st.
Proof.
  intros st pr Hpr. post_tac. split; [apply mget_mset_same|frame_tac].
Qed.
Print Assumptions strobe_only_cell.

(** ** [load(a); strobe(r); store(b);] *)
Theorem load_store_trace : forall cfg a r b pa pr pb st,
  ports cfg = [] -> var_name a -> var_name r -> var_name b ->
  layout cfg a = Some pa -> layout cfg r = Some pr -> layout cfg b = Some pb ->
  0 <= pa < 65536 -> 0 <= pr < 65536 -> 0 <= pb < 65536 -> pr <> pb ->
  exists sl, slines_of (load_tpl a ++ strobe_tpl r ++ store_tpl b) = Some sl /\
    forall prog inl_sem ext_call fname fuel, (length sl < fuel)%nat ->
      exists st' cy,
        Sem.run cfg prog inl_sem ext_call fuel fname sl 0 [] st [] 0%N
        = Halt st' [EvI LDA a; EvI STA r; EvI STA b] cy /\
        rA st' = mget (mem st) pa /\ mget (mem st') pr = mget (mem st) pa /\
        mget (mem st') pb = mget (mem st) pa /\
        only_changes [pr; pb] st st' /\ keeps_xys st st'.
Proof.
  intros cfg a r b pa pr pb st Hp Na Nr Nb La Lr Lb Ra Rr Rb Hne. eexists. split.
  - unfold load_tpl, strobe_tpl, store_tpl. cbn [app].
    repeat (apply slines_ins; [apply vn_lo; [assumption|reflexivity]|]). reflexivity.
  - intros prog inl_sem ext_call fname fuel Hf. cbn [length] in Hf.
    destruct fuel as [|[|[|[|f]]]]; try lia.
    pose proof (exec_rd_mem cfg LDA st a 0 pa Hp eq_refl La ltac:(lia)) as E1.
    rewrite Z.add_0_r in E1. cbn [rd_sem] in E1.
    set (s1 := set_nz (set_a st (mget (mem st) pa)) (mget (mem st) pa)) in *.
    pose proof (exec_st_mem cfg STA s1 r 0 pr Hp eq_refl Lr ltac:(lia)) as E2.
    rewrite Z.add_0_r in E2. cbn [st_reg] in E2.
    set (s2 := set_mem s1 (mset (mem s1) pr (rA s1))) in *.
    pose proof (exec_st_mem cfg STA s2 b 0 pb Hp eq_refl Lb ltac:(lia)) as E3.
    rewrite Z.add_0_r in E3. cbn [st_reg] in E3.
    hstep E1. hstep E2. hstep E3. rewrite run_S. cbn [nth_error rev app].
    eexists. eexists. split; [reflexivity|].
    subst s2 s1. post_tac.
    split; [reflexivity|]. split; [rewrite mget_mset_other by lia; apply mget_mset_same|].
    split; [apply mget_mset_same|frame_tac].
Qed.
Print Assumptions load_store_trace.

(** ** [strobe(r0); csleep(4); strobe(r1);]: the events and the cycle count *)
Theorem strobe_sleep_strobe : forall cfg r0 r1 p0 p1 st,
  ports cfg = [] -> var_name r0 -> var_name r1 ->
  layout cfg r0 = Some p0 -> layout cfg r1 = Some p1 -> 0 <= p0 < 256 -> 0 <= p1 < 256 ->
  exists sl, slines_of (strobe_tpl r0 ++ csleep4_tpl ++ strobe_tpl r1) = Some sl /\
    forall prog inl_sem ext_call fname fuel, (length sl < fuel)%nat ->
      Sem.run cfg prog inl_sem ext_call fuel fname sl 0 [] st [] 0%N
      = Halt (set_mem st (mset (mset (mem st) p0 (rA st)) p1 (rA st)))
             [EvI STA r0; EvI NOP ""; EvI NOP ""; EvI STA r1] (3 + 2 + 2 + 3)%N.
Proof.
  intros cfg r0 r1 p0 p1 st Hp N0 N1 L0 L1 R0 R1. eexists. split.
  - unfold strobe_tpl, csleep4_tpl. cbn [app].
    apply slines_ins; [apply vn_lo; [assumption|reflexivity]|].
    apply slines_ins; [apply parse_empty|]. apply slines_ins; [apply parse_empty|].
    apply slines_ins; [apply vn_lo; [assumption|reflexivity]|]. reflexivity.
  - intros prog inl_sem ext_call fname fuel Hf. cbn [length] in Hf.
    destruct fuel as [|[|[|[|[|f]]]]]; try lia.
    pose proof (exec_st_mem cfg STA st r0 0 p0 Hp eq_refl L0 ltac:(lia)) as E1.
    rewrite Z.add_0_r in E1. cbn [st_reg] in E1.
    set (s1 := set_mem st (mset (mem st) p0 (rA st))) in *.
    pose proof (exec_st_mem cfg STA s1 r1 0 p1 Hp eq_refl L1 ltac:(lia)) as E2.
    rewrite Z.add_0_r in E2. cbn [st_reg] in E2.
    assert (A0 : amode p0 = Zp) by (unfold amode; destruct (Z.ltb_spec p0 256); [reflexivity|lia]).
    assert (A1 : amode p1 = Zp) by (unfold amode; destruct (Z.ltb_spec p1 256); [reflexivity|lia]).
    rewrite A0 in E1. rewrite A1 in E2.
    hstep E1. hstep (exec_nop cfg s1). hstep (exec_nop cfg s1). hstep E2.
    rewrite run_S. cbn [nth_error rev app]. subst s1. reflexivity.
Qed.
Print Assumptions strobe_sleep_strobe.

(** * Non-vacuity: the listings on a concrete layout (a, b at 128, 129; HW0, HW1 at 2, 3), run *)
Definition cfg_hw : config :=
  mkCfg (fun y =>
    if String.eqb y "a" then Some 128 else if String.eqb y "b" then Some 129
    else if String.eqb y "HW0" then Some 2 else if String.eqb y "HW1" then Some 3 else None) [].

Definition run_hw (c : code) (st : mstate) : option (list event * N) :=
  match slines_of c with
  | Some sl =>
      match Sem.run cfg_hw [] (fun _ _ => None) (fun _ _ => None) 20 "f" sl 0 [] st [] 0%N with
      | Halt _ tr cy => Some (tr, cy)
      | _ => None
      end
  | None => None
  end.

Example run_hlisting_05 :
  run_hw (strobe_tpl "HW0" ++ csleep4_tpl ++ strobe_tpl "HW1")
         (mkS 7 1 2 255 false false false false mem_empty)
  = Some ([EvI STA "HW0"; EvI NOP ""; EvI NOP ""; EvI STA "HW1"], 10%N).
Proof. vm_compute. reflexivity. Qed.
Print Assumptions run_hlisting_05.

Example run_hlisting_04 :
  run_hw (load_tpl "a" ++ strobe_tpl "HW0" ++ store_tpl "b")
         (mkS 7 1 2 255 false false false false (mset mem_empty 128 5))
  = Some ([EvI LDA "a"; EvI STA "HW0"; EvI STA "b"], 9%N).
Proof. vm_compute. reflexivity. Qed.
Print Assumptions run_hlisting_04.

(** the closed forms with the compiler's names *)
Corollary hlisting_05_trace : forall st prog inl_sem ext_call fname fuel, (4 < fuel)%nat ->
  exists sl, slines_of (strobe_tpl "HW0" ++ csleep4_tpl ++ strobe_tpl "HW1") = Some sl /\
    Sem.run cfg_hw prog inl_sem ext_call fuel fname sl 0 [] st [] 0%N
    = Halt (set_mem st (mset (mset (mem st) 2 (rA st)) 3 (rA st)))
           [EvI STA "HW0"; EvI NOP ""; EvI NOP ""; EvI STA "HW1"] 10%N.
Proof.
  intros st prog inl_sem ext_call fname fuel Hf.
  destruct (strobe_sleep_strobe cfg_hw "HW0" "HW1" 2 3 st eq_refl
              (ident_var_name "HW0" ltac:(discriminate) eq_refl)
              (ident_var_name "HW1" ltac:(discriminate) eq_refl) eq_refl eq_refl ltac:(lia) ltac:(lia))
    as (sl & Hsl & H).
  exists sl. split; [exact Hsl|]. apply H.
  assert (length sl = 4%nat) by (vm_compute in Hsl; inversion Hsl; reflexivity). lia.
Qed.
Print Assumptions hlisting_05_trace.
