(** Size of what [asm()] selects (C04) and where the emitted operand is.  [asm_sel0] is analysed
    once, arm by arm, into the relation [emits]; the theorems here and in AsmLegalFacts.v are case
    analyses on what is emitted. *)
From Coq Require Import String Ascii List Bool NArith ZArith Lia.
From CC Require Import Base.Str Asm.Lines M6502.Isa Asm.Operand Model.AsmSel.
Import ListNotations.

(** label operands go with branches/JMP/JSR and only with them (the generator's convention;
    [JMP cctmp] and [LDA .label] are cells [asm()] does not reject but nothing requests) *)
Definition sensible (m : mnem) (e : exprtype) : bool :=
  match e with ELabel _ => takes_label m | _ => negb (takes_label m) end.

(** * The "Bad left value" guard: [asm_sel] is [asm_sel0] minus the writes to an immediate *)

Lemma asm_sel_emit_inv : forall sch m e high m' sg em,
  asm_sel sch m e high = AEmit m' sg em ->
  asm_sel0 sch m e high = AEmit m' sg em /\ writes_mem m' && is_imm_popnd (e_op em) = false.
Proof.
  intros sch m e high m' sg em H. unfold asm_sel in H.
  destruct (asm_sel0 sch m e high) as [m0 s0 e0 | s0 | msg]; try discriminate H.
  destruct (writes_mem m0 && is_imm_popnd (e_op e0)) eqn:G; [discriminate H|].
  injection H as <- <- <-. split; [reflexivity|exact G].
Qed.
Print Assumptions asm_sel_emit_inv.

Lemma asm_sel_emit_intro : forall sch m e high m' sg em,
  asm_sel0 sch m e high = AEmit m' sg em ->
  writes_mem m' && is_imm_popnd (e_op em) = false ->
  asm_sel sch m e high = AEmit m' sg em.
Proof. intros sch m e high m' sg em H G. unfold asm_sel. rewrite H, G. reflexivity. Qed.
Print Assumptions asm_sel_emit_intro.

Lemma asm_sel_cases : forall sch m e high,
  match asm_sel0 sch m e high with
  | AEmit m' sg em =>
      asm_sel sch m e high =
      if writes_mem m' && is_imm_popnd (e_op em) then AErr "Bad left value in assignement"
      else AEmit m' sg em
  | r => asm_sel sch m e high = r
  end.
Proof. intros sch m e high. unfold asm_sel. destruct (asm_sel0 sch m e high); reflexivity. Qed.
Print Assumptions asm_sel_cases.

Lemma is_imm_popnd_shape : forall p,
  is_imm_popnd p = true <-> shape_of (operand_of p) = ShImm.
Proof.
  intros [ | n | y k | y k | y k [ | | ] al | y k | l ]; split; (reflexivity || discriminate).
Qed.
Print Assumptions is_imm_popnd_shape.

(** [nb_bytes] as [asm()] computes it: from the shape of the operand and from whether it takes
    the operand to be in page zero *)
Definition sel_size (m : mnem) (sh : shape) (zp : bool) : N :=
  match sh with
  | ShNone => 1
  | ShImm | ShIndY => 2
  | ShMem | ShMemX => if zp then 2 else 3
  | ShMemY => if zp then match m with STX | LDX => 2 | _ => 3 end else 3
  | ShLabel => match m with JMP | JSR => 3 | _ => 2 end
  end.

(** the mnemonics [asm()] refuses with an X-indexed, a Y-indexed, an indirect operand *)
Definition x_refused (m : mnem) (zp : bool) : bool :=
  match m with STX | LDX | CPX | CPY => true | STY => negb zp | _ => false end.

Definition y_refused (m : mnem) (zp : bool) : bool :=
  match m with STY | LDY | CPY | CPX => true | STX => negb zp | _ => false end.

Definition ind_refused (m : mnem) : bool :=
  match m with STX | STY | LDX | LDY | CPX | CPY => true | _ => false end.

Definition ix_off (sch : scheme) (m : mnem) (v : var) (high : bool) : Z :=
  let offset := port_offset sch (v_mem v) m in
  if match v_type v with VCharPtrPtr | VShortPtr => true | _ => false end
  then (offset + if high then v_size v else 0)%Z else offset.

Definition byte_off (sch : scheme) (m : mnem) (v : var) (off : Z) (high : bool) : Z :=
  let offset := (off + port_offset sch (v_mem v) m)%Z in if high then (offset + 1)%Z else offset.

(** the page-zero test of the constant-pointer arm *)
Definition abs_zp (v : var) (o : Z) : bool :=
  is_zp v && negb (v_const v && match v_addr v with Some a => (255 <? a + o)%Z | None => false end).

(** [emits sch m high e m' p zp]: requested [m] on [e], [asm()] can emit [m'] with operand [p],
    which it takes to be in page zero iff [zp] ([zp] is immaterial where [sel_size] ignores it) *)
Inductive emits (sch : scheme) (m : mnem) (high : bool) : exprtype -> mnem -> popnd -> bool -> Prop :=
| EmNothing : emits sch m high ENothing m PNone false
| EmImmediate k k' : emits sch m high (EImmediate k) m (PNum k') false
| EmTmp s : emits sch m high (ETmp s) m (PMem "cctmp" 0 IxNone false) true
| EmAX s : m = LDX -> emits sch m high (EA s) TAX PNone false
| EmAY s : m = LDY -> emits sch m high (EA s) TAY PNone false
| EmLabel l : emits sch m high (ELabel l) m (PLbl l) false
| EmAbsImm v eight off p : is_imm_popnd p = true -> emits sch m high (EAbsolute v eight off) m p false
| EmAbsClass v eight off o al :
    v_type v <> VCharPtr -> (al = true -> o = byte_off sch m v off high) ->
    emits sch m high (EAbsolute v eight off) m (PMem (v_name v) o IxNone al) (is_zp v)
| EmAbsPtr v eight off :
    v_type v = VCharPtr ->
    emits sch m high (EAbsolute v eight off) m (PMem (v_name v) (byte_off sch m v off high) IxNone true)
          (abs_zp v (byte_off sch m v off high))
| EmXZero v : emits sch m high (EAbsoluteX v) m (PNum 0) (is_zp v)
| EmX v :
    x_refused m (is_zp v) = false ->
    emits sch m high (EAbsoluteX v) m (PMem (v_name v) (ix_off sch m v high) IxX false) (is_zp v)
| EmYZero v : emits sch m high (EAbsoluteY v) m (PNum 0) (is_zp v)
| EmY v :
    y_refused m (is_zp v) = false ->
    emits sch m high (EAbsoluteY v) m (PMem (v_name v) (ix_off sch m v high) IxY false) (is_zp v)
| EmYInd v :
    is_zp v = true -> ind_refused m = false ->
    emits sch m high (EAbsoluteY v) m (PInd (v_name v) (port_offset sch (v_mem v) m)) (is_zp v).

Lemma emit_inj : forall m s p n c a m' s' p' n' c' a',
  AEmit m s (mkE p n c a) = AEmit m' s' (mkE p' n' c' a') -> m = m' /\ p = p' /\ n = n'.
Proof. intros m s p n c a m' s' p' n' c' a' H. injection H as <- _ <- <- _ _. auto. Qed.

(** [H] is an emission: read off mnemonic, operand and size; [c] is the constructor for it *)
Ltac emitted H c :=
  apply emit_inj in H as (<- & <- & <-); eexists; split; [apply c | try reflexivity].

(** [H : (let x := a in b) = r]: make [x] a local definition *)
Ltac name_let H x :=
  match type of H with
  | (let y := ?a in @?f y) = ?r => pose (x := a); change (f x = r) in H; cbv beta in H
  end.

Lemma if_emit : forall (b : bool) m s p n1 n2 c1 c2 a1 a2,
  (if b then AEmit m s (mkE p n1 c1 a1) else AEmit m s (mkE p n2 c2 a2)) =
  AEmit m s (mkE p (if b then n1 else n2) (if b then c1 else c2) (if b then a1 else a2)).
Proof. intros []; reflexivity. Qed.

Lemma x_guard : forall m z s1 s2 s3 r m' sg em,
  match m with
  | STX | LDX | CPX => AErr s1 | CPY => AErr s2 | STY => if negb z then AErr s3 else r | _ => r
  end = AEmit m' sg em -> x_refused m z = false /\ r = AEmit m' sg em.
Proof.
  intros m z s1 s2 s3 r m' sg em H.
  destruct m; try discriminate H; try (split; [reflexivity|exact H]).
  destruct z; [split; [reflexivity|exact H] | discriminate H].
Qed.

Lemma y_guard : forall m z s1 s2 s3 r r' m' sg em,
  match m with
  | STY | LDY | CPY => AErr s1 | CPX => AErr s2 | STX => if negb z then AErr s3 else r
  | STA => r' | _ => r
  end = AEmit m' sg em -> y_refused m z = false /\ (r = AEmit m' sg em \/ r' = AEmit m' sg em).
Proof.
  intros m z s1 s2 s3 r r' m' sg em H.
  destruct m; try discriminate H; try (split; [reflexivity|auto]).
  destruct z; [split; [reflexivity|auto] | discriminate H].
Qed.

Lemma ind_guard : forall m s r m' sg em,
  match m with STX | STY | LDX | LDY | CPX | CPY => AErr s | _ => r end = AEmit m' sg em ->
  ind_refused m = false /\ r = AEmit m' sg em.
Proof. intros m s r m' sg em H. destruct m; try discriminate H; (split; [reflexivity|exact H]). Qed.

Lemma asm_sel0_emits : forall sch m e high m' sg p n cy alt,
  asm_sel0 sch m e high = AEmit m' sg (mkE p n cy alt) ->
  exists z, emits sch m high e m' p z /\ n = sel_size m' (shape_of (operand_of p)) z.
Proof.
  intros sch m e high m' sg p n cy alt H.
  destruct e as [ | k | s | v eight off | v | v | s | l ].
  - emitted H EmNothing.
  - emitted H EmImmediate.
  - emitted H EmTmp.
  - unfold asm_sel0 in H. fold (byte_off sch m v off high) in H.
    rewrite ?if_emit in H.
    destruct (v_type v) eqn:T.
    + destruct eight, high.
      1,3,4: emitted H EmAbsImm; reflexivity.
      emitted H EmAbsClass; [rewrite T|]; discriminate.
    + destruct (eight && high); [emitted H EmAbsImm; reflexivity|].
      emitted H EmAbsClass; [rewrite T; discriminate|reflexivity].
    + destruct (negb eight && v_const v); [destruct high; emitted H EmAbsImm; reflexivity|].
      destruct (high && eight); [emitted H EmAbsImm; reflexivity|].
      destruct (eight && negb (v_const v)); [discriminate H|].
      emitted H EmAbsPtr. exact T.
    + emitted H EmAbsClass; [rewrite T|]; discriminate.
    + emitted H EmAbsClass; [rewrite T|]; discriminate.
  - unfold asm_sel0 in H. fold (ix_off sch m v high) in H.
    destruct (match v_type v with VCharPtr => _ | _ => false end); [discriminate H|].
    destruct (high && _); [emitted H EmXZero|].
    destruct (is_zp v) eqn:Z; apply x_guard in H as [G H].
    all: emitted H EmX; rewrite Z; [exact G|reflexivity].
  - cbv beta iota delta [asm_sel0] in H.
    name_let H cycles. name_let H sg0. name_let H name. name_let H offset. name_let H alt0.
    name_let H indexed.
    assert (IX : forall o, indexed o = AEmit m' sg (mkE p n cy alt) -> o = ix_off sch m v high ->
                 exists z, emits sch m high (EAbsoluteY v) m' p z /\
                           n = sel_size m' (shape_of (operand_of p)) z).
    { intros o E ->. apply y_guard in E as [G [E|E]]; emitted E EmY; exact G. }
    clearbody indexed. unfold ix_off in IX.
    destruct (v_type v) eqn:T; [destruct high | destruct high | destruct high; [|destruct (v_const v)] | |].
    all: try (apply IX in H; [exact H|reflexivity]).
    1-3: emitted H EmYZero.
    destruct (v_size v =? 1)%Z; [|discriminate H].
    destruct (is_zp v) eqn:Z; [|discriminate H].
    apply ind_guard in H as [G H]. emitted H EmYInd; [exact Z|exact G].
  - destruct m; try discriminate H.
    + emitted H EmAX; reflexivity.
    + emitted H EmAY; reflexivity.
  - unfold asm_sel0 in H. destruct (match m with JMP => _ | _ => _ end) as [cy0 alt1].
    emitted H EmLabel.
Qed.

(** the emitted mnemonic is the requested one except in the [EA] arm (TAX, TAY: no operand) *)
Lemma asm_sel0_mnemonic : forall sch m e high m' sg em,
  asm_sel0 sch m e high = AEmit m' sg em -> m' = m \/ e_op em = PNone.
Proof.
  intros sch m e high m' sg [p n cy alt] H.
  apply asm_sel0_emits in H as (z & E & _).
  destruct E; auto.
Qed.
Print Assumptions asm_sel0_mnemonic.

(** ... so the guard may as well test the requested mnemonic, as the Rust does *)
Theorem asm_sel_guard_requested : forall sch m e high m' sg em,
  asm_sel0 sch m e high = AEmit m' sg em ->
  writes_mem m' && is_imm_popnd (e_op em) = writes_mem m && is_imm_popnd (e_op em).
Proof.
  intros sch m e high m' sg em H.
  destruct (asm_sel0_mnemonic _ _ _ _ _ _ _ H) as [-> | ->]; [reflexivity|].
  cbn. rewrite !andb_false_r. reflexivity.
Qed.
Print Assumptions asm_sel_guard_requested.

Lemma port_offset_nonneg : forall sch mm m, (0 <= port_offset sch mm m)%Z.
Proof. intros sch mm m. unfold port_offset. destruct mm, sch, (AsmSel.is_st m); lia. Qed.

Lemma port_offset_zp : forall sch v m, is_zp v = true -> port_offset sch (v_mem v) m = 0%Z.
Proof. intros sch v m. unfold is_zp, port_offset. destruct (v_mem v); try discriminate. reflexivity. Qed.

Lemma byte_off_nonneg : forall sch m v off high, (0 <= off)%Z -> (0 <= byte_off sch m v off high)%Z.
Proof.
  intros sch m v off high O. pose proof (port_offset_nonneg sch (v_mem v) m). unfold byte_off.
  destruct high; lia.
Qed.

Lemma printed_off_always : forall o : Z, (if negb (o =? 0)%Z then o else 0%Z) = o.
Proof. intros o. destruct (Z.eqb_spec o 0); cbn; congruence. Qed.

(** the rule of the constant-pointer arm decides exactly "address + offset < $100" *)
Lemma abs_zp_truth : forall v o, var_wf v -> (0 <= o)%Z ->
  match v_addr v with Some a => (a + o <? 256)%Z | None => is_zp v end = abs_zp v o.
Proof.
  intros v o W O. unfold abs_zp. unfold var_wf in W.
  destruct (v_addr v) as [a|]; [|rewrite andb_false_r; symmetry; apply andb_true_r].
  destruct W as (A0 & -> & -> & _).
  destruct (Z.ltb_spec a 256), (Z.ltb_spec 255 (a + o)), (Z.ltb_spec (a + o) 256); cbn; try reflexivity; lia.
Qed.

(** indexed operands of a constant pointer: [sym+port,X] is in page zero exactly for the
    Zeropage class (split-port classes are never in page zero) *)
Lemma indexed_zp : forall sch m v o,
  var_wf v -> (v_type v = VCharPtr -> o = port_offset sch (v_mem v) m) ->
  match v_addr v with Some a => (a + (if (0 <? o)%Z then o else 0) <? 256)%Z | None => is_zp v end
  = is_zp v.
Proof.
  intros sch m v o W O. unfold var_wf in W. destruct (v_addr v) as [a|]; [|reflexivity].
  destruct W as (A0 & Zc & _ & T). rewrite (O T).
  pose proof (port_offset_nonneg sch (v_mem v) m) as P.
  destruct (is_zp v) eqn:Zp.
  - rewrite (port_offset_zp sch v m Zp). cbn. rewrite Z.add_0_r. congruence.
  - symmetry in Zc. apply Z.ltb_ge in Zc.
    destruct (0 <? port_offset sch (v_mem v) m)%Z; apply Z.ltb_ge; lia.
Qed.

Lemma ix_off_charptr : forall sch m v high,
  v_type v = VCharPtr -> ix_off sch m v high = port_offset sch (v_mem v) m.
Proof. intros sch m v high T. unfold ix_off. rewrite T. reflexivity. Qed.

(** what [asm()] takes for the page of the operand is where the operand is *)
Lemma emits_zp : forall {sch m high e m' p z},
  emits sch m high e m' p z -> expr_wf e -> expr_off_nonneg e ->
  resolve m' (shape_of (operand_of p)) (popnd_zp e p) = resolve m' (shape_of (operand_of p)) z.
Proof.
  intros sch m high e m' p z E W O. destruct E; try reflexivity.
  - rewrite (proj1 (is_imm_popnd_shape p)) by assumption. reflexivity.
  - f_equal. unfold popnd_zp. unfold expr_wf, var_wf in W; cbn [expr_var] in W.
    destruct (v_addr v); [|reflexivity]. destruct W as (_ & _ & _ & T). contradiction.
  - f_equal. unfold popnd_zp. cbn [operand_of operand_off]. rewrite printed_off_always.
    apply abs_zp_truth; [exact W|]. apply byte_off_nonneg. exact O.
  - f_equal. apply (indexed_zp sch m); [exact W|]. apply ix_off_charptr.
  - f_equal. apply (indexed_zp sch m); [exact W|]. apply ix_off_charptr.
  - f_equal. apply (indexed_zp sch m); [exact W|reflexivity].
Qed.

(** indexed operands: the truth side is the memory class, known address or not (used by the
    legality theorems) *)
Theorem resolve_absx_class : forall sch m v high m' sg em,
  var_wf v ->
  asm_sel sch m (EAbsoluteX v) high = AEmit m' sg em ->
  resolve m' (shape_of (operand_of (e_op em))) (popnd_zp (EAbsoluteX v) (e_op em))
  = resolve m' (shape_of (operand_of (e_op em))) (is_zp v).
Proof.
  intros sch m v high m' sg [p n cy alt] W H. apply asm_sel_emit_inv in H as [H _]. cbn [e_op].
  apply asm_sel0_emits in H as (z & E & _).
  rewrite (emits_zp E W I). inversion E; reflexivity.
Qed.
Print Assumptions resolve_absx_class.

Theorem resolve_absy_class : forall sch m v high m' sg em,
  var_wf v ->
  asm_sel sch m (EAbsoluteY v) high = AEmit m' sg em ->
  resolve m' (shape_of (operand_of (e_op em))) (popnd_zp (EAbsoluteY v) (e_op em))
  = resolve m' (shape_of (operand_of (e_op em))) (is_zp v).
Proof.
  intros sch m v high m' sg [p n cy alt] W H. apply asm_sel_emit_inv in H as [H _]. cbn [e_op].
  apply asm_sel0_emits in H as (z & E & _).
  rewrite (emits_zp E W I). inversion E; reflexivity.
Qed.
Print Assumptions resolve_absy_class.

(** for a label with a branch or jump and a memory operand with anything else, the size of the
    mode the assembler selects is the one [asm()] computes *)
Lemma resolve_size : forall m sh zp md,
  match sh with ShLabel => takes_label m | ShMem => negb (takes_label m) | _ => true end = true ->
  resolve m sh zp = Some md -> mode_size md = sel_size m sh zp.
Proof.
  intros m sh zp md L R.
  destruct sh, zp, m; try discriminate L; cbn in R.
  all: first [ discriminate R | injection R as <-; reflexivity ].
Qed.

(** the reported size is the size of the encoding the assembler selects, whenever there is one.
    [popnd_zp e (e_op em)] is where the emitted operand really is: decided from the known address
    of a constant pointer and the printed offset, from the memory class otherwise *)
Theorem asm_sel0_size : forall sch m e high m' sg em md,
  sensible m e = true ->
  expr_wf e -> expr_off_nonneg e ->
  asm_sel0 sch m e high = AEmit m' sg em ->
  resolve m' (shape_of (operand_of (e_op em))) (popnd_zp e (e_op em)) = Some md ->
  mode_size md = e_bytes em.
Proof.
  intros sch m e high m' sg [p n cy alt] md S W O H R. cbn [e_op e_bytes] in *.
  apply asm_sel0_emits in H as (z & E & ->).
  rewrite (emits_zp E W O) in R. apply resolve_size with (2 := R).
  destruct E; try reflexivity; try exact S.
  rewrite (proj1 (is_imm_popnd_shape p)) by assumption. reflexivity.
Qed.
Print Assumptions asm_sel0_size.

(** the guard only removes emissions: the statement holds of [asm()] as it is now *)
Theorem asm_sel_size : forall sch m e high m' sg em md,
  sensible m e = true ->
  expr_wf e -> expr_off_nonneg e ->
  asm_sel sch m e high = AEmit m' sg em ->
  resolve m' (shape_of (operand_of (e_op em))) (popnd_zp e (e_op em)) = Some md ->
  mode_size md = e_bytes em.
Proof.
  intros sch m e high m' sg em md S W O H R. apply asm_sel_emit_inv in H as [H _].
  eapply asm_sel0_size; eassumption.
Qed.
Print Assumptions asm_sel_size.

(** for a constant pointer at a known address, the truth side is "address + final offset < $100":
    final offset = requested offset + port offset (+1 for the high byte) *)
Theorem popnd_zp_known_addr0 : forall sch m v eight off high m' sg em a y k ix al,
  v_addr v = Some a ->
  asm_sel0 sch m (EAbsolute v eight off) high = AEmit m' sg em ->
  e_op em = PMem y k ix al -> al = true ->
  k = (off + port_offset sch (v_mem v) m + if high then 1 else 0)%Z /\
  popnd_zp (EAbsolute v eight off) (e_op em) = (a + k <? 256)%Z.
Proof.
  intros sch m v eight off high m' sg [p n cy alt] a y k ix al A H E AL. cbn [e_op] in *.
  unfold popnd_zp. rewrite A, E. cbn [operand_of operand_off]. subst al p. rewrite printed_off_always.
  split; [|reflexivity].
  apply asm_sel0_emits in H as (z & Em & _).
  assert (K : k = byte_off sch m v off high) by (inversion Em; subst; auto; easy).
  rewrite K. unfold byte_off. destruct high; lia.
Qed.
Print Assumptions popnd_zp_known_addr0.

Theorem popnd_zp_known_addr : forall sch m v eight off high m' sg em a y k ix al,
  v_addr v = Some a ->
  asm_sel sch m (EAbsolute v eight off) high = AEmit m' sg em ->
  e_op em = PMem y k ix al -> al = true ->
  k = (off + port_offset sch (v_mem v) m + if high then 1 else 0)%Z /\
  popnd_zp (EAbsolute v eight off) (e_op em) = (a + k <? 256)%Z.
Proof.
  intros sch m v eight off high m' sg em a y k ix al A H E AL. apply asm_sel_emit_inv in H as [H _].
  eapply popnd_zp_known_addr0; eassumption.
Qed.
Print Assumptions popnd_zp_known_addr.

(** * The rule before the fix, and why the hypotheses are there *)

(** [R] is a constant pointer to $ff (class Zeropage, well formed); [STA R[1]] prints [R+1],
    address $100: the assembler has to use the 3-byte absolute form.  The pre-fix rule (2 bytes
    whenever the class is Zeropage) reports 2; the repaired [asm_sel] reports 3. *)
Example asm_sel_size_old_rule_refuted :
  let R := mkVar "R" VCharPtr true false MZeropage 1 (Some 255%Z) in
  let e := EAbsolute R true 1 in
  sensible STA e = true /\ expr_wf e /\ expr_off_nonneg e /\
  exists em,
    asm_sel_old SOther STA e false = AEmit STA false em /\
    print_popnd (e_op em) = "R+1"%string /\
    popnd_zp e (e_op em) = false /\
    resolve STA (shape_of (operand_of (e_op em))) (popnd_zp e (e_op em)) = Some Abs /\
    mode_size Abs = 3%N /\ e_bytes em = 2%N /\
    exists em',
      asm_sel SOther STA e false = AEmit STA false em' /\
      e_op em' = e_op em /\ e_bytes em' = 3%N /\ e_cycles em' = 4%N.
Proof.
  cbv zeta. split; [reflexivity|]. split.
  { unfold expr_wf, var_wf; cbn. repeat split; discriminate. }
  split; [unfold expr_off_nonneg; lia|].
  eexists. split; [reflexivity|].
  repeat split.
  eexists. split; [reflexivity|]. repeat split.
Qed.
Print Assumptions asm_sel_size_old_rule_refuted.

(** ... so the statement of [asm_sel_size] is false of the pre-fix rule *)
Theorem asm_sel_old_size_fails :
  ~ (forall sch m e high m' sg em md,
       sensible m e = true -> expr_wf e -> expr_off_nonneg e ->
       asm_sel_old sch m e high = AEmit m' sg em ->
       resolve m' (shape_of (operand_of (e_op em))) (popnd_zp e (e_op em)) = Some md ->
       mode_size md = e_bytes em).
Proof.
  intros F.
  destruct asm_sel_size_old_rule_refuted as (S & W & O & em & H & _ & _ & R & _ & B & _).
  specialize (F _ _ _ _ _ _ _ _ S W O H R). rewrite B in F. discriminate F.
Qed.
Print Assumptions asm_sel_old_size_fails.

(** where no address is known the two rules coincide (before the "Bad left value" guard, which
    the old rule did not have: [asm_sel_old] is stated on [asm_sel0]) *)
Theorem asm_sel_old_same_without_addr : forall sch m e high,
  match expr_var e with Some v => v_addr v = None | None => True end ->
  asm_sel_old sch m e high = asm_sel0 sch m e high.
Proof.
  intros sch m e high A. unfold asm_sel_old.
  destruct e as [ | | | v ? ? | v | v | | ]; try reflexivity.
  all: cbn in A; destruct v as [name ty c sgn mm sz ad]; cbn in A; subst ad; reflexivity.
Qed.
Print Assumptions asm_sel_old_same_without_addr.

(** ... and whatever [asm()] emits now, the old rule emitted as well *)
Theorem asm_sel_old_same_emit_without_addr : forall sch m e high m' sg em,
  match expr_var e with Some v => v_addr v = None | None => True end ->
  asm_sel sch m e high = AEmit m' sg em ->
  asm_sel_old sch m e high = AEmit m' sg em.
Proof.
  intros sch m e high m' sg em A H. apply asm_sel_emit_inv in H as [H _].
  rewrite (asm_sel_old_same_without_addr _ _ _ _ A). exact H.
Qed.
Print Assumptions asm_sel_old_same_emit_without_addr.

(** the offset hypothesis is needed: [R] at $100 (not in page zero), [LDA R[-1]] prints [R+-1],
    address $ff: the assembler takes the 2-byte zero-page form, [asm()] reports 3.  The generator
    never requests a negative offset. *)
Example asm_sel_size_needs_nonneg_offset :
  let R := mkVar "R" VCharPtr true false MOther 1 (Some 256%Z) in
  let e := EAbsolute R true (-1) in
  sensible LDA e = true /\ expr_wf e /\
  exists em,
    asm_sel SOther LDA e false = AEmit LDA false em /\
    print_popnd (e_op em) = "R+-1"%string /\
    resolve LDA (shape_of (operand_of (e_op em))) (popnd_zp e (e_op em)) = Some Zp /\
    mode_size Zp = 2%N /\ e_bytes em = 3%N.
Proof.
  cbv zeta. split; [reflexivity|]. split.
  { unfold expr_wf, var_wf; cbn. repeat split; discriminate. }
  eexists. split; [reflexivity|]. repeat split.
Qed.
Print Assumptions asm_sel_size_needs_nonneg_offset.

(** the class/address agreement is needed: a variable classified Zeropage whose address is $200
    (the compiler never produces one) would get [LDA v,X] with 2 bytes against the 3 of [AbsX] *)
Example asm_sel_size_needs_var_wf :
  let v := mkVar "v" VCharPtr true false MZeropage 4 (Some 512%Z) in
  let e := EAbsoluteX v in
  sensible LDA e = true /\ ~ expr_wf e /\
  exists em,
    asm_sel SOther LDA e false = AEmit LDA false em /\
    resolve LDA (shape_of (operand_of (e_op em))) (popnd_zp e (e_op em)) = Some AbsX /\
    mode_size AbsX = 3%N /\ e_bytes em = 2%N.
Proof.
  cbv zeta. split; [reflexivity|]. split.
  { unfold expr_wf, var_wf; cbn. intros (_ & E & _). discriminate E. }
  eexists. split; [reflexivity|]. repeat split.
Qed.
Print Assumptions asm_sel_size_needs_var_wf.
