(** C07: the conditional machine of the preprocessor model ([Model/Cpp.v]) against the
    specification [Model/CondSpec.v]. *)
From Coq Require Import String Ascii List Bool Arith NArith Lia.
From CC Require Import Base.Str Model.Cpp Model.CondSpec Proofs.StrFacts Proofs.ScanFacts.
Import ListNotations.
Open Scope list_scope.
Open Scope string_scope.

Lemma rev_string_length : forall s, String.length (rev_string s) = String.length s.
Proof. exact StrFacts.rev_string_length. Qed.

Lemma starts_with_inv : forall p s, starts_with p s = true -> exists x, s = p ++ x.
Proof. intros p s H. exists (string_drop (String.length p) s). exact (starts_with_decomp p s H). Qed.

Lemma ends_with_app : forall suf pre, ends_with suf (pre ++ suf) = true.
Proof. exact StrFacts.ends_with_app. Qed.

Lemma contains_false_split : forall pat s, contains pat s = false -> split_once pat s = None.
Proof. exact split_once_none. Qed.

Lemma split_none_contains : forall pat s, split_once pat s = None -> contains pat s = false.
Proof. intros pat s Hs. unfold contains. rewrite Hs. reflexivity. Qed.

Lemma split_once_none_app_l : forall pat a b,
    split_once pat (a ++ b) = None -> split_once pat b = None.
Proof.
  intros pat a b H. apply contains_false_split, (contains_false_app_r pat a), split_none_contains, H.
Qed.

Lemma split_once_none_app_r : forall pat a b,
    split_once pat (a ++ b) = None -> split_once pat a = None.
Proof.
  intros pat a b H. apply contains_false_split, (contains_false_app_l pat a b), split_none_contains, H.
Qed.

Lemma contains_false_mid : forall pat a b c,
    contains pat (a ++ b ++ c) = false -> contains pat b = false.
Proof. intros pat a b c H. exact (contains_false_app_l _ _ _ (contains_false_app_r _ _ _ H)). Qed.

Lemma split_once_no_char : forall x p s,
    all_chars (fun a => negb (Ascii.eqb a x)) s = true -> split_once (String x p) s = None.
Proof.
  intros x p. induction s as [|a s IHs]; intros Hs; [reflexivity|].
  simpl in Hs. apply andb_true_iff in Hs. destruct Hs as [Hax Hs].
  rewrite split_once_eq.
  assert (Hsw : starts_with (String x p) (String a s) = false).
  { simpl. rewrite Ascii.eqb_sym. apply negb_true_iff in Hax. rewrite Hax. reflexivity. }
  rewrite Hsw, (IHs Hs). reflexivity.
Qed.

Lemma all_chars_app : forall f a b, all_chars f (a ++ b) = all_chars f a && all_chars f b.
Proof.
  intros f. induction a as [|x a IHa]; intros b; simpl; [reflexivity|].
  rewrite IHa, andb_assoc. reflexivity.
Qed.

Lemma all_chars_weaken : forall (f g : ascii -> bool) s,
    (forall a, f a = true -> g a = true) -> all_chars f s = true -> all_chars g s = true.
Proof.
  intros f g s Hfg. induction s as [|a s IHs]; intros Hs; [reflexivity|].
  simpl in *. apply andb_true_iff in Hs. destruct Hs as [Ha Hs].
  rewrite (Hfg a Ha), (IHs Hs). reflexivity.
Qed.

Lemma trim_start_edge : forall s, edge_ok s = true -> trim_start s = s.
Proof.
  intros s Hs. destruct s as [|a s]; [discriminate|].
  simpl in *. apply negb_true_iff in Hs. rewrite Hs. reflexivity.
Qed.

Lemma trim_start_trim : forall l, exists w, trim_start l = trim l ++ w.
Proof.
  intros l. unfold trim, trim_end.
  destruct (trim_start_decomp (rev_string (trim_start l))) as [w Hw].
  exists (rev_string w). rewrite <- rev_string_app, <- Hw, rev_string_invol. reflexivity.
Qed.

Lemma trim_decomp : forall s, exists w1 w2, s = w1 ++ trim s ++ w2.
Proof.
  intros s. destruct (trim_start_decomp s) as [w1 H1]. destruct (trim_start_trim s) as [w2 H2].
  exists w1, w2. rewrite <- H2. exact H1.
Qed.

Lemma contains_false_trim : forall pat s, contains pat s = false -> contains pat (trim s) = false.
Proof.
  intros pat s Hc. destruct (trim_decomp s) as [w1 [w2 Hs]].
  rewrite Hs in Hc. exact (contains_false_mid _ _ _ _ Hc).
Qed.

Lemma edge_ok_app : forall s x, edge_ok s = true -> edge_ok (s ++ x) = true.
Proof. intros s x Hs. destruct s; [discriminate | exact Hs]. Qed.

Lemma trim_line : forall pre s,
    edge_ok pre = true -> edge_ok (rev_string s) = true -> trim (pre ++ s ++ nl) = pre ++ s.
Proof.
  intros pre s Hpre Hs. unfold trim.
  rewrite (trim_start_edge (pre ++ s ++ nl) (edge_ok_app _ _ Hpre)).
  unfold trim_end.
  rewrite <- app_assoc_s, rev_string_app.
  change (rev_string nl) with nl.
  change (trim_start (nl ++ rev_string (pre ++ s))) with (trim_start (rev_string (pre ++ s))).
  rewrite trim_start_edge; [apply rev_string_invol|].
  rewrite rev_string_app. apply edge_ok_app. exact Hs.
Qed.

Lemma tight_trim : forall s, tight s = true -> trim s = s.
Proof.
  intros s Hs. unfold tight in Hs. apply andb_true_iff in Hs. destruct Hs as [H1 H2].
  unfold trim, trim_end. rewrite (trim_start_edge s H1), (trim_start_edge _ H2).
  apply rev_string_invol.
Qed.

Lemma tight_nonempty : forall s, tight s = true -> String.eqb s "" = false.
Proof. intros s Hs. destruct s; [discriminate | reflexivity]. Qed.

Lemma replace_all_nil : forall s, replace_all [] s = s.
Proof. intros s. reflexivity. Qed.
Print Assumptions replace_all_nil.

(** the same for the capped driver the line processor calls *)
Lemma replace_all_c_nil : forall s, replace_all_c [] s = s.
Proof. intros s. reflexivity. Qed.
Print Assumptions replace_all_c_nil.

Lemma scan_line_plain : forall asm l st,
    sc_in_comment st = false ->
    String.eqb l "" = false ->
    contains """" l = false -> contains "//" l = false -> contains "/*" l = false ->
    scan_line asm l st = ScanOk l true st.
Proof.
  intros asm l st Hc Hne Hq Hsl Hop. unfold scan_line. rewrite Hc.
  rewrite scan_loop_plain; [|exact Hc|apply String.eqb_neq; exact Hne|exact Hq|exact Hsl|exact Hop].
  cbn [append negb]. rewrite Hne. reflexivity.
Qed.

Lemma ends_with_bs_contains : forall x buf,
    contains "\" buf = false -> ends_with ("\" ++ x) buf = false.
Proof.
  intros x buf Hc. destruct (ends_with ("\" ++ x) buf) eqn:He; [|reflexivity].
  destruct (ends_with_inv _ _ He) as [pre ->]. apply contains_false_app_r in Hc.
  rewrite contains_here in Hc. discriminate.
Qed.

Lemma splice_none : forall f buf rest e,
    contains "\" buf = false -> splice f buf rest e = (buf, e, rest).
Proof.
  intros f buf rest e Hc. apply ScanFacts.splice_none; apply ends_with_bs_contains; exact Hc.
Qed.

Lemma text_ok_inv : forall l, text_ok l = true ->
    contains """" l = false /\ contains "//" l = false /\ contains "/*" l = false
    /\ contains "\" l = false.
Proof.
  intros l Hl. unfold text_ok in Hl.
  repeat (apply andb_true_iff in Hl; destruct Hl as [Hl ?]).
  repeat match goal with H : negb _ = true |- _ => apply negb_true_iff in H end.
  auto.
Qed.

Lemma one_line_inv : forall l, one_line l = true -> ends_with nl l = true /\ String.eqb l "" = false.
Proof.
  intros l Hl. unfold one_line in Hl. apply andb_true_iff in Hl. destruct Hl as [He _].
  split; [exact He|]. destruct l; [discriminate | reflexivity].
Qed.

Lemma is_directive_inv : forall d t,
    is_directive d t = true -> t = d \/ exists z, t = d ++ " " ++ z.
Proof.
  intros d t Ht. unfold is_directive in Ht. apply orb_true_iff in Ht. destruct Ht as [Ht|Ht].
  - left. apply String.eqb_eq. exact Ht.
  - right. exists (string_drop (String.length (d ++ " ")) t).
    rewrite <- app_assoc_s. exact (starts_with_decomp _ _ Ht).
Qed.

Lemma directive_parts_sp : forall d z,
    split_blank (d ++ " " ++ z) = Some (d, z) ->
    contains "//" (d ++ " " ++ z) = false ->
    directive_parts (d ++ " " ++ z) = (d, if String.eqb (trim z) "" then None else Some (trim z)).
Proof.
  intros d z Hsp Hsl. unfold directive_parts. rewrite (before_none _ _ Hsl), Hsp. reflexivity.
Qed.

Lemma directive_name_arg_sp : forall h w z,
    take_alpha (w ++ " " ++ z) = (w, " " ++ z) ->
    contains "//" (String h w ++ " " ++ z) = false ->
    directive_name_arg (String h w ++ " " ++ z)
    = (String h w, if String.eqb (trim z) "" then None else Some (trim z)).
Proof.
  intros h w z Hta Hsl. unfold directive_name_arg. rewrite (before_none _ _ Hsl).
  change (String h w ++ " " ++ z) with (String h (w ++ " " ++ z)). cbv beta iota zeta.
  rewrite Hta. reflexivity.
Qed.

Lemma trim_start_app_char : forall x c,
    is_ws c = false -> trim_start (x ++ String c "") = trim_start x ++ String c "".
Proof. intros x c. exact (trim_start_app_nonws x c ""). Qed.

Lemma hash_blanks_tight : forall l r,
    trim_start l = String "#" r -> trim_start r = r -> hash_blanks l = l.
Proof.
  intros l r Hl Hr. unfold hash_blanks. rewrite Hl.
  change (Ascii.eqb "#" "#") with true. cbv iota zeta. rewrite Hr, Nat.eqb_refl. reflexivity.
Qed.

Lemma hash_blanks_trim_tight : forall l x z,
    trim l = String "#" (String x z) -> is_ws x = false -> hash_blanks l = l.
Proof.
  intros l x z Hl Hx. destruct (trim_start_trim l) as [w Hw]. rewrite Hl in Hw.
  apply (hash_blanks_tight l (String x (z ++ w))); [exact Hw|].
  cbn [trim_start]. rewrite Hx. reflexivity.
Qed.

Lemma hash_blanks_nohash : forall l, starts_with "#" (trim l) = false -> hash_blanks l = l.
Proof.
  intros l Hh. unfold hash_blanks.
  destruct (trim_start l) as [|h rest] eqn:E; [reflexivity|].
  destruct (Ascii.eqb h "#") eqn:Eh; [|reflexivity].
  exfalso. apply Ascii.eqb_eq in Eh. subst h.
  unfold trim, trim_end in Hh. rewrite E, rev_string_cons in Hh.
  rewrite (trim_start_app_char _ "#" eq_refl), rev_string_app in Hh.
  change (rev_string (String "#" "")) with (String "#" "") in Hh.
  cbn [append starts_with] in Hh. rewrite Ascii.eqb_refl in Hh. discriminate.
Qed.

Lemma hash_blanks_directive : forall x d l,
    is_directive (String "#" (String x d)) (trim l) = true -> is_ws x = false -> hash_blanks l = l.
Proof.
  intros x d l Hd Hx. apply is_directive_inv in Hd. destruct Hd as [Hd|[z Hd]].
  - exact (hash_blanks_trim_tight l x d Hd Hx).
  - exact (hash_blanks_trim_tight l x (d ++ " " ++ z) Hd Hx).
Qed.

Lemma hash_prefix_false : forall z t, starts_with "#" t = false -> starts_with (String "#" z) t = false.
Proof. intros z t Hh. exact (starts_with_prefix_false "#" z t Hh). Qed.

Lemma not_active : forall st, st <> Active -> cstate_eqb st Active = false.
Proof. intros st Hst. destruct st; try reflexivity. contradiction. Qed.

Lemma arg_char_ne : forall x a,
    arg_char x = false -> arg_char a = true -> negb (Ascii.eqb a x) = true.
Proof.
  intros x a Hx Ha. destruct (Ascii.eqb_spec a x) as [Heq|Hne]; [|reflexivity].
  subst a. rewrite Hx in Ha. discriminate.
Qed.

Lemma dir_line_no : forall x p pre c post,
    arg_char x = false ->
    all_chars arg_char pre = true -> all_chars arg_char c = true ->
    all_chars (fun a => negb (Ascii.eqb a x)) post = true ->
    contains (String x p) (pre ++ c ++ post) = false.
Proof.
  intros x p pre c post Hx Hpre Hc Hpost. apply split_none_contains, split_once_no_char.
  rewrite !all_chars_app, Hpost.
  rewrite (all_chars_weaken arg_char _ pre (fun a => arg_char_ne x a Hx) Hpre).
  rewrite (all_chars_weaken arg_char _ c (fun a => arg_char_ne x a Hx) Hc).
  reflexivity.
Qed.

(** what the [line_step_*] lemmas below use of a directive line [pre ++ c ++ nl], [pre] a name with
    its blank ("#if ") and [c] a tight argument: the scanner hands it on as it is ([df_ne] to
    [df_op], the hypotheses of [scan_line_plain]), nothing is spliced to it ([df_bs]), and name and
    argument come apart again ([df_trim] to [df_cne]) *)
Record dir_facts (pre c : string) : Prop := mkDF {
  df_ne : String.eqb (pre ++ c ++ nl) "" = false;
  df_q : contains """" (pre ++ c ++ nl) = false;
  df_sl : contains "//" (pre ++ c ++ nl) = false;
  df_op : contains "/*" (pre ++ c ++ nl) = false;
  df_bs : contains "\" (pre ++ c ++ nl) = false;
  df_trim : trim (pre ++ c ++ nl) = pre ++ c;
  df_slt : contains "//" (pre ++ c) = false;
  df_ctrim : trim c = c;
  df_cne : String.eqb c "" = false
}.

Lemma dir_line_facts : forall pre c,
    all_chars arg_char pre = true -> edge_ok pre = true -> arg_ok c = true ->
    dir_facts pre c.
Proof.
  intros pre c Hpre Hedge Hc. unfold arg_ok in Hc. apply andb_true_iff in Hc.
  destruct Hc as [Ht Hch].
  split.
  - destruct pre; [discriminate | reflexivity].
  - apply dir_line_no; auto.
  - apply dir_line_no; auto.
  - apply dir_line_no; auto.
  - apply dir_line_no; auto.
  - apply trim_line; [exact Hedge|]. unfold tight in Ht. apply andb_true_iff in Ht. apply Ht.
  - rewrite <- (app_empty_r c). apply dir_line_no; auto.
  - apply tight_trim. exact Ht.
  - apply tight_nonempty. exact Ht.
Qed.

Lemma cond_value_evaluate : forall c b, cond_value c = Some b -> evaluate c = EvOk b "".
Proof.
  intros c b Hc. unfold cond_value in Hc.
  destruct (evaluate c) as [b' r|m]; [|discriminate].
  destruct r; [|discriminate]. inversion Hc. reflexivity.
Qed.

Section TreeInd.
  Variable P : item -> Prop.
  Variable PL : list item -> Prop.
  Variable PT : tail -> Prop.
  Hypothesis HPlain : forall l, P (Plain l).
  Hypothesis HInert : forall l, P (Inert l).
  Hypothesis HGroup : forall h body rest, PL body -> PT rest -> P (Group h body rest).
  Hypothesis HNil : PL [].
  Hypothesis HCons : forall i t, P i -> PL t -> PL (i :: t).
  Hypothesis HElif : forall c body rest, PL body -> PT rest -> PT (Elif c body rest).
  Hypothesis HElse : forall body, PL body -> PT (Else body).
  Hypothesis HEndif : PT Endif.

  Definition items_of (f : forall i, P i) : forall t, PL t :=
    fix items (t : list item) : PL t :=
      match t with
      | [] => HNil
      | i :: t' => HCons i t' (f i) (items t')
      end.

  Fixpoint item_ind2 (i : item) : P i :=
    match i with
    | Plain l => HPlain l
    | Inert l => HInert l
    | Group h body rest => HGroup h body rest (items_of item_ind2 body) (tail_ind2 rest)
    end
  with tail_ind2 (r : tail) : PT r :=
    match r with
    | Elif c body rest => HElif c body rest (items_of item_ind2 body) (tail_ind2 rest)
    | Else body => HElse body (items_of item_ind2 body)
    | Endif => HEndif
    end.

  Lemma items_ind2 : forall t, PL t.
  Proof. exact (items_of item_ind2). Qed.
End TreeInd.

Lemma cond_ok_inv : forall c, cond_ok c = true ->
    arg_ok c = true /\ cond_value c = Some (cond_true c).
Proof.
  intros c Hc. unfold cond_ok in Hc. apply andb_true_iff in Hc. destruct Hc as [Ha Hv].
  split; [exact Ha|]. unfold cond_true. destruct (cond_value c); [reflexivity | discriminate].
Qed.


Definition no_bs (l : string) : Prop := contains "\" l = false.

(** [plain_ok l] and [inert_ok l] both are [one_line l && text_ok l && _] *)
Lemma text_ok_no_bs : forall (a c : bool) l, a && text_ok l && c = true -> no_bs l.
Proof.
  intros a c l Hl. apply andb_true_iff in Hl. destruct Hl as [Hl _].
  apply andb_true_iff in Hl. destruct Hl as [_ Ht]. apply (text_ok_inv l Ht).
Qed.

Lemma plain_no_bs : forall l, plain_ok l = true -> no_bs l.
Proof. intros l. apply text_ok_no_bs. Qed.

Lemma inert_no_bs : forall l, inert_ok l = true -> no_bs l.
Proof. intros l. apply text_ok_no_bs. Qed.

Lemma head_no_bs : forall h, head_ok h = true -> no_bs (head_line h).
Proof.
  intros h Hh. destruct h as [c|n|n]; cbn [head_ok head_line] in *.
  - apply cond_ok_inv in Hh. destruct Hh as [Ha _].
    exact (df_bs _ _ (dir_line_facts "#if " c eq_refl eq_refl Ha)).
  - exact (df_bs _ _ (dir_line_facts "#ifdef " n eq_refl eq_refl Hh)).
  - exact (df_bs _ _ (dir_line_facts "#ifndef " n eq_refl eq_refl Hh)).
Qed.

Lemma elif_no_bs : forall c, cond_ok c = true -> no_bs (elif_line c).
Proof.
  intros c Hc. apply cond_ok_inv in Hc. destruct Hc as [Ha _].
  exact (df_bs _ _ (dir_line_facts "#elif " c eq_refl eq_refl Ha)).
Qed.

Section Steps.
  Variable rec : string -> option (string * N) -> bool -> list string -> pstate -> presult.
  Variable fs : files.
  Variable fname : string.
  Variable inc : option (string * N).
  Variable asm : bool.

  (** [line_step] on a line that the scanner hands on as it is ([Hc] to [Hop], the hypotheses of
      [scan_line_plain]) and [hash_blanks] leaves alone ([Hhb]), opened down to the dispatch of
      [line_body] on the directive name *)
  Ltac step_open Hc Hne Hq Hsl Hop Hhb :=
    unfold line_step; cbn [p_ctx c_scan];
    rewrite (scan_line_plain asm _ _ Hc Hne Hq Hsl Hop);
    unfold line_body, set_scan, set_state, emit;
    cbn [negb p_ctx p_state p_stack p_out p_map c_macros c_scan];
    rewrite !Hhb.

  (** ** an ordinary line: emitted when Active, dropped otherwise *)
  Lemma line_step_plain : forall ms sc o mp st stk line l,
      sc_in_comment sc = false ->
      plain_ok l = true ->
      replace_all_c ms l = l ->
      line_step rec fs fname inc asm (mkP (mkCtx ms sc) o mp st stk) line l =
      POk (if cstate_eqb st Active
           then mkP (mkCtx ms sc) (o ++ l) ((fname, line, inc) :: mp) st stk
           else mkP (mkCtx ms sc) o mp st stk).
  Proof.
    intros ms sc o mp st stk line l Hc Hok Hrep.
    unfold plain_ok in Hok. apply andb_true_iff in Hok. destruct Hok as [Hok Hh].
    apply andb_true_iff in Hok. destruct Hok as [H1 Ht].
    apply negb_true_iff in Hh.
    destruct (one_line_inv l H1) as [Hnl Hne].
    destruct (text_ok_inv l Ht) as [Hq [Hsl [Hop Hbs]]].
    pose proof (hash_blanks_nohash l Hh) as Hhb.
    step_open Hc Hne Hq Hsl Hop Hhb.
    rewrite (hash_prefix_false "ifdef" _ Hh), (hash_prefix_false "ifndef" _ Hh),
      (hash_prefix_false "undef" _ Hh), (hash_prefix_false "define" _ Hh), Hrep, Hh, Hnl.
    destruct (cstate_eqb st Active); reflexivity.
  Qed.

  (** ** a #define / #undef / #include / #error line outside an Active region: no effect *)

  (** #define and #undef are dispatched before macro substitution: whatever the macros *)
  Lemma line_step_define_undef : forall ms sc o mp st stk line l,
      sc_in_comment sc = false ->
      one_line l = true -> text_ok l = true ->
      is_directive "#define" (trim l) || is_directive "#undef" (trim l) = true ->
      st <> Active ->
      line_step rec fs fname inc asm (mkP (mkCtx ms sc) o mp st stk) line l =
      POk (mkP (mkCtx ms sc) o mp st stk).
  Proof.
    intros ms sc o mp st stk line l Hc H1 Ht Hd Hst.
    destruct (one_line_inv l H1) as [Hnl Hne].
    destruct (text_ok_inv l Ht) as [Hq [Hsl [Hop Hbs]]].
    apply orb_true_iff in Hd. destruct Hd as [Hd|Hd];
      pose proof (hash_blanks_directive _ _ l Hd eq_refl) as Hhb;
      step_open Hc Hne Hq Hsl Hop Hhb; rewrite (not_active st Hst);
      apply is_directive_inv in Hd; destruct Hd as [Hd|[z Hd]]; rewrite Hd; reflexivity.
  Qed.

  (** #include and #error are recognised after macro substitution, which must leave the line alone *)
  Lemma line_step_inert : forall ms sc o mp st stk line l,
      sc_in_comment sc = false ->
      inert_ok l = true ->
      replace_all_c ms l = l ->
      st <> Active ->
      line_step rec fs fname inc asm (mkP (mkCtx ms sc) o mp st stk) line l =
      POk (mkP (mkCtx ms sc) o mp st stk).
  Proof.
    intros ms sc o mp st stk line l Hc Hok Hrep Hst.
    unfold inert_ok in Hok. apply andb_true_iff in Hok. destruct Hok as [Hok Hd].
    apply andb_true_iff in Hok. destruct Hok as [H1 Ht].
    apply orb_true_iff in Hd. destruct Hd as [Hd|Hd]; [apply orb_true_iff in Hd; destruct Hd as [Hd|Hd]|].
    { apply line_step_define_undef; assumption. }
    all: destruct (one_line_inv l H1) as [Hnl Hne];
      destruct (text_ok_inv l Ht) as [Hq [Hsl [Hop Hbs]]];
      pose proof (contains_false_trim _ _ Hsl) as Hslt;
      pose proof (hash_blanks_directive _ _ l Hd eq_refl) as Hhb;
      step_open Hc Hne Hq Hsl Hop Hhb; rewrite Hrep, (not_active st Hst);
      apply is_directive_inv in Hd; destruct Hd as [Hd|[z Hd]]; rewrite Hd in *; try reflexivity.
    - rewrite (directive_name_arg_sp "#" "include" z eq_refl Hslt). reflexivity.
    - rewrite (directive_name_arg_sp "#" "error" z eq_refl Hslt). reflexivity.
  Qed.

  Lemma line_step_if : forall sc o mp st stk line c b,
      sc_in_comment sc = false ->
      arg_ok c = true -> cond_value c = Some b ->
      line_step rec fs fname inc asm (mkP (mkCtx [] sc) o mp st stk) line ("#if " ++ c ++ nl) =
      POk (mkP (mkCtx [] sc) o mp
               (if cstate_eqb st Active then (if b then Active else Inactive) else Skip)
               (st :: stk)).
  Proof.
    intros sc o mp st stk line c b Hc Hok Hv.
    destruct (dir_line_facts "#if " c eq_refl eq_refl Hok)
      as [Hne Hq Hsl Hop Hbs Htrim Hslt Hct Hcne].
    pose proof (hash_blanks_trim_tight _ "i"%char ("f " ++ c) Htrim eq_refl) as Hhb.
    step_open Hc Hne Hq Hsl Hop Hhb.
    rewrite replace_all_c_nil, Htrim.
    change ("#if " ++ c) with ("#if" ++ " " ++ c).
    rewrite (directive_name_arg_sp "#" "if" c eq_refl Hslt), Hct, Hcne.
    rewrite (cond_value_evaluate _ _ Hv). destruct (cstate_eqb st Active); reflexivity.
  Qed.

  Lemma line_step_elif : forall sc o mp st stk line c b,
      sc_in_comment sc = false ->
      arg_ok c = true -> cond_value c = Some b ->
      line_step rec fs fname inc asm (mkP (mkCtx [] sc) o mp st stk) line (elif_line c) =
      POk (mkP (mkCtx [] sc) o mp
               (if cstate_eqb st Inactive then (if b then Active else Inactive) else Skip)
               stk).
  Proof.
    intros sc o mp st stk line c b Hc Hok Hv. unfold elif_line.
    destruct (dir_line_facts "#elif " c eq_refl eq_refl Hok)
      as [Hne Hq Hsl Hop Hbs Htrim Hslt Hct Hcne].
    pose proof (hash_blanks_trim_tight _ "e"%char ("lif " ++ c) Htrim eq_refl) as Hhb.
    step_open Hc Hne Hq Hsl Hop Hhb.
    rewrite replace_all_c_nil, Htrim.
    change ("#elif " ++ c) with ("#elif" ++ " " ++ c).
    rewrite (directive_name_arg_sp "#" "elif" c eq_refl Hslt), Hct, Hcne.
    rewrite (cond_value_evaluate _ _ Hv). destruct (cstate_eqb st Inactive); reflexivity.
  Qed.

  Lemma line_step_ifdef : forall ms sc o mp st stk line n,
      sc_in_comment sc = false ->
      arg_ok n = true ->
      line_step rec fs fname inc asm (mkP (mkCtx ms sc) o mp st stk) line ("#ifdef " ++ n ++ nl) =
      POk (mkP (mkCtx ms sc) o mp
               (if cstate_eqb st Active
                then match get_macro ms n with None => Inactive | Some _ => Active end
                else Skip)
               (st :: stk)).
  Proof.
    intros ms sc o mp st stk line n Hc Hok.
    destruct (dir_line_facts "#ifdef " n eq_refl eq_refl Hok)
      as [Hne Hq Hsl Hop Hbs Htrim Hslt Hct Hcne].
    pose proof (hash_blanks_trim_tight _ "i"%char ("fdef " ++ n) Htrim eq_refl) as Hhb.
    step_open Hc Hne Hq Hsl Hop Hhb.
    rewrite Htrim.
    change ("#ifdef " ++ n) with ("#ifdef" ++ " " ++ n).
    rewrite (directive_parts_sp "#ifdef" n eq_refl Hslt), Hct, Hcne.
    reflexivity.
  Qed.

  Lemma line_step_ifndef : forall ms sc o mp st stk line n,
      sc_in_comment sc = false ->
      arg_ok n = true ->
      line_step rec fs fname inc asm (mkP (mkCtx ms sc) o mp st stk) line ("#ifndef " ++ n ++ nl) =
      POk (mkP (mkCtx ms sc) o mp
               (if cstate_eqb st Active
                then match get_macro ms n with Some _ => Inactive | None => Active end
                else Skip)
               (st :: stk)).
  Proof.
    intros ms sc o mp st stk line n Hc Hok.
    destruct (dir_line_facts "#ifndef " n eq_refl eq_refl Hok)
      as [Hne Hq Hsl Hop Hbs Htrim Hslt Hct Hcne].
    pose proof (hash_blanks_trim_tight _ "i"%char ("fndef " ++ n) Htrim eq_refl) as Hhb.
    step_open Hc Hne Hq Hsl Hop Hhb.
    rewrite Htrim.
    change ("#ifndef " ++ n) with ("#ifndef" ++ " " ++ n).
    rewrite (directive_parts_sp "#ifndef" n eq_refl Hslt), Hct, Hcne.
    reflexivity.
  Qed.

  Lemma line_step_else : forall sc o mp st stk line,
      sc_in_comment sc = false ->
      line_step rec fs fname inc asm (mkP (mkCtx [] sc) o mp st stk) line else_line =
      POk (mkP (mkCtx [] sc) o mp (if cstate_eqb st Inactive then Active else Skip) stk).
  Proof.
    intros sc o mp st stk line Hc.
    unfold line_step; cbn [p_ctx c_scan].
    rewrite (scan_line_plain asm else_line sc Hc eq_refl eq_refl eq_refl eq_refl).
    unfold line_body. reflexivity.
  Qed.

  Lemma line_step_endif : forall sc o mp st s0 stk line,
      sc_in_comment sc = false ->
      line_step rec fs fname inc asm (mkP (mkCtx [] sc) o mp st (s0 :: stk)) line endif_line =
      POk (mkP (mkCtx [] sc) o mp s0 stk).
  Proof.
    intros sc o mp st s0 stk line Hc.
    unfold line_step; cbn [p_ctx c_scan].
    rewrite (scan_line_plain asm endif_line sc Hc eq_refl eq_refl eq_refl eq_refl).
    unfold line_body. reflexivity.
  Qed.

  (** the head line of a group, no macro defined *)
  Lemma line_step_head : forall sc o mp st stk line h,
      sc_in_comment sc = false ->
      head_ok h = true ->
      line_step rec fs fname inc asm (mkP (mkCtx [] sc) o mp st stk) line (head_line h) =
      POk (mkP (mkCtx [] sc) o mp
               (if cstate_eqb st Active then (if head_true h then Active else Inactive) else Skip)
               (st :: stk)).
  Proof.
    intros sc o mp st stk line h Hc Hok. destruct h as [c|n|n]; cbn [head_line head_ok head_true] in *.
    - unfold cond_ok in Hok. apply andb_true_iff in Hok. destruct Hok as [Hok Hv].
      unfold cond_true. destruct (cond_value c) as [b|] eqn:Hcv; [|discriminate].
      apply line_step_if; assumption.
    - rewrite (line_step_ifdef [] sc o mp st stk line n Hc Hok). reflexivity.
    - rewrite (line_step_ifndef [] sc o mp st stk line n Hc Hok). reflexivity.
  Qed.

  (** the line number after [n] lines none of which is spliced, in the shape [go] gives it,
      [line + 1 + extra] at [extra = 0], so that [go_one] rewrites in [runs] without arithmetic *)
  Fixpoint adv (n : nat) (line : N) : N :=
    match n with O => line | S k => adv k (line + 1 + 0)%N end.

  Lemma adv_add : forall a b line, adv (a + b) line = adv b (adv a line).
  Proof. induction a as [|a IHa]; intros b line; [reflexivity | exact (IHa b _)]. Qed.

  (** [runs ls sc st stk st' stk' L]: from conditional state [st] and stack [stk], with no macro
      defined, the lines [ls] are processed without error, change nothing but the conditional
      state and stack, which become [st'] and [stk'], and emit exactly the lines [L].  Stated on
      the model's own loop [go], in continuation form (whatever lines [rest] follow), so that
      blocks of lines compose by rewriting *)
  Definition runs (ls : list string) (sc : scan_state) (st : cstate) (stk : list cstate)
             (st' : cstate) (stk' : list cstate) (L : list string) : Prop :=
    forall o mp line fuel rest, exists mp',
      go rec fs fname inc asm (List.length ls + fuel) (ls ++ rest) line (mkP (mkCtx [] sc) o mp st stk) =
      go rec fs fname inc asm fuel rest (adv (List.length ls) line)
         (mkP (mkCtx [] sc) (o ++ String.concat "" L) mp' st' stk')
      /\ List.length mp' = List.length L + List.length mp.

  Lemma runs_nil : forall sc st stk, runs [] sc st stk st stk [].
  Proof.
    intros sc st stk o mp line fuel rest. exists mp.
    rewrite app_empty_r. split; reflexivity.
  Qed.

  Lemma runs_app : forall a b sc st stk st1 stk1 st2 stk2 L1 L2,
      runs a sc st stk st1 stk1 L1 -> runs b sc st1 stk1 st2 stk2 L2 ->
      runs (a ++ b) sc st stk st2 stk2 (L1 ++ L2).
  Proof.
    intros a b sc st stk st1 stk1 st2 stk2 L1 L2 Ha Hb o mp line fuel rest.
    destruct (Ha o mp line (List.length b + fuel) (b ++ rest)%list) as [mp1 [Ea La]].
    destruct (Hb (o ++ String.concat "" L1) mp1 (adv (List.length a) line) fuel rest) as [mp2 [Eb Lb]].
    exists mp2. rewrite app_length, <- Nat.add_assoc, <- app_assoc, Ea, Eb, adv_add, concat_app, app_assoc_s.
    split; [reflexivity|]. rewrite Lb, La, app_length. lia.
  Qed.

  Lemma runs_cons : forall l b sc st stk st1 stk1 st2 stk2 L1 L2,
      runs [l] sc st stk st1 stk1 L1 -> runs b sc st1 stk1 st2 stk2 L2 ->
      runs (l :: b) sc st stk st2 stk2 (L1 ++ L2).
  Proof. intros l b. exact (runs_app [l] b). Qed.

  Lemma go_one : forall l rest fuel line p,
      contains "\" l = false ->
      go rec fs fname inc asm (S fuel) (l :: rest) line p =
      match line_step rec fs fname inc asm p (line + 1 + 0)%N l with
      | POk p' => go rec fs fname inc asm fuel rest (line + 1 + 0)%N p'
      | PErr e => PErr e
      end.
  Proof. intros l rest fuel line p Hl. cbn [go]. rewrite (splice_none _ l rest 0%N Hl). reflexivity. Qed.

  Lemma runs_silent : forall l sc st stk st' stk',
      contains "\" l = false ->
      (forall o mp line,
          line_step rec fs fname inc asm (mkP (mkCtx [] sc) o mp st stk) line l =
          POk (mkP (mkCtx [] sc) o mp st' stk')) ->
      runs [l] sc st stk st' stk' [].
  Proof.
    intros l sc st stk st' stk' Hbs Hl o mp line fuel rest. exists mp.
    cbn [List.length Nat.add List.app adv String.concat].
    rewrite (go_one _ _ _ _ _ Hbs), Hl, app_empty_r. split; reflexivity.
  Qed.

  Lemma runs_plain : forall l sc st stk,
      sc_in_comment sc = false -> plain_ok l = true ->
      runs [l] sc st stk st stk (if cstate_eqb st Active then [l] else []).
  Proof.
    intros l sc st stk Hc Hl o mp line fuel rest.
    cbn [List.length Nat.add List.app adv].
    rewrite (go_one _ _ _ _ _ (plain_no_bs l Hl)).
    rewrite (line_step_plain [] sc o mp st stk _ l Hc Hl (replace_all_c_nil l)).
    destruct (cstate_eqb st Active).
    - exists ((fname, (line + 1 + 0)%N, inc) :: mp). split; reflexivity.
    - exists mp. rewrite app_empty_r. split; reflexivity.
  Qed.

  Lemma runs_eq : forall ls sc st stk st' stk' L L',
      runs ls sc st stk st' stk' L -> L = L' -> runs ls sc st stk st' stk' L'.
  Proof. intros ls sc st stk st' stk' L L' Hr HL. subst L'. exact Hr. Qed.

  Definition emitted (st : cstate) (L : list string) : list string :=
    if cstate_eqb st Active then L else [].

  (** a branch of a group: its opening line [l] (the head, an #elif) sets the state according to
      [live] (the branch can still be selected) and [b] (its condition holds); then come the body
      and the rest of the group *)
  Lemma runs_branch : forall l body rest sc st stk s0 stk' (live b : bool),
      (forall st stk, wf (cstate_eqb st Active) body = true ->
                      runs (flatten body) sc st stk st stk (emitted st (spec_active body))) ->
      (forall st s0 stk, wf_tail (cstate_eqb st Inactive) rest = true ->
                         runs (flatten_tail rest) sc st (s0 :: stk) s0 stk
                              (if cstate_eqb st Inactive then active_tail rest else [])) ->
      wf (live && b) body = true -> wf_tail (live && negb b) rest = true ->
      runs [l] sc st stk (if live then (if b then Active else Inactive) else Skip) (s0 :: stk') [] ->
      runs (l :: flatten body ++ flatten_tail rest) sc st stk s0 stk'
           (if live then (if b then spec_active body else active_tail rest) else []).
  Proof.
    intros l body rest sc st stk s0 stk' live b IHb IHr Hwb Hwr Hl.
    set (st1 := if live then (if b then Active else Inactive) else Skip) in *.
    assert (Ha : cstate_eqb st1 Active = live && b) by (destruct live, b; reflexivity).
    assert (Hi : cstate_eqb st1 Inactive = live && negb b) by (destruct live, b; reflexivity).
    rewrite <- Ha in Hwb. rewrite <- Hi in Hwr.
    apply runs_eq with (1 := runs_cons _ _ _ _ _ _ _ _ _ _ _ Hl
                               (runs_app _ _ _ _ _ _ _ _ _ _ _ (IHb st1 _ Hwb) (IHr st1 s0 stk' Hwr))).
    unfold emitted. rewrite Ha, Hi.
    destruct live, b; cbn [andb negb List.app]; try reflexivity. apply app_nil_r.
  Qed.

  Lemma runs_tree : forall sc, sc_in_comment sc = false ->
      forall t st stk,
        lines_ok t = true -> wf (cstate_eqb st Active) t = true ->
        runs (flatten t) sc st stk st stk (emitted st (spec_active t)).
  Proof.
    intros sc Hc.
    apply (items_ind2
      (fun i => forall st stk,
           lines_ok_item i = true -> wf_item (cstate_eqb st Active) i = true ->
           runs (flatten_item i) sc st stk st stk (emitted st (active_item i)))
      (fun t => forall st stk,
           lines_ok t = true -> wf (cstate_eqb st Active) t = true ->
           runs (flatten t) sc st stk st stk (emitted st (spec_active t)))
      (fun r => forall st s0 stk,
           lines_ok_tail r = true -> wf_tail (cstate_eqb st Inactive) r = true ->
           runs (flatten_tail r) sc st (s0 :: stk) s0 stk
                (if cstate_eqb st Inactive then active_tail r else []))).
    - intros l st stk Hok _. exact (runs_plain l sc st stk Hc Hok).
    - intros l st stk Hok Hwf. cbn [lines_ok_item wf_item flatten_item active_item] in *.
      apply negb_true_iff in Hwf.
      apply runs_eq with (L := []); [|unfold emitted; destruct (cstate_eqb st Active); reflexivity].
      apply runs_silent; [exact (inert_no_bs l Hok)|]. intros o mp line.
      apply line_step_inert; [exact Hc | exact Hok | apply replace_all_c_nil |].
      intros Hst. subst st. discriminate.
    - intros h body rest IHbody IHrest st stk Hok Hwf.
      cbn [lines_ok_item wf_item flatten_item active_item] in *.
      apply andb_true_iff in Hok. destruct Hok as [Hok Hokr].
      apply andb_true_iff in Hok. destruct Hok as [Hokh Hokb].
      apply andb_true_iff in Hwf. destruct Hwf as [Hwfb Hwfr].
      apply (runs_branch (head_line h) body rest sc st stk st stk (cstate_eqb st Active) (head_true h)
               (fun st stk => IHbody st stk Hokb) (fun st s0 stk => IHrest st s0 stk Hokr) Hwfb Hwfr).
      apply runs_silent; [exact (head_no_bs h Hokh)|]. intros o mp line. apply line_step_head; assumption.
    - intros st stk _ _. apply runs_eq with (1 := runs_nil sc st stk).
      unfold emitted. destruct (cstate_eqb st Active); reflexivity.
    - intros i t IHi IHt st stk Hok Hwf.
      unfold lines_ok, wf in Hok, Hwf. cbn [forallb] in Hok, Hwf.
      apply andb_true_iff in Hok. destruct Hok as [Hoki Hokt].
      apply andb_true_iff in Hwf. destruct Hwf as [Hwfi Hwft].
      apply runs_eq with (1 := runs_app _ _ _ _ _ _ _ _ _ _ _ (IHi st stk Hoki Hwfi) (IHt st stk Hokt Hwft)).
      unfold emitted, spec_active.
      destruct (cstate_eqb st Active); reflexivity.
    - intros c body rest IHbody IHrest st s0 stk Hok Hwf.
      cbn [lines_ok_tail wf_tail flatten_tail active_tail] in *.
      apply andb_true_iff in Hok. destruct Hok as [Hok Hokr].
      apply andb_true_iff in Hok. destruct Hok as [Hokc Hokb].
      apply andb_true_iff in Hwf. destruct Hwf as [Hwfb Hwfr].
      destruct (cond_ok_inv c Hokc) as [Harg Hval].
      apply (runs_branch (elif_line c) body rest sc st (s0 :: stk) s0 stk (cstate_eqb st Inactive) (cond_true c)
               (fun st stk => IHbody st stk Hokb) (fun st s0 stk => IHrest st s0 stk Hokr) Hwfb Hwfr).
      apply runs_silent; [exact (elif_no_bs c Hokc)|]. intros o mp line. apply line_step_elif; assumption.
    - intros body IHbody st s0 stk Hok Hwf.
      cbn [lines_ok_tail wf_tail flatten_tail active_tail] in *.
      pose (st2 := if cstate_eqb st Inactive then Active else Skip).
      assert (Helse : runs [else_line] sc st (s0 :: stk) st2 (s0 :: stk) []).
      { apply runs_silent; [reflexivity|]. intros o mp line. apply line_step_else; assumption. }
      assert (H2a : cstate_eqb st2 Active = cstate_eqb st Inactive).
      { unfold st2. destruct (cstate_eqb st Inactive); reflexivity. }
      rewrite <- H2a in Hwf.
      pose proof (IHbody st2 (s0 :: stk) Hok Hwf) as Hb.
      assert (Hend : runs [endif_line] sc st2 (s0 :: stk) s0 stk []).
      { apply runs_silent; [reflexivity|]. intros o mp line. apply line_step_endif; assumption. }
      apply runs_eq with (1 := runs_cons _ _ _ _ _ _ _ _ _ _ _ Helse (runs_app _ _ _ _ _ _ _ _ _ _ _ Hb Hend)).
      unfold emitted. rewrite H2a. fold (spec_active body).
      destruct (cstate_eqb st Inactive); cbn [List.app]; [apply app_nil_r | reflexivity].
    - intros st s0 stk _ _.
      apply runs_eq with (L := []); [|destruct (cstate_eqb st Inactive); reflexivity].
      apply runs_silent; [reflexivity|]. intros o mp line. apply line_step_endif; assumption.
  Qed.
End Steps.

Print Assumptions line_step_plain.
Print Assumptions line_step_inert.
Print Assumptions line_step_if.
Print Assumptions line_step_elif.
Print Assumptions line_step_ifdef.
Print Assumptions line_step_ifndef.
Print Assumptions line_step_else.
Print Assumptions line_step_endif.
Print Assumptions line_step_head.
Print Assumptions runs_tree.



(** with any table of include files (none is ever opened) *)
Theorem cond_machine_correct_fs : forall (fs : files) (fname : string) (t : list item),
    tree_ok t ->
    exists p, run_cpp fs fname [] (flatten t) = POk p
              /\ p_out p = String.concat "" (spec_active t)
              /\ c_macros (p_ctx p) = []
              /\ p_state p = Active /\ p_stack p = []
              /\ List.length (p_map p) = List.length (spec_active t).
Proof.
  intros fs fname t [Hok Hwf].
  unfold run_cpp.
  change (process 8 fs fname None false (flatten t)
                  (mkP (init_ctx []) "" [] Active []))
    with (go (process 7 fs) fs fname None false (S (List.length (flatten t))) (flatten t) 0%N
             (mkP (mkCtx [] (mkScan false 0 [])) "" [] Active [])).
  destruct (runs_tree (process 7 fs) fs fname None false (mkScan false 0 []) eq_refl
                      t Active [] Hok Hwf "" [] 0%N 1 []) as [mp' [Hrun Hlen]].
  rewrite app_nil_r, Nat.add_1_r in Hrun.
  eexists. split; [exact Hrun|].
  cbn [p_out p_ctx c_macros p_state p_stack p_map emitted cstate_eqb] in *.
  repeat split.
  rewrite Hlen. apply Nat.add_0_r.
Qed.
Print Assumptions cond_machine_correct_fs.

Theorem cond_machine_correct : forall (fname : string) (t : list item),
    tree_ok t ->
    exists p, run_cpp [] fname [] (flatten t) = POk p
              /\ p_out p = String.concat "" (spec_active t)
              /\ c_macros (p_ctx p) = []
              /\ p_state p = Active /\ p_stack p = []
              /\ List.length (p_map p) = List.length (spec_active t).
Proof. intros fname t Ht. exact (cond_machine_correct_fs [] fname t Ht). Qed.
Print Assumptions cond_machine_correct.

Theorem inactive_define_undef_inert : forall rec fs fname inc asm p line l,
    one_line l = true -> text_ok l = true ->
    is_directive "#define" (trim l) || is_directive "#undef" (trim l) = true ->
    sc_in_comment (c_scan (p_ctx p)) = false ->
    p_state p <> Active ->
    line_step rec fs fname inc asm p line l = POk p.
Proof.
  intros rec fs fname inc asm p line l H1 Ht Hd Hc Hst.
  destruct p as [[ms sc] o mp st stk]. cbn [p_ctx c_scan p_state] in *.
  apply line_step_define_undef; assumption.
Qed.
Print Assumptions inactive_define_undef_inert.

(** general form: ordinary lines and #define / #undef / #include / #error lines, outside an
    Active region, with the scanner not in a comment, leave the whole state unchanged --
    provided macro substitution does not rewrite the line (always so when no macro is defined,
    [replace_all_c_nil]; see [inactive_not_inert_with_macros] for why this is needed) *)
Theorem inactive_is_inert : forall rec fs fname inc asm p line l,
    plain_ok l = true \/ inert_ok l = true ->
    sc_in_comment (c_scan (p_ctx p)) = false ->
    replace_all_c (c_macros (p_ctx p)) l = l ->
    p_state p <> Active ->
    line_step rec fs fname inc asm p line l = POk p.
Proof.
  intros rec fs fname inc asm p line l Hl Hc Hrep Hst.
  destruct p as [[ms sc] o mp st stk]. cbn [p_ctx c_scan c_macros p_state] in *.
  destruct Hl as [Hl|Hl].
  - rewrite (line_step_plain rec fs fname inc asm ms sc o mp st stk line l Hc Hl Hrep).
    rewrite (not_active st Hst). reflexivity.
  - apply line_step_inert; assumption.
Qed.
Print Assumptions inactive_is_inert.

Corollary inactive_is_inert_no_macros : forall rec fs fname inc asm p line l,
    plain_ok l = true \/ inert_ok l = true ->
    sc_in_comment (c_scan (p_ctx p)) = false ->
    c_macros (p_ctx p) = [] ->
    p_state p <> Active ->
    line_step rec fs fname inc asm p line l = POk p.
Proof.
  intros rec fs fname inc asm p line l Hl Hc Hms Hst.
  apply inactive_is_inert; try assumption. rewrite Hms. apply replace_all_c_nil.
Qed.
Print Assumptions inactive_is_inert_no_macros.

(** Without the substitution hypothesis the statement is false: the model (like the code)
    substitutes macros in skipped lines too and then looks for a directive in the result.
    With [x] defined as [#endif], the ordinary line "x" inside a skipped region closes the
    group, and a skipped [#include] / [#error] line is rewritten before being recognised.
    (With [x] defined as [#bogus] the line is an unknown directive, which is ignored in a region
    that is not selected: Proofs/SkipFacts.v.) *)
Example inactive_not_inert_with_macros :
  let rec := fun (_ : string) (_ : option (string * N)) (_ : bool) (_ : list string) (p : pstate) => POk p in
  let p ms := mkP (mkCtx ms (mkScan false 0 [])) "" [] Skip [Active] in
  plain_ok ("x" ++ nl) = true
  /\ line_step rec [] "f.c" None false (p [("x", MObj "#endif")]) 1 ("x" ++ nl)
     = POk (mkP (mkCtx [("x", MObj "#endif")] (mkScan false 0 [])) "" [] Active [])
  /\ line_step rec [] "f.c" None false (p [("x", MObj "#bogus")]) 1 ("x" ++ nl)
     = POk (p [("x", MObj "#bogus")])
  /\ inert_ok ("#error boom" ++ nl) = true
  /\ line_step rec [] "f.c" None false (p [("error", MObj "else")]) 1 ("#error boom" ++ nl)
     = PErr (mkErr ESyntax "f.c" 1 None "Unexpected expression after `#else`").
Proof. vm_compute. repeat split. Qed.
Print Assumptions inactive_not_inert_with_macros.

(** Why string literals are excluded from the lines considered here: the scanner runs before
    the conditional state is looked at, so a skipped line containing a string literal still
    registers the literal (the counter advances), although nothing is emitted. *)
Example skipped_line_with_literal_changes_scanner :
  let rec := fun (_ : string) (_ : option (string * N)) (_ : bool) (_ : list string) (p : pstate) => POk p in
  line_step rec [] "f.c" None false (mkP (mkCtx [] (mkScan false 0 [])) "" [] Skip [Active]) 1
            ("puts(""hi"");" ++ nl)
  = POk (mkP (mkCtx [] (mkScan false 1 ["hi"])) "" [] Skip [Active]).
Proof. vm_compute. reflexivity. Qed.
Print Assumptions skipped_line_with_literal_changes_scanner.



(** decimal, no leading zero (the digits of [Base.Str.string_of_N], Rust's [{}]) *)
Definition print_dec (n : N) : string := string_of_N n.

Fixpoint pow10c (k : nat) : N :=
  match k with O => 1%N | S k' => (10 * pow10c k')%N end.

Lemma pow10c_eq : forall k, pow10c k = pow10 k.
Proof. induction k as [|k IH]; cbn [pow10c pow10]; [|rewrite IH]; reflexivity. Qed.

Lemma pos_lt_pow10c : forall p, (Npos p < pow10c (Pos.size_nat p))%N.
Proof. intros p. rewrite pow10c_eq. apply pos_lt_pow10. Qed.

Lemma N_lt_pow10c : forall n, (n < pow10c (S (N.size_nat n)))%N.
Proof. intros n. rewrite pow10c_eq. apply N_lt_pow10. Qed.

Lemma dec_digits_step : forall f n acc,
  dec_digits (S f) n acc =
    if N.eqb (n / 10) 0
    then String (ascii_of_N (48 + n mod 10)) acc
    else dec_digits f (n / 10)%N (String (ascii_of_N (48 + n mod 10)) acc).
Proof. reflexivity. Qed.

Lemma dec_char : forall d, (d < 10)%N -> N_of_ascii (ascii_of_N (48 + d)) = (48 + d)%N.
Proof. intros d Hd. apply digit_char, Hd. Qed.

Lemma dec_char_digit : forall d, (d < 10)%N -> is_digit (ascii_of_N (48 + d)) = true.
Proof. intros d Hd. apply digit_char, Hd. Qed.

Lemma digit_val_dec : forall d, (d < 10)%N -> digit_val (ascii_of_N (48 + d)) = Some d.
Proof.
  intros d Hd. unfold digit_val. rewrite (dec_char d Hd).
  replace ((48 <=? 48 + d)%N) with true by (symmetry; apply N.leb_le; lia).
  replace ((48 + d <=? 57)%N) with true by (symmetry; apply N.leb_le; lia).
  cbn [andb]. f_equal. lia.
Qed.

Lemma parse_radix_dec_digit : forall d r acc, (d < 10)%N ->
  parse_radix_aux 10 (String (ascii_of_N (48 + d)) r) acc = parse_radix_aux 10 r (acc * 10 + d)%N.
Proof.
  intros d r acc Hd. cbn [parse_radix_aux]. rewrite (digit_val_dec d Hd).
  replace ((d <? 10)%N) with true by (symmetry; apply N.ltb_lt; exact Hd). reflexivity.
Qed.

Lemma lead_not_zero : forall d, (0 < d)%N -> (d < 10)%N ->
  Ascii.eqb "0" (ascii_of_N (48 + d)) = false.
Proof.
  intros d Hd0 Hd9. apply Ascii.eqb_neq. intros H.
  apply (f_equal N_of_ascii) in H. rewrite (dec_char d Hd9) in H.
  change (N_of_ascii "0") with 48%N in H. lia.
Qed.

Lemma parse_radix_dec_digits : forall f n acc, (n < pow10c f)%N ->
  parse_radix_aux 10 (dec_digits f n acc) 0%N = parse_radix_aux 10 acc n.
Proof. intros f n acc. rewrite pow10c_eq. apply (dec_digits_fold _ _ parse_radix_dec_digit). Qed.

Lemma dec_digits_lead : forall f n acc, (0 < n)%N -> (n < pow10c f)%N ->
  exists d r, dec_digits f n acc = String (ascii_of_N (48 + d)) r /\ (0 < d)%N /\ (d < 10)%N.
Proof. intros f n acc. rewrite pow10c_eq. apply StrFacts.dec_digits_lead. Qed.

Lemma dec_digits_all_digits : forall f n acc,
  all_chars is_digit acc = true -> all_chars is_digit (dec_digits f n acc) = true.
Proof.
  apply dec_digits_ind. intros d s Hd Hs. cbn [all_chars]. rewrite (dec_char_digit d Hd). exact Hs.
Qed.

Lemma parse_radix_print_dec : forall n, parse_radix_aux 10 (print_dec n) 0%N = Some n.
Proof. intros n. exact (parse_radix_dec_digits _ n "" (N_lt_pow10c n)). Qed.

Lemma print_dec_pos : forall n, (0 < n)%N ->
  exists d r, print_dec n = String (ascii_of_N (48 + d)) r /\ (0 < d)%N /\ (d < 10)%N.
Proof.
  intros n Hn. unfold print_dec, string_of_N.
  apply dec_digits_lead; [exact Hn | apply N_lt_pow10c].
Qed.

Lemma print_dec_all_digits : forall n, all_chars is_digit (print_dec n) = true.
Proof. intros n. unfold print_dec, string_of_N. apply dec_digits_all_digits. reflexivity. Qed.

(** a printed number: a digit, digits; read back as the number; no leading 0 unless it is 0 *)
Lemma print_dec_spec : forall n, exists a w,
  print_dec n = String a w /\ is_digit a = true /\ all_chars is_digit w = true
  /\ parse_radix_aux 10 (String a w) 0%N = Some n /\ ((0 < n)%N -> Ascii.eqb "0" a = false).
Proof.
  intros n. pose proof (print_dec_all_digits n) as Hall. pose proof (parse_radix_print_dec n) as Hp.
  destruct n as [|p].
  - exists "0"%char, "". split; [reflexivity|]. split; [reflexivity|]. split; [reflexivity|].
    split; [reflexivity | discriminate].
  - destruct (print_dec_pos (Npos p) eq_refl) as [d [r [Hs [H0 H9]]]]. rewrite Hs in *.
    cbn [all_chars] in Hall. apply andb_true_iff in Hall. destruct Hall as [Ha Hw].
    eexists _, r. split; [reflexivity|]. split; [exact Ha|]. split; [exact Hw|].
    split; [exact Hp | intros _; exact (lead_not_zero d H0 H9)].
Qed.

Lemma print_dec_shape : forall n, exists a w, print_dec n = String a w /\ is_digit a = true.
Proof. intros n. destruct (print_dec_spec n) as [a [w [Hs [Ha _]]]]. exists a, w. split; assumption. Qed.

Lemma starts_with_0_cons : forall p a r,
  Ascii.eqb "0" a = false -> starts_with (String "0" p) (String a r) = false.
Proof. intros p a r H. cbn [starts_with]. rewrite H. reflexivity. Qed.

(** a printed decimal is never taken for an octal or a hexadecimal constant *)
Theorem parse_c_int_print_dec : forall n, (n < 2 ^ 63)%N -> parse_c_int (print_dec n) = Some n.
Proof.
  intros n Hn. change (2 ^ 63)%N with 9223372036854775808%N in Hn.
  destruct (print_dec_spec n) as [a [w [Hs [_ [_ [Hp Hl]]]]]].
  destruct n as [|p]; [reflexivity|].
  rewrite Hs. unfold parse_c_int.
  rewrite !(starts_with_0_cons _ a w (Hl eq_refl)), andb_false_r.
  unfold parse_radix. rewrite Hp.
  replace ((N.pos p <? 9223372036854775808)%N) with true by (symmetry; apply N.ltb_lt; exact Hn).
  reflexivity.
Qed.
Print Assumptions parse_c_int_print_dec.


Lemma digit_is_word : forall a, is_digit a = true -> is_word a = true.
Proof. intros a H. unfold is_word, is_ident_char. rewrite H. reflexivity. Qed.

Lemma digit_not_ws : forall a, is_digit a = true -> is_ws a = false.
Proof.
  intros a H. unfold is_digit in H. unfold is_ws.
  apply andb_true_iff in H. destruct H as [H1 H2].
  apply N.leb_le in H1. apply N.leb_le in H2.
  apply orb_false_iff. split.
  - apply N.eqb_neq. lia.
  - apply andb_false_iff. right. apply N.leb_gt. lia.
Qed.

Lemma take_word_digits : forall s rest,
  all_chars is_digit s = true -> boundary_after rest = true -> take_word (s ++ rest) = (s, rest).
Proof.
  induction s as [|a s IHs]; intros rest Hs Hb.
  - destruct rest as [|a r]; [reflexivity|].
    simpl in *. apply negb_true_iff in Hb. rewrite Hb. reflexivity.
  - apply andb_true_iff in Hs. destruct Hs as [Ha Hs].
    cbn [append take_word]. rewrite (digit_is_word a Ha), (IHs rest Hs Hb). reflexivity.
Qed.

Lemma take_word_stop : forall rest, boundary_after rest = true -> take_word rest = ("", rest).
Proof. intros rest Hb. exact (take_word_digits "" rest eq_refl Hb). Qed.

(** a decimal constant below 2^63 followed by a word boundary evaluates to its value *)
Lemma eval_term_dec : forall n rest, (n < 2 ^ 63)%N -> boundary_after rest = true ->
  eval_term (print_dec n ++ rest) = IvOk n rest.
Proof.
  intros n rest Hn Hb.
  destruct (print_dec_spec n) as [a [w [Hs [Ha [Hw _]]]]].
  pose proof (parse_c_int_print_dec n Hn) as Hp.
  rewrite Hs in Hp. rewrite Hs. unfold eval_term.
  cbn [append trim_start]. rewrite (digit_not_ws a Ha).
  change (String a (w ++ rest)) with (String a w ++ rest).
  rewrite (take_word_digits _ rest); [|cbn [all_chars]; rewrite Ha; exact Hw | exact Hb].
  cbv beta iota.
  rewrite Ha, Hp. reflexivity.
Qed.

Lemma eval_term_0 : forall rest, boundary_after rest = true -> eval_term ("0" ++ rest) = IvOk 0 rest.
Proof. intros rest Hb. exact (eval_term_dec 0 rest eq_refl Hb). Qed.

Lemma eval_term_1 : forall rest, boundary_after rest = true -> eval_term ("1" ++ rest) = IvOk 1 rest.
Proof. intros rest Hb. exact (eval_term_dec 1 rest eq_refl Hb). Qed.

(** ** the numeric expression language: constants, prefix !, infix == (left associative) *)
Inductive uexp_n := UNum (n : N) | UNotN (u : uexp_n).
Inductive nexp := NU (u : uexp_n) | NEq (e : nexp) (u : uexp_n).     (* e == u *)

Fixpoint print_un (u : uexp_n) : string :=
  match u with
  | UNum n => print_dec n
  | UNotN u' => "!" ++ print_un u'
  end.
Fixpoint print_n (e : nexp) : string :=
  match e with
  | NU u => print_un u
  | NEq e' u => print_n e' ++ " == " ++ print_un u
  end.

(** the C value: [!x] is 1 when x is 0, else 0; [a == b] is 1 when equal, else 0 *)
Fixpoint value_un (u : uexp_n) : N :=
  match u with
  | UNum n => n
  | UNotN u' => b2n (N.eqb (value_un u') 0)
  end.
Fixpoint value_n (e : nexp) : N :=
  match e with
  | NU u => value_un u
  | NEq e' u => b2n (N.eqb (value_n e') (value_un u))
  end.

(** every constant fits an i64 *)
Fixpoint small_un (u : uexp_n) : Prop :=
  match u with
  | UNum n => (n < 2 ^ 63)%N
  | UNotN u' => small_un u'
  end.
Fixpoint small_n (e : nexp) : Prop :=
  match e with
  | NU u => small_un u
  | NEq e' u => small_n e' /\ small_un u
  end.

(** what the pending [!]s do to a value *)
Definition apply_nots (ns : option bool) (v : N) : N :=
  match ns with
  | None => v
  | Some true => b2n (N.eqb v 0)
  | Some false => b2n (negb (N.eqb v 0))
  end.

Fixpoint nots_n (u : uexp_n) : nat :=
  match u with UNotN u' => S (nots_n u') | UNum _ => O end.

Lemma print_un_length : forall u, nots_n u < String.length (print_un u).
Proof.
  induction u as [n|u IHu].
  - cbn [nots_n print_un]. destruct (print_dec_spec n) as [a [w [Hs _]]]. rewrite Hs.
    cbn [String.length]. lia.
  - cbn [nots_n print_un append String.length]. lia.
Qed.

Lemma eval_unary_digit : forall f a r ns, is_digit a = true ->
  eval_unary (S f) (String a r) ns =
  match eval_term (String a r) with
  | IvOk v rest => IvOk (apply_nots ns v) rest
  | err => err
  end.
Proof.
  intros f [b0 b1 b2 b3 b4 b5 b6 b7] r ns Hd.
  (* the [String "!"%char r] of [eval_unary] is a match on the eight bits of the character and does
     not reduce on a variable: all 256 cases, of which [Hd] leaves ten *)
  destruct b0, b1, b2, b3, b4, b5, b6, b7;
    try (exfalso; vm_compute in Hd; discriminate Hd); reflexivity.
Qed.

Lemma eval_unary_print_n : forall u fuel ns rest,
    small_un u -> boundary_after rest = true -> nots_n u < fuel ->
    eval_unary fuel (print_un u ++ rest) ns = IvOk (apply_nots ns (value_un u)) rest.
Proof.
  induction u as [n|u IHu]; intros fuel ns rest Hs Hb Hf;
    (destruct fuel as [|f]; [cbn [nots_n] in Hf; lia|]).
  - cbn [print_un small_un value_un] in *.
    destruct (print_dec_spec n) as [a [w [Hsh [Ha _]]]].
    pose proof (eval_term_dec n rest Hs Hb) as Ht.
    rewrite Hsh in Ht. rewrite Hsh. cbn [append] in *.
    rewrite (eval_unary_digit f a _ ns Ha), Ht. reflexivity.
  - cbn [print_un value_un small_un nots_n] in *.
    change (eval_unary (S f) (("!" ++ print_un u) ++ rest) ns)
      with (eval_unary f (print_un u ++ rest)
                       (match ns with None => Some true | Some odd => Some (negb odd) end)).
    rewrite (IHu f _ rest Hs Hb) by lia.
    f_equal. unfold apply_nots.
    destruct ns as [[|]|]; cbn [negb]; destruct (N.eqb (value_un u) 0); reflexivity.
Qed.

Fixpoint head_n (e : nexp) : uexp_n :=
  match e with NU u => u | NEq e' _ => head_n e' end.
Fixpoint chain_n (e : nexp) : string :=
  match e with NU _ => "" | NEq e' u => chain_n e' ++ " == " ++ print_un u end.
Fixpoint fold_val_n (e : nexp) (r : N) : N :=
  match e with NU _ => r | NEq e' u => b2n (N.eqb (fold_val_n e' r) (value_un u)) end.
Fixpoint neqs_n (e : nexp) : nat :=
  match e with NU _ => O | NEq e' _ => S (neqs_n e') end.

Lemma print_chain_n : forall e, print_n e = print_un (head_n e) ++ chain_n e.
Proof.
  induction e as [u|e IHe u]; cbn [print_n head_n chain_n].
  - rewrite app_empty_r. reflexivity.
  - rewrite IHe, app_assoc_s. reflexivity.
Qed.

Lemma value_fold_n : forall e, value_n e = fold_val_n e (value_un (head_n e)).
Proof.
  induction e as [u|e IHe u]; cbn [value_n fold_val_n head_n]; [reflexivity | rewrite IHe; reflexivity].
Qed.

Lemma small_head_n : forall e, small_n e -> small_un (head_n e).
Proof.
  induction e as [u|e IHe u]; cbn [small_n head_n]; intros Hs; [exact Hs|].
  destruct Hs as [Hse _]. exact (IHe Hse).
Qed.

Lemma chain_boundary_n : forall e x, boundary_after x = true -> boundary_after (chain_n e ++ x) = true.
Proof.
  induction e as [u|e IHe u]; intros x Hx; cbn [chain_n]; [exact Hx|].
  rewrite app_assoc_s. apply IHe. reflexivity.
Qed.

Lemma chain_length_n : forall e, neqs_n e <= String.length (chain_n e).
Proof.
  induction e as [u|e IHe u]; cbn [neqs_n chain_n]; [cbn [String.length]; lia|].
  rewrite length_app_s. cbn [append String.length]. lia.
Qed.

Lemma eq_loop_chain_n : forall e fuel r rest,
    small_n e -> boundary_after rest = true -> neqs_n e < fuel ->
    eval_eq_loop fuel r (chain_n e ++ rest) = eval_eq_loop (fuel - neqs_n e) (fold_val_n e r) rest.
Proof.
  induction e as [u|e IHe u]; intros fuel r rest Hs Hb Hf.
  - rewrite Nat.sub_0_r. reflexivity.
  - destruct Hs as [Hse Hsu]. cbn [neqs_n] in Hf.
    cbn [chain_n]. rewrite !app_assoc_s.
    rewrite (IHe fuel r (" == " ++ print_un u ++ rest) Hse eq_refl) by lia.
    destruct (fuel - neqs_n e) as [|f'] eqn:Hfu; [lia|].
    replace (fuel - neqs_n (NEq e u)) with f' by (cbn [neqs_n]; lia).
    change (eval_eq_loop (S f') (fold_val_n e r) (" == " ++ print_un u ++ rest))
      with (match eval_unary (S (String.length ("== " ++ print_un u ++ rest)))
                             (print_un u ++ rest) None with
            | IvOk v rest0 => eval_eq_loop f' (b2n (N.eqb (fold_val_n e r) v)) rest0
            | err => err
            end).
    rewrite (eval_unary_print_n u _ None rest Hsu Hb).
    + reflexivity.
    + cbn [append String.length]. rewrite length_app_s.
      pose proof (print_un_length u) as Hl. lia.
Qed.

Lemma eval_eq_loop_end : forall k r, eval_eq_loop (S k) r "" = IvOk r "".
Proof. reflexivity. Qed.

(** the evaluator is C's on constants below 2^63 (printed in decimal), ! and == *)
Theorem evaluate_int_correct : forall e : nexp,
    small_n e -> evaluate (print_n e) = EvOk (negb (N.eqb (value_n e) 0)) "".
Proof.
  intros e Hs. unfold evaluate. rewrite print_chain_n.
  rewrite (eval_unary_print_n (head_n e) _ None (chain_n e)).
  - rewrite <- (app_empty_r (chain_n e)) at 2.
    rewrite (eq_loop_chain_n e _ _ "" Hs eq_refl).
    + pose proof (chain_length_n e) as Hl.
      destruct (S (String.length (chain_n e)) - neqs_n e) as [|k] eqn:Hk; [lia|].
      rewrite eval_eq_loop_end, value_fold_n. reflexivity.
    + pose proof (chain_length_n e) as Hl. lia.
  - exact (small_head_n e Hs).
  - rewrite <- (app_empty_r (chain_n e)). apply chain_boundary_n. reflexivity.
  - rewrite length_app_s. pose proof (print_un_length (head_n e)) as Hl. lia.
Qed.
Print Assumptions evaluate_int_correct.

(** non-vacuity: a chain with every construct *)
Example evaluate_int_example :
  small_n (NEq (NEq (NU (UNotN (UNotN (UNum 2)))) (UNum 1)) (UNotN (UNum 9223372036854775807)))
  /\ print_n (NEq (NEq (NU (UNotN (UNotN (UNum 2)))) (UNum 1)) (UNotN (UNum 9223372036854775807)))
     = "!!2 == 1 == !9223372036854775807"
  /\ value_n (NEq (NEq (NU (UNotN (UNotN (UNum 2)))) (UNum 1)) (UNotN (UNum 9223372036854775807)))
     = 0%N.
Proof. vm_compute. repeat split; reflexivity. Qed.
Print Assumptions evaluate_int_example.

(** numbers are C integer constants: any non-zero value holds, == compares values, ! gives 0 or 1,
    hexadecimal and octal constants are read as such, malformed ones are rejected *)
Example evaluate_numbers :
  evaluate "2" = EvOk true "" /\ evaluate "2 == 3" = EvOk false ""
  /\ evaluate "!2" = EvOk false "" /\ evaluate "!!2 == 1" = EvOk true ""
  /\ evaluate "0x10 == 16" = EvOk true "" /\ evaluate "010 == 8" = EvOk true ""
  /\ evaluate "08" = EvErr "Invalid number"
  /\ evaluate "9223372036854775807" = EvOk true ""
  /\ evaluate "9223372036854775808" = EvErr "Invalid number".
Proof. vm_compute. repeat split; reflexivity. Qed.
Print Assumptions evaluate_numbers.

(** * The #if evaluator on 0 / 1 / ! / == : the boolean reading coincides with C's *)
Fixpoint nots (u : uexp) : nat :=
  match u with UNot u' => S (nots u') | _ => O end.

Lemma print_u_length : forall u, String.length (print_u u) = S (nots u).
Proof. induction u as [| |u IHu]; simpl; [reflexivity | reflexivity | rewrite IHu; reflexivity]. Qed.

(** the boolean language inside the numeric one *)
Fixpoint u2n (u : uexp) : uexp_n :=
  match u with U0 => UNum 0 | U1 => UNum 1 | UNot u' => UNotN (u2n u') end.
Fixpoint b2ne (e : bexp) : nexp :=
  match e with BU u => NU (u2n u) | BEq e' u => NEq (b2ne e') (u2n u) end.

Lemma print_u2n : forall u, print_un (u2n u) = print_u u.
Proof.
  induction u as [| |u IHu]; [reflexivity | reflexivity |].
  cbn [u2n print_un print_u]. rewrite IHu. reflexivity.
Qed.

Lemma print_b2ne : forall e, print_n (b2ne e) = print e.
Proof.
  induction e as [u|e IHe u]; cbn [b2ne print_n print].
  - apply print_u2n.
  - rewrite IHe, print_u2n. reflexivity.
Qed.

Lemma value_u2n : forall u, value_un (u2n u) = b2n (value_u u).
Proof.
  induction u as [| |u IHu]; [reflexivity | reflexivity |].
  cbn [u2n value_un value_u]. rewrite IHu. destruct (value_u u); reflexivity.
Qed.

Lemma value_b2ne : forall e, value_n (b2ne e) = b2n (value e).
Proof.
  induction e as [u|e IHe u]; cbn [b2ne value_n value].
  - apply value_u2n.
  - rewrite IHe, value_u2n. destruct (value e), (value_u u); reflexivity.
Qed.

Lemma small_u2n : forall u, small_un (u2n u).
Proof. induction u as [| |u IHu]; [reflexivity | reflexivity | exact IHu]. Qed.

Lemma small_b2ne : forall e, small_n (b2ne e).
Proof.
  induction e as [u|e IHe u]; cbn [b2ne small_n]; [apply small_u2n|].
  split; [exact IHe | apply small_u2n].
Qed.

Lemma nots_u2n : forall u, nots_n (u2n u) = nots u.
Proof. induction u as [| |u IHu]; [reflexivity | reflexivity | cbn [u2n nots_n nots]; rewrite IHu; reflexivity]. Qed.

Lemma eval_unary_print : forall u fuel ns rest,
    boundary_after rest = true -> nots u < fuel ->
    eval_unary fuel (print_u u ++ rest) ns = IvOk (apply_nots ns (b2n (value_u u))) rest.
Proof.
  intros u fuel ns rest Hb Hf. rewrite <- print_u2n, <- value_u2n.
  apply eval_unary_print_n; [apply small_u2n | exact Hb | rewrite nots_u2n; exact Hf].
Qed.

Fixpoint head_u (e : bexp) : uexp :=
  match e with BU u => u | BEq e' _ => head_u e' end.
Fixpoint chain (e : bexp) : string :=
  match e with BU _ => "" | BEq e' u => chain e' ++ " == " ++ print_u u end.
Fixpoint fold_val (e : bexp) (r : bool) : bool :=
  match e with BU _ => r | BEq e' u => Bool.eqb (fold_val e' r) (value_u u) end.
Fixpoint neqs (e : bexp) : nat :=
  match e with BU _ => O | BEq e' _ => S (neqs e') end.

Lemma print_chain : forall e, print e = print_u (head_u e) ++ chain e.
Proof.
  induction e as [u|e IHe u]; simpl.
  - rewrite app_empty_r. reflexivity.
  - rewrite IHe, app_assoc_s. reflexivity.
Qed.

Lemma value_fold : forall e, value e = fold_val e (value_u (head_u e)).
Proof. induction e as [u|e IHe u]; simpl; [reflexivity | rewrite IHe; reflexivity]. Qed.

Lemma chain_b2ne : forall e, chain_n (b2ne e) = chain e.
Proof.
  induction e as [u|e IHe u]; cbn [b2ne chain_n chain]; [reflexivity|].
  rewrite IHe, print_u2n. reflexivity.
Qed.

Lemma neqs_b2ne : forall e, neqs_n (b2ne e) = neqs e.
Proof. induction e as [u|e IHe u]; cbn [b2ne neqs_n neqs]; [reflexivity | rewrite IHe; reflexivity]. Qed.

Lemma fold_val_b2ne : forall e r, fold_val_n (b2ne e) (b2n r) = b2n (fold_val e r).
Proof.
  induction e as [u|e IHe u]; intros r; cbn [b2ne fold_val_n fold_val]; [reflexivity|].
  rewrite IHe, value_u2n. destruct (fold_val e r), (value_u u); reflexivity.
Qed.

Lemma chain_boundary : forall e x, boundary_after x = true -> boundary_after (chain e ++ x) = true.
Proof. intros e x Hx. rewrite <- chain_b2ne. exact (chain_boundary_n _ x Hx). Qed.

Lemma chain_length : forall e, neqs e <= String.length (chain e).
Proof. intros e. rewrite <- chain_b2ne, <- neqs_b2ne. apply chain_length_n. Qed.

Lemma eq_loop_chain : forall e fuel r rest,
    boundary_after rest = true -> neqs e < fuel ->
    eval_eq_loop fuel (b2n r) (chain e ++ rest) = eval_eq_loop (fuel - neqs e) (b2n (fold_val e r)) rest.
Proof.
  intros e fuel r rest Hb Hf.
  rewrite <- chain_b2ne, <- neqs_b2ne, <- fold_val_b2ne.
  apply eq_loop_chain_n; [apply small_b2ne | exact Hb | rewrite neqs_b2ne; exact Hf].
Qed.

Theorem evaluate_bool_correct : forall e : bexp, evaluate (print e) = EvOk (value e) "".
Proof.
  intros e. rewrite <- print_b2ne, (evaluate_int_correct (b2ne e) (small_b2ne e)), value_b2ne.
  destruct (value e); reflexivity.
Qed.
Print Assumptions evaluate_bool_correct.

(** conditions printed from the little expression language are legal conditions of a tree *)
Lemma print_u_edge : forall u, edge_ok (print_u u) = true /\ edge_ok (rev_string (print_u u)) = true
                               /\ all_chars arg_char (print_u u) = true.
Proof.
  induction u as [| |u [IH1 [IH2 IH3]]]; [repeat split | repeat split |].
  split; [reflexivity|]. split.
  - change (print_u (UNot u)) with ("!" ++ print_u u).
    rewrite rev_string_app. apply edge_ok_app. exact IH2.
  - simpl. exact IH3.
Qed.

Lemma print_arg_ok : forall e, arg_ok (print e) = true.
Proof.
  assert (H : forall e, edge_ok (print e) = true /\ edge_ok (rev_string (print e)) = true
                        /\ all_chars arg_char (print e) = true).
  { induction e as [u|e [IH1 [IH2 IH3]] u]; [exact (print_u_edge u)|].
    destruct (print_u_edge u) as [U1 [U2 U3]]. cbn [print]. split; [|split].
    - apply edge_ok_app. exact IH1.
    - rewrite <- app_assoc_s, rev_string_app. apply edge_ok_app. exact U2.
    - rewrite !all_chars_app, IH3, U3. reflexivity. }
  intros e. destruct (H e) as [H1 [H2 H3]]. unfold arg_ok, tight. rewrite H1, H2, H3. reflexivity.
Qed.

Theorem print_cond_ok : forall e,
    cond_ok (print e) = true /\ cond_value (print e) = Some (value e) /\ cond_true (print e) = value e.
Proof.
  intros e. unfold cond_ok, cond_true, cond_value.
  rewrite evaluate_bool_correct, print_arg_ok. repeat split.
Qed.
Print Assumptions print_cond_ok.


(** * The tree type with branches given as lists ([group]): the same functions, unfolded *)
Lemma flatten_tail_mk : forall elifs els,
    flatten_tail (mk_tail elifs els) =
    (flat_map (fun cb => elif_line (fst cb) :: flatten (snd cb)) elifs
     ++ match els with Some b => else_line :: flatten b | None => [] end
     ++ [endif_line])%list.
Proof.
  induction elifs as [|[c b] r IHr]; intros els.
  - destruct els as [b|]; reflexivity.
  - cbn [mk_tail flatten_tail flat_map fst snd]. rewrite IHr.
    rewrite <- !app_assoc. reflexivity.
Qed.

Lemma flatten_group : forall h body elifs els,
    flatten_item (group h body elifs els) =
    (head_line h :: flatten body
     ++ flat_map (fun cb => elif_line (fst cb) :: flatten (snd cb)) elifs
     ++ match els with Some b => else_line :: flatten b | None => [] end
     ++ [endif_line])%list.
Proof.
  intros h body elifs els. unfold group. cbn [flatten_item]. rewrite flatten_tail_mk. reflexivity.
Qed.

(** the selected branch: the first whose condition holds, else #else, else nothing *)
Fixpoint first_true (branches : list (bool * list item)) (els : option (list item)) : list item :=
  match branches with
  | (true, b) :: _ => b
  | (false, _) :: r => first_true r els
  | [] => match els with Some b => b | None => [] end
  end.

Lemma active_tail_mk : forall elifs els,
    active_tail (mk_tail elifs els) =
    spec_active (first_true (map (fun cb => (cond_true (fst cb), snd cb)) elifs) els).
Proof.
  induction elifs as [|[c b] r IHr]; intros els.
  - destruct els; reflexivity.
  - cbn [mk_tail active_tail map first_true fst snd]. rewrite IHr.
    destruct (cond_true c); reflexivity.
Qed.

Lemma active_group : forall h body elifs els,
    active_item (group h body elifs els) =
    spec_active (first_true ((head_true h, body)
                             :: map (fun cb => (cond_true (fst cb), snd cb)) elifs) els).
Proof.
  intros h body elifs els. unfold group. cbn [active_item first_true]. rewrite active_tail_mk.
  destruct (head_true h); reflexivity.
Qed.
Print Assumptions flatten_group.
Print Assumptions active_group.
