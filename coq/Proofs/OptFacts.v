(** Structural facts about the model of [AssemblyCode::optimize] (Model/Optimize.v).

    Method: every step of the zipper machine is shown to be a (possibly empty) sequence of two
    kinds of elementary rewritings of the represented code:

      (del)  l1 ++ Ins i :: l2            ~>  l1 ++ Dummy :: l2                 when [del_ok i]
      (swap) l1 ++ Ins i1 :: m ++ Ins i2 :: l2  ~>  l1 ++ Ins i2 :: m ++ Ins i1 :: l2
                                                   when i1 is an LDA, i2 a SEC/CLC and m holds
                                                   only comments and Dummies

    [del_ok i] is what the model really guarantees about a removed instruction: it is NOT
    "unprotected" -- the CMP/CPX/CPY rule ([cmp_rule]) tests the protected bit of the branch only,
    so a protected immediate compare can be removed.  Likewise the swap rule does not look at the
    protected bits at all, but it only crosses comments and Dummies (labels and inline assembly
    are barriers).  Consequently [optimize_keeps_marked] needs [no_protected_imm_compare]; see
    [optimize_keeps_marked_refuted_cmp]. *)
From Coq Require Import String Ascii List Bool NArith ZArith Lia.
From CC Require Import Base.Str Asm.Lines Model.Optimize Model.OptSpec.
Import ListNotations.
Open Scope list_scope.

Definition is_compare (m : mnem) : bool :=
  match m with CMP | CPX | CPY => true | _ => false end.

Definition del_ok (i : instr) : bool :=
  negb (i_prot i) || (is_compare (i_mn i) && is_imm (i_op i)).

Definition quiet (l : line) : bool :=
  match l with Cmt _ | Dummy => true | _ => false end.

(** the index is the number of instructions removed *)
Inductive rw1 : N -> code -> code -> Prop :=
| rw1_del (l1 : list line) (i : instr) (l2 : list line) :
    del_ok i = true ->
    rw1 1%N (l1 ++ Ins i :: l2) (l1 ++ Dummy :: l2)
| rw1_swap (l1 : list line) (i1 : instr) (m : list line) (i2 : instr) (l2 : list line) :
    i_mn i1 = LDA -> is_flag_setter (i_mn i2) = true -> forallb quiet m = true ->
    rw1 0%N (l1 ++ Ins i1 :: m ++ Ins i2 :: l2) (l1 ++ Ins i2 :: m ++ Ins i1 :: l2).

Inductive rws : N -> code -> code -> Prop :=
| rws_refl (c : code) : rws 0%N c c
| rws_step (n m : N) (a b c : code) : rws n a b -> rw1 m b c -> rws (n + m)%N a c.

Lemma rws_eq (n n' : N) (a b : code) : rws n a b -> n = n' -> rws n' a b.
Proof. intros H E. subst n'. exact H. Qed.

Lemma rws_one (m : N) (a b : code) : rw1 m a b -> rws m a b.
Proof.
  intros H. apply (rws_eq (0 + m)%N); [|reflexivity].
  eapply rws_step; [apply rws_refl|exact H].
Qed.

Lemma rws_trans (n m : N) (a b c : code) : rws n a b -> rws m b c -> rws (n + m)%N a c.
Proof.
  intros Hab Hbc. induction Hbc as [c|m1 m2 b c d Hbc IH Hcd].
  - apply (rws_eq n); [exact Hab|lia].
  - apply (rws_eq ((n + m1) + m2)%N); [|lia].
    eapply rws_step; [apply IH; exact Hab|exact Hcd].
Qed.

Lemma rws_del (l1 : list line) (x : line) (m : list line) (i : instr) (l2 : list line) :
  del_ok i = true -> rws 1%N (l1 ++ x :: m ++ Ins i :: l2) (l1 ++ x :: m ++ Dummy :: l2).
Proof.
  intros D. apply rws_one. apply (rw1_del (l1 ++ x :: m)) with (l2 := l2) in D.
  rewrite <- !app_assoc in D. exact D.
Qed.

Lemma flags_is_A_true (f : flags_state) : flags_is_A f = true -> f = FA.
Proof. destruct f; intros H; try discriminate H; reflexivity. Qed.

(** takes every hypothesis [b = true] apart along the [||] and [&&] of [b] (one goal per
    disjunct) and turns the atoms [negb], [mnem_eqb], [String.eqb], [flags_is_A] into equations:
    the shape of [pair_rules]' components *)
Ltac bsplit :=
  repeat match goal with
  | H : (_ || _) = true |- _ => apply orb_true_iff in H; destruct H as [H|H]
  | H : (_ && _) = true |- _ =>
      let H1 := fresh H in apply andb_true_iff in H; destruct H as [H H1]
  | H : negb _ = true |- _ => apply negb_true_iff in H
  | H : mnem_eqb _ _ = true |- _ => apply mnem_eqb_eq in H
  | H : String.eqb _ _ = true |- _ => apply String.eqb_eq in H
  | H : flags_is_A _ = true |- _ => apply flags_is_A_true in H
  end.

(** brings [rev (a ++ x :: b) ++ c] and the like to a right-nested [++] of [rev]s and conses,
    the form in which the two sides of a [z_code] equation or an [rw1] constructor meet *)
Ltac norm :=
  repeat (progress (cbn [rev app]) || rewrite rev_app_distr || rewrite <- app_assoc).

Lemma del_ok_unprot (i : instr) : i_prot i = false -> del_ok i = true.
Proof. intros H. unfold del_ok. rewrite H. reflexivity. Qed.

Lemma cmp_rule_del (reg : option string) (m : mnem) (i1 i2 : instr) :
  is_compare m = true -> cmp_rule reg m i1 i2 = true ->
  del_ok i1 = true /\ del_ok i2 = true.
Proof.
  intros Hm. unfold cmp_rule. destruct reg as [r|]; [|discriminate].
  destruct (is_imm r && mnem_eqb (i_mn i1) m && is_imm (i_op i1)) eqn:C; [|discriminate].
  bsplit.
  assert (D1 : del_ok i1 = true) by (unfold del_ok; rewrite C1, Hm, C0; apply orb_true_r).
  destruct (i_mn i2); try discriminate; intros H; bsplit;
  (split; [exact D1|apply del_ok_unprot; assumption]).
Qed.

Lemma pair_rules_rb (k : know) (i1 i2 : instr) :
  fst (fst (fst (pair_rules k i1 i2))) = true -> del_ok i1 = true /\ del_ok i2 = true.
Proof.
  unfold pair_rules. cbv beta zeta. cbn [fst snd]. intros H. bsplit.
  - split; apply del_ok_unprot; assumption.
  - eapply cmp_rule_del; [|exact H]. reflexivity.
  - eapply cmp_rule_del; [|exact H]. reflexivity.
  - eapply cmp_rule_del; [|exact H]. reflexivity.
Qed.

Lemma pair_rules_rf (k : know) (i1 i2 : instr) :
  snd (fst (fst (pair_rules k i1 i2))) = true -> i_prot i1 = false.
Proof.
  unfold pair_rules. cbv beta zeta. cbn [fst snd]. intros H. bsplit; assumption.
Qed.

Lemma pair_rules_rs (k : know) (i1 i2 : instr) :
  snd (fst (pair_rules k i1 i2)) = true -> i_prot i2 = false.
Proof.
  unfold pair_rules. cbv beta zeta. cbn [fst snd]. intros H. bsplit; assumption.
Qed.

Lemma pair_rules_sw (k : know) (i1 i2 : instr) :
  snd (pair_rules k i1 i2) = true -> i_mn i1 = LDA /\ is_flag_setter (i_mn i2) = true.
Proof.
  unfold pair_rules. cbv beta zeta. intros H.
  apply andb_true_iff in H. destruct H as [H1 H2]. apply mnem_eqb_eq in H1. split; [exact H1|].
  apply orb_true_iff in H2. destruct H2 as [H2|H2]; apply mnem_eqb_eq in H2; rewrite H2; reflexivity.
Qed.

Lemma transfer_rs (k : know) (i : instr) (ahead : list line) :
  snd (transfer k i ahead) = true -> i_prot i = false.
Proof.
  unfold transfer. destruct (i_mn i); cbv zeta;
  repeat match goal with
  | |- context [match ?x with Some _ => _ | None => _ end] => destruct x
  | |- context [if ?b then _ else _] => destruct b
  | |- context [match ?f with FUnknown => _ | FA => _ | FX => _ | FY => _ end] => destruct f
  end; cbn [snd]; intros H; try discriminate H; apply negb_true_iff in H; exact H.
Qed.

Lemma skip_to_ins_some (l : list line) :
  forall (pre pre' : list line) (i : instr) (r : list line),
  skip_to_ins pre l = Some (pre', i, r) ->
  rev pre ++ l = rev pre' ++ Ins i :: r /\ length r < length l.
Proof.
  induction l as [|x l IH]; intros pre pre' i r H.
  - discriminate H.
  - destruct x as [s|j|t sz|s|]; cbn [skip_to_ins] in H;
    try (apply IH in H; destruct H as [H1 H2]; split;
         [rewrite <- H1; norm; reflexivity | cbn [length]; lia]).
    inversion H; subst. split; [reflexivity|cbn [length]; lia].
Qed.

(** the lines between [first] and [second] are comments or Dummies: labels and inline assembly
    are barriers after which [step_second] restarts *)
Definition mid_ok (z : zst) : Prop := forallb quiet (z_mid z) = true.

Lemma forallb_rev (A : Type) (p : A -> bool) (l : list A) : forallb p (rev l) = forallb p l.
Proof.
  induction l as [|x l IH]; [reflexivity|].
  cbn [rev forallb]. rewrite forallb_app, IH. cbn [forallb]. rewrite andb_true_r. apply andb_comm.
Qed.

(** the measure that every [step] decreases; it is at most [2 * length c + 1], whence
    [optimize_fuel].  Every step shortens [z_rest] but the swap, which turns first LDA, rest
    [SEC/CLC :: ahead] into first SEC/CLC, rest [LDA :: ahead]: the second summand pays for it,
    once, since the swap does not fire on a first that is SEC or CLC. *)
Definition mu_at (f : instr) (rest : list line) : nat :=
  2 * length rest + (if is_flag_setter (i_mn f) then 0 else 1).
Definition mu (z : zst) : nat := mu_at (z_f z) (z_rest z).

Lemma mu_hi (f : instr) (rest : list line) : mu_at f rest <= 2 * length rest + 1.
Proof. unfold mu_at. destruct (is_flag_setter (i_mn f)); lia. Qed.

Lemma mu_lt (z z' : zst) : length (z_rest z') < length (z_rest z) -> mu z' < mu z.
Proof. intros H. pose proof (mu_hi (z_f z') (z_rest z')). unfold mu. unfold mu_at at 2. lia. Qed.

Definition good (c : code) (n : N) (res : step_result) : Prop :=
  match res with
  | Done c' n' => exists m : N, rws m c c' /\ n' = (n + m)%N
  | Next z' => exists m : N, rws m c (z_code z') /\ z_removed z' = (n + m)%N
  end.

Lemma good_trans (c c1 : code) (n m1 : N) (res : step_result) :
  rws m1 c c1 -> good c1 (n + m1)%N res -> good c n res.
Proof.
  intros H G. destruct res as [c' n'|z'];
  destruct G as [m [G1 G2]]; exists (m1 + m)%N; (split; [eapply rws_trans; eassumption|lia]).
Qed.

Lemma step_jmp_spec (z : zst) :
  good (z_code z) (z_removed z) (step_jmp z) /\
  match step_jmp z with
  | Done _ _ => True
  | Next z1 => z1 = z \/ (length (z_rest z1) < length (z_rest z) /\ z_mid z1 = [])
  end.
Proof.
  assert (Same : good (z_code z) (z_removed z) (Next z) /\
                 (z = z \/ (length (z_rest z) < length (z_rest z) /\ z_mid z = []))).
  { split; [|left; reflexivity]. exists 0%N. split; [apply rws_refl|lia]. }
  destruct z as [pre f mid rest k n]. unfold step_jmp in *. cbn [z_pre z_f z_mid z_rest z_k z_removed] in *.
  destruct rest as [|x r]; [exact Same|].
  destruct x as [l|j|t sz|s|]; try exact Same.
  destruct (mnem_eqb (i_mn f) JMP && String.eqb (i_op f) l && negb (i_prot f)) eqn:C; [|exact Same].
  bsplit.
  assert (R : rw1 1%N (z_code (mkZ pre f mid (Lbl l :: r) k n))
                  (rev (Lbl l :: mid ++ Dummy :: pre) ++ r)).
  { unfold z_code. norm.
    apply rw1_del. apply del_ok_unprot. assumption. }
  apply rws_one in R.
  destruct (skip_to_ins (Lbl l :: mid ++ Dummy :: pre) r) as [[[pre'' i] r']|] eqn:S.
  - apply skip_to_ins_some in S. destruct S as [S1 S2]. split.
    + exists 1%N. split; [|reflexivity].
      unfold z_code at 2. cbn [z_pre z_f z_mid z_rest]. cbn [rev app]. rewrite <- S1. exact R.
    + right. cbn [z_rest z_mid length]. split; [lia|reflexivity].
  - split; [|exact I]. unfold finish. exists 1%N. split; [exact R|reflexivity].
Qed.

(** the inner [find] of [step_second] as a top-level function *)
Fixpoint find_after (pre r : list line) (k : know) (n : N) : step_result :=
  match r with
  | [] => finish pre [] n
  | Ins i :: r' => step_second pre i [] r' (analyse_load AlLabel (reset_regs k) i) n
  | x :: r' => find_after (x :: pre) r' k n
  end.

(** a label or an inline-assembly line is a barrier: the search restarts behind it *)
Definition barrier (b : line) : bool :=
  match b with Lbl _ | Inl _ _ => true | _ => false end.

Lemma step_second_barrier (pre : list line) (f : instr) (mid : list line) (b : line)
      (r : list line) (k : know) (n : N) :
  barrier b = true ->
  step_second pre f mid (b :: r) k n = find_after (b :: mid ++ Ins f :: pre) r k n.
Proof.
  intros B. destruct b; try discriminate B; cbn [step_second];
    match goal with |- _ = find_after ?p r k n => generalize p end;
    (induction r as [|x r IH]; intros p; [reflexivity|]);
    destruct x; cbn [find_after]; try apply IH; reflexivity.
Qed.

(** what [step_second] returns on a zipper that represents [c]: the same code, nothing removed,
    and [I] of a state whose second is an instruction *)
Definition second_res (c : code) (n : N)
           (I : list line -> instr -> list line -> list line -> know -> Prop) (res : step_result) : Prop :=
  match res with
  | Done c' n' => c' = c /\ n' = n
  | Next z2 => z_code z2 = c /\ z_removed z2 = n /\ (exists (i : instr) (a : list line), z_rest z2 = Ins i :: a) /\
               I (z_pre z2) (z_f z2) (z_mid z2) (z_rest z2) (z_k z2)
  end.

(** [step_second] only moves: a comment or a removed line joins [mid]; behind a barrier the first
    instruction becomes [first], with the knowledge reset.  What holds of the zipper ([I]; [J] while
    an instruction is sought behind a barrier) and is kept by these moves holds of the state returned. *)
Lemma step_second_inv (I : list line -> instr -> list line -> list line -> know -> Prop)
      (J : list line -> list line -> know -> Prop) (n : N) :
  (forall pre f mid q r k, quiet q = true -> I pre f mid (q :: r) k -> I pre f (q :: mid) r k) ->
  (forall pre f mid b r k, barrier b = true -> I pre f mid (b :: r) k -> J (b :: mid ++ Ins f :: pre) r k) ->
  (forall p x r k, is_ins x = false -> J p (x :: r) k -> J (x :: p) r k) ->
  (forall p i r k, J p (Ins i :: r) k -> I p i [] r (analyse_load AlLabel (reset_regs k) i)) ->
  forall rest pre f mid k, I pre f mid rest k ->
  second_res (rev pre ++ Ins f :: rev mid ++ rest) n I (step_second pre f mid rest k n).
Proof.
  intros Hq He Hs Hl rest. assert (LB : length rest <= length rest) by apply le_n.
  revert LB. generalize (length rest) at 2. intros B. revert rest.
  induction B as [|B IHB]; intros rest LB pre f mid k HI;
    (destruct rest as [|x r]; [cbn [step_second finish second_res]; rewrite app_nil_r; split; reflexivity|]);
    cbn [length] in LB; [lia|].
  assert (FA : forall r0 p, length r0 <= B -> J p r0 k -> second_res (rev p ++ r0) n I (find_after p r0 k n)).
  { induction r0 as [|y r0 IHr]; intros p L0 HJ; [split; reflexivity|]. cbn [length] in L0.
    assert (SK : is_ins y = false -> second_res (rev p ++ y :: r0) n I (find_after (y :: p) r0 k n)).
    { intros E. replace (rev p ++ y :: r0) with (rev (y :: p) ++ r0) by (norm; reflexivity).
      apply IHr; [lia|exact (Hs _ _ _ _ E HJ)]. }
    destruct y; cbn [find_after]; try (apply SK; reflexivity).
    exact (IHB r0 ltac:(lia) p i [] _ (Hl _ _ _ _ HJ)). }
  destruct (barrier x) eqn:Bx; [|destruct x as [l|j|t sz|s|]; try discriminate Bx].
  - rewrite step_second_barrier by exact Bx.
    replace (rev pre ++ Ins f :: rev mid ++ x :: r) with (rev (x :: mid ++ Ins f :: pre) ++ r) by (norm; reflexivity).
    apply FA; [lia|exact (He _ _ _ _ _ _ Bx HI)].
  - cbn [step_second second_res z_code z_pre z_f z_mid z_rest z_removed z_k]. repeat split; [eauto|exact HI].
  - cbn [step_second].
    replace (rev pre ++ Ins f :: rev mid ++ Cmt s :: r) with (rev pre ++ Ins f :: rev (Cmt s :: mid) ++ r)
      by (norm; reflexivity).
    apply IHB; [lia|apply Hq; [reflexivity|exact HI]].
  - cbn [step_second].
    replace (rev pre ++ Ins f :: rev mid ++ Dummy :: r) with (rev pre ++ Ins f :: rev (Dummy :: mid) ++ r)
      by (norm; reflexivity).
    apply IHB; [lia|apply Hq; [reflexivity|exact HI]].
Qed.

(** the structural instance: [mid] stays quiet and the measure does not grow *)
Lemma step_second_spec (z : zst) :
  mid_ok z ->
  second_res (z_code z) (z_removed z)
             (fun _ f mid rest _ => forallb quiet mid = true /\ mu_at f rest <= mu z)
             (step_second (z_pre z) (z_f z) (z_mid z) (z_rest z) (z_k z) (z_removed z)).
Proof.
  intros Q. unfold z_code. apply step_second_inv with (J := fun _ r _ => 2 * length r + 2 <= mu z).
  - intros pre f mid q r k Hq [M L]. split; [cbn [forallb]; rewrite Hq; exact M|].
    unfold mu_at in L |- *. cbn [length] in L |- *. lia.
  - intros pre f mid b r k _ [_ L]. unfold mu_at in L. cbn [length] in L. lia.
  - intros p x r k _ L. cbn [length] in L. lia.
  - intros p i r k L. split; [reflexivity|]. pose proof (mu_hi i r). cbn [length] in L. lia.
  - split; [exact Q|]. apply le_n.
Qed.

Lemma step_pair_spec (z : zst) (i2 : instr) (ahead : list line) :
  z_rest z = Ins i2 :: ahead -> mid_ok z ->
  good (z_code z) (z_removed z) (step_pair z i2 ahead) /\
  match step_pair z i2 ahead with
  | Done _ _ => True
  | Next z' => mu z' < mu z /\ mid_ok z'
  end.
Proof.
  intros HR Q.
  assert (Msw : i_mn (z_f z) = LDA -> mu z = 2 * S (length ahead) + 1).
  { intros E. unfold mu, mu_at. rewrite HR, E. reflexivity. }
  destruct z as [pre i1 mid rest k n]. cbn [z_rest z_f] in HR, Msw. subst rest.
  unfold mid_ok in *.
  unfold step_pair. cbn [z_pre z_f z_mid z_rest z_k z_removed].
  pose proof (pair_rules_rb k i1 i2) as Prb. pose proof (pair_rules_rf k i1 i2) as Prf.
  pose proof (pair_rules_rs k i1 i2) as Prs. pose proof (pair_rules_sw k i1 i2) as Psw.
  destruct (pair_rules k i1 i2) as [[[rb rf] rs0] sw]. cbn [fst snd] in Prb, Prf, Prs, Psw.
  destruct (if negb rs0 && negb rb
            then let '(k', r) := transfer k i2 ahead in (k', r)
            else (k, rs0)) as [k1 rs] eqn:E.
  assert (Prs' : rs = true -> i_prot i2 = false).
  { destruct (negb rs0 && negb rb).
    - pose proof (transfer_rs k i2 ahead) as T.
      destruct (transfer k i2 ahead) as [k' r']. inversion E; subst. exact T.
    - inversion E; subst. exact Prs. }
  destruct sw.
  { destruct (Psw eq_refl) as [S1 S2]. split.
    - exists 0%N. split; [|cbn [z_removed]; lia]. unfold z_code.
      apply rws_one. apply rw1_swap; try assumption. rewrite forallb_rev. exact Q.
    - split; [|exact Q]. rewrite (Msw S1). unfold mu, mu_at. cbn [z_rest z_f length]. rewrite S2. lia. }
  destruct rb.
  { destruct (Prb eq_refl) as [D1 D2].
    assert (R : rws 2%N (rev pre ++ Ins i1 :: rev mid ++ Ins i2 :: ahead)
                    (rev (Dummy :: mid ++ Dummy :: pre) ++ ahead)).
    { apply (rws_eq (1 + 1)%N); [|reflexivity].
      apply (rws_trans 1 1 _ (rev pre ++ Dummy :: rev mid ++ Ins i2 :: ahead)).
      - apply rws_one. apply rw1_del. exact D1.
      - norm. apply rws_del. exact D2. }
    destruct (skip_to_ins (Dummy :: mid ++ Dummy :: pre) ahead) as [[[pre'' i] r']|] eqn:S.
    - apply skip_to_ins_some in S. destruct S as [S1 S2]. split.
      + exists 2%N. split; [|reflexivity].
        unfold z_code. cbn [z_pre z_f z_mid z_rest]. cbn [rev app]. rewrite <- S1. exact R.
      + split; [apply mu_lt; cbn [z_rest length]; lia|reflexivity].
    - split; [|exact I]. unfold finish. exists 2%N. split; [exact R|reflexivity]. }
  destruct rs.
  { split.
    - exists 1%N. split; [|reflexivity].
      unfold z_code. cbn [z_pre z_f z_mid z_rest]. norm.
      apply rws_del. apply del_ok_unprot. apply Prs'. reflexivity.
    - split; [apply mu_lt; cbn [z_rest length]; lia|cbn [z_mid forallb quiet]; exact Q]. }
  destruct rf.
  { split.
    - exists 1%N. split; [|reflexivity].
      unfold z_code. cbn [z_pre z_f z_mid z_rest]. apply rws_one. norm.
      apply rw1_del. apply del_ok_unprot. apply Prf. reflexivity.
    - split; [apply mu_lt; cbn [z_rest length]; lia|reflexivity]. }
  split.
  - exists 0%N. split; [|cbn [z_removed]; lia].
    unfold z_code. cbn [z_pre z_f z_mid z_rest]. norm. apply rws_refl.
  - split; [apply mu_lt; cbn [z_rest length]; lia|reflexivity].
Qed.

Lemma step_spec (z : zst) :
  mid_ok z ->
  good (z_code z) (z_removed z) (step z) /\
  match step z with
  | Done _ _ => True
  | Next z' => mu z' < mu z /\ mid_ok z'
  end.
Proof.
  intros Q. unfold step. destruct (step_jmp_spec z) as [GJ MJ].
  destruct (step_jmp z) as [cj nj|z1]; [split; [exact GJ|exact I]|].
  destruct GJ as [mj [GJ1 GJ2]].
  assert (M1 : mu z1 <= mu z).
  { destruct MJ as [MJ|[MJ _]]; [subst z1; lia|apply Nat.lt_le_incl, mu_lt, MJ]. }
  assert (Q1 : mid_ok z1).
  { destruct MJ as [MJ|[_ MJ]]; [subst z1; exact Q|]. unfold mid_ok. rewrite MJ. reflexivity. }
  pose proof (step_second_spec z1 Q1) as SS.
  destruct (step_second (z_pre z1) (z_f z1) (z_mid z1) (z_rest z1) (z_k z1) (z_removed z1))
    as [cs ns|z2].
  - destruct SS as [-> ->]. split; [|exact I].
    exists mj. split; [exact GJ1|exact GJ2].
  - destruct SS as (SS1 & SS2 & (i2 & ahead & SS3) & Q2 & M2). change (mu z2 <= mu z1) in M2.
    rewrite SS3. destruct (step_pair_spec z2 i2 ahead SS3 Q2) as [GP MP]. split.
    + eapply good_trans; [exact GJ1|]. rewrite <- SS1, <- GJ2, <- SS2. exact GP.
    + destruct (step_pair z2 i2 ahead) as [cp np|z']; [exact I|]. destruct MP as [MP QP].
      split; [lia|exact QP].
Qed.

Lemma run_spec (fuel : nat) :
  forall z : zst, mu z < fuel -> mid_ok z ->
  exists (c : code) (n : N), run fuel z = Some (c, n) /\
    exists m : N, rws m (z_code z) c /\ n = (z_removed z + m)%N.
Proof.
  induction fuel as [|fuel IH]; intros z L Q; [lia|].
  cbn [run]. destruct (step_spec z Q) as [G M].
  destruct (step z) as [c n|z'].
  - exists c, n. split; [reflexivity|exact G].
  - destruct G as [m1 [G1 G2]].
    destruct M as [M Q'].
    destruct (IH z') as [c [n [R [m2 [R1 R2]]]]]; [lia|exact Q'|].
    exists c, n. split; [exact R|]. exists (m1 + m2)%N. split; [eapply rws_trans; eassumption|lia].
Qed.

Lemma optimize_opt_spec (c : code) :
  exists (c' : code) (n : N), optimize_opt c = Some (c', n) /\ rws n c c'.
Proof.
  unfold optimize_opt. destruct (skip_to_ins [] c) as [[[pre i] r]|] eqn:S.
  - apply skip_to_ins_some in S. destruct S as [S1 S2].
    set (z0 := mkZ pre i [] r (analyse_load AlStart k_init i) 0%N).
    destruct (run_spec (optimize_fuel c) z0) as [c' [n [R [m [R1 R2]]]]].
    + pose proof (mu_hi i r) as Mhi. unfold optimize_fuel, mu, z0. cbn [z_f z_rest]. lia.
    + reflexivity.
    + exists c', n. split; [exact R|].
      unfold z0 in R1, R2. unfold z_code in R1. cbn [z_pre z_f z_mid z_rest z_removed rev app] in R1, R2.
      rewrite <- S1 in R1. apply (rws_eq m); [exact R1|lia].
  - exists c, 0%N. split; [reflexivity|apply rws_refl].
Qed.

Lemma optimize_rws (c : code) : rws (snd (optimize c)) c (fst (optimize c)).
Proof.
  unfold optimize. destruct (optimize_opt_spec c) as [c' [n [E R]]]. rewrite E. exact R.
Qed.

Theorem optimize_total : forall c : code, optimize_opt c <> None.
Proof.
  intros c. destruct (optimize_opt_spec c) as [c' [n [E R]]]. rewrite E. discriminate.
Qed.
Print Assumptions optimize_total.

(** what holds of the first zipper and is kept by [step], while the fuel lasts, holds of the result *)
Lemma optimize_walk (I : nat -> zst -> Prop) (D : code -> Prop) (c : code) :
  (forall f z, I (S f) z -> match step z with Done c' _ => D c' | Next z' => I f z' end) ->
  D c ->
  (forall pre i r, skip_to_ins [] c = Some (pre, i, r) ->
     I (optimize_fuel c) (mkZ pre i [] r (analyse_load AlStart k_init i) 0%N)) ->
  D (fst (optimize c)).
Proof.
  intros ST D0 I0. unfold optimize, optimize_opt.
  destruct (skip_to_ins [] c) as [[[pre i] r]|]; [|exact D0]. specialize (I0 pre i r eq_refl).
  revert I0. generalize (mkZ pre i [] r (analyse_load AlStart k_init i) 0%N).
  induction (optimize_fuel c) as [|f IH]; intros z HI; [exact D0|].
  cbn [run]. specialize (ST f z HI). destruct (step z) as [c' n'|z']; [exact ST|exact (IH z' ST)].
Qed.

Lemma rws_invariant (P : code -> code -> Prop) :
  (forall c : code, P c c) ->
  (forall (a b c : code) (m : N), P a b -> rw1 m b c -> P a c) ->
  forall (n : N) (a b : code), rws n a b -> P a b.
Proof.
  intros Hrefl Hstep n a b H. induction H as [c|n m a b c Hab IH Hbc].
  - apply Hrefl.
  - eapply Hstep; eassumption.
Qed.

Lemma optimize_invariant (P : code -> code -> Prop) :
  (forall c : code, P c c) ->
  (forall (a b c : code) (m : N), P a b -> rw1 m b c -> P a c) ->
  forall c : code, P c (fst (optimize c)).
Proof. intros Hrefl Hstep c. exact (rws_invariant P Hrefl Hstep _ _ _ (optimize_rws c)). Qed.

Lemma rw1_length (m : N) (a b : code) : rw1 m a b -> length b = length a.
Proof.
  intros H. destruct H as [l1 i l2 D|l1 i1 mm i2 l2 H1 H2 H3];
  repeat (rewrite app_length; cbn [length]); reflexivity.
Qed.

Theorem optimize_length : forall c : code, length (fst (optimize c)) = length c.
Proof.
  apply (optimize_invariant (fun a b => length b = length a)); [reflexivity|].
  intros a b d m H R. rewrite (rw1_length _ _ _ R). exact H.
Qed.
Print Assumptions optimize_length.

Definition fixR (a b : line) : Prop := is_ins a = false -> b = a.

Lemma fix_refl (c : code) : Forall2 fixR c c.
Proof. induction c as [|x c IH]; constructor; [intros _; reflexivity|exact IH]. Qed.

Lemma fix_trans (a : code) : forall b c : code, Forall2 fixR a b -> Forall2 fixR b c -> Forall2 fixR a c.
Proof.
  induction a as [|x a IH]; intros b c Hab Hbc.
  - inversion Hab; subst. inversion Hbc; subst. constructor.
  - inversion Hab as [|x' y a' b' Hxy Hab']; subst. inversion Hbc as [|y' w b'' c' Hyw Hbc']; subst.
    constructor.
    + intros Hx. pose proof (Hxy Hx) as E. subst y. apply Hyw. exact Hx.
    + eapply IH; eassumption.
Qed.

Lemma rw1_fix (m : N) (a b : code) : rw1 m a b -> Forall2 fixR a b.
Proof.
  intros H. destruct H as [l1 i l2 D|l1 i1 mm i2 l2 H1 H2 H3].
  - apply Forall2_app; [apply fix_refl|]. constructor; [intros Hx; discriminate Hx|apply fix_refl].
  - apply Forall2_app; [apply fix_refl|]. constructor; [intros Hx; discriminate Hx|].
    apply Forall2_app; [apply fix_refl|]. constructor; [intros Hx; discriminate Hx|apply fix_refl].
Qed.

Lemma fix_nth (a : code) : forall (b : code) (k : nat) (l : line),
  Forall2 fixR a b -> nth_error a k = Some l -> is_ins l = false -> nth_error b k = Some l.
Proof.
  induction a as [|x a IH]; intros b k l Hab Hn Hl.
  - destruct k; discriminate Hn.
  - inversion Hab as [|x' y a' b' Hxy Hab']; subst. destruct k as [|k]; cbn [nth_error] in *.
    + inversion Hn; subst. rewrite (Hxy Hl). reflexivity.
    + eapply IH; eassumption.
Qed.

Theorem optimize_noninstr_fixed : forall (c : code) (k : nat) (l : line),
  nth_error c k = Some l -> is_ins l = false -> nth_error (fst (optimize c)) k = Some l.
Proof.
  intros c k l Hn Hl. eapply fix_nth; [|exact Hn|exact Hl].
  apply (optimize_invariant (Forall2 fixR)); [exact fix_refl|].
  intros a b d m H R. exact (fix_trans _ _ _ H (rw1_fix _ _ _ R)).
Qed.
Print Assumptions optimize_noninstr_fixed.

Lemma rw1_subset (m : N) (a b : code) (i : instr) : rw1 m a b -> In (Ins i) b -> In (Ins i) a.
Proof.
  intros H. destruct H as [l1 j l2 D|l1 i1 mm i2 l2 H1 H2 H3]; intros Hin.
  - apply in_app_iff in Hin. apply in_app_iff. destruct Hin as [Hin|Hin]; [left; exact Hin|].
    right. cbn [In] in *. destruct Hin as [Hin|Hin]; [discriminate Hin|right; exact Hin].
  - repeat (rewrite in_app_iff in Hin; cbn [In] in Hin).
    repeat (rewrite in_app_iff; cbn [In]). tauto.
Qed.

Lemma rws_subset (n : N) (a b : code) : rws n a b -> forall i : instr, In (Ins i) b -> In (Ins i) a.
Proof.
  apply (rws_invariant (fun a b => forall i : instr, In (Ins i) b -> In (Ins i) a)).
  - intros c i H. exact H.
  - intros x y z m H R i Hin. apply H. eapply rw1_subset; eassumption.
Qed.

Theorem optimize_instrs_subset : forall (c : code) (i : instr),
  In (Ins i) (fst (optimize c)) -> In (Ins i) c.
Proof. intros c i. apply (rws_subset _ _ _ (optimize_rws c)). Qed.
Print Assumptions optimize_instrs_subset.

(** With [no_protected_carry_ops] as only hypothesis the statement of [optimize_keeps_marked] is
    false: [cmp_rule] tests the protected bit of the branch only, so a protected immediate compare
    is removed together with the branch. *)

Open Scope string_scope.

Definition cx_marked_cmp : code :=
  [ Ins (mkI LDA "#1" 2 None 2 false);
    Ins (mkI CMP "#1" 2 None 2 true);
    Ins (mkI BNE ".l" 2 (Some 3%N) 2 false) ].

(** The LDA / SEC|CLC swap ignores the protected bits, but inline assembly is a barrier: a
    protected LDA is not moved across an [Inl]. *)
Definition cx_marked_swap : code :=
  [ Ins (mkI LDA "x" 3 None 2 true);
    Inl "nop" 1;
    Ins (mkI SEC "" 2 None 1 false) ].

Eval vm_compute in (marked (fst (optimize cx_marked_cmp)), marked cx_marked_cmp).
Eval vm_compute in (marked (fst (optimize cx_marked_swap)), marked cx_marked_swap).

Lemma cx_marked_cmp_hyp : no_protected_carry_ops cx_marked_cmp.
Proof.
  intros i Hin Hf.
  destruct Hin as [E|[E|[E|[]]]]; inversion E; subst; cbn in Hf; try discriminate Hf; reflexivity.
Qed.

Example optimize_keeps_marked_refuted_cmp :
  no_protected_carry_ops cx_marked_cmp /\
  marked (fst (optimize cx_marked_cmp)) = [] /\
  marked cx_marked_cmp = [Ins (mkI CMP "#1" 2 None 2 true)].
Proof. split; [exact cx_marked_cmp_hyp|]. split; vm_compute; reflexivity. Qed.
Print Assumptions optimize_keeps_marked_refuted_cmp.

Example optimize_marked_swap_now_ok :
  no_protected_carry_ops cx_marked_swap /\
  fst (optimize cx_marked_swap) = cx_marked_swap /\
  marked (fst (optimize cx_marked_swap)) = marked cx_marked_swap.
Proof.
  split; [|split; vm_compute; reflexivity].
  intros i Hin Hf.
  destruct Hin as [E|[E|[E|[]]]]; inversion E; subst; cbn in Hf; try discriminate Hf; reflexivity.
Qed.
Print Assumptions optimize_marked_swap_now_ok.

Theorem optimize_keeps_marked_as_given_is_false_cmp :
  ~ (forall c : code, no_protected_carry_ops c -> marked (fst (optimize c)) = marked c).
Proof.
  intros H. specialize (H cx_marked_cmp cx_marked_cmp_hyp). vm_compute in H. discriminate H.
Qed.
Print Assumptions optimize_keeps_marked_as_given_is_false_cmp.

Close Scope string_scope.

(** The extra hypothesis: the optimiser does not honour the protected bit of an immediate
    CMP/CPX/CPY, removed with its branch by [cmp_rule].  (True of everything the generator emits:
    [sasm_protected] is only used for NOP, PHA, PLA.)  The swap does not honour the protected bit
    of the LDA either, but it only crosses comments and Dummies, and the SEC/CLC is unprotected
    by [no_protected_carry_ops]: the marked lines keep their order. *)
Definition no_protected_imm_compare (c : code) : Prop :=
  forall i : instr, In (Ins i) c -> is_compare (i_mn i) && is_imm (i_op i) = true -> i_prot i = false.

Lemma quiet_not_marked (m : list line) : forallb quiet m = true -> filter is_marked m = [].
Proof.
  induction m as [|x m IH]; intros H; [reflexivity|].
  cbn [forallb] in H. apply andb_true_iff in H. destruct H as [Hx Hm].
  destruct x as [l|j|t sz|s|]; cbn [quiet] in Hx; try discriminate Hx;
  cbn [filter is_marked]; apply IH; exact Hm.
Qed.

Lemma rw1_marked (m : N) (a b : code) :
  rw1 m a b -> no_protected_carry_ops a -> no_protected_imm_compare a -> marked b = marked a.
Proof.
  intros H HC HI. destruct H as [l1 i l2 D|l1 i1 mm i2 l2 H1 H2 H3].
  - assert (P : i_prot i = false).
    { unfold del_ok in D. apply orb_true_iff in D. destruct D as [D|D].
      - apply negb_true_iff in D. exact D.
      - apply HI; [apply in_app_iff; right; left; reflexivity|exact D]. }
    unfold marked. rewrite !filter_app. cbn [filter is_marked]. rewrite P. reflexivity.
  - assert (In2 : In (Ins i2) (l1 ++ Ins i1 :: mm ++ Ins i2 :: l2)).
    { apply in_app_iff. right. right. apply in_app_iff. right. left. reflexivity. }
    assert (P2 : i_prot i2 = false) by (apply HC; [exact In2|exact H2]).
    unfold marked. rewrite !filter_app. cbn [filter is_marked]. rewrite !filter_app.
    cbn [filter is_marked]. rewrite P2, (quiet_not_marked mm H3). reflexivity.
Qed.

Lemma rws_marked (n : N) (a b : code) :
  rws n a b -> no_protected_carry_ops a -> no_protected_imm_compare a -> marked b = marked a.
Proof.
  intros H HC HI. induction H as [c|n m a b c Hab IH Hbc]; [reflexivity|].
  rewrite <- (IH HC HI). eapply rw1_marked; [exact Hbc| |].
  - intros i Hin. apply HC. eapply rws_subset; eassumption.
  - intros i Hin. apply HI. eapply rws_subset; eassumption.
Qed.

Theorem optimize_keeps_marked : forall c : code,
  no_protected_carry_ops c -> no_protected_imm_compare c -> marked (fst (optimize c)) = marked c.
Proof. intros c HC HI. exact (rws_marked _ _ _ (optimize_rws c) HC HI). Qed.
Print Assumptions optimize_keeps_marked.

Lemma rw1_labels (m : N) (a b : code) : rw1 m a b -> labels_of b = labels_of a.
Proof.
  intros H. destruct H as [l1 i l2 D|l1 i1 mm i2 l2 H1 H2 H3]; unfold labels_of;
  rewrite !filter_app; cbn [filter is_label]; rewrite ?filter_app; reflexivity.
Qed.

Theorem optimize_keeps_labels : forall c : code, labels_of (fst (optimize c)) = labels_of c.
Proof.
  apply (optimize_invariant (fun a b => labels_of b = labels_of a)); [reflexivity|].
  intros a b d m H R. rewrite (rw1_labels _ _ _ R). exact H.
Qed.
Print Assumptions optimize_keeps_labels.

Lemma size_acc (c : code) : forall a : N,
  fold_left (fun acc l => (acc + line_bytes l)%N) c a = (a + size_bytes c)%N.
Proof.
  unfold size_bytes. induction c as [|x c IH]; intros a; cbn [fold_left]; [lia|].
  rewrite (IH (a + line_bytes x)%N), (IH (0 + line_bytes x)%N). lia.
Qed.

Lemma size_cons (x : line) (c : code) : size_bytes (x :: c) = (line_bytes x + size_bytes c)%N.
Proof. unfold size_bytes at 1. cbn [fold_left]. rewrite size_acc. lia. Qed.

Lemma size_app (a b : code) : size_bytes (a ++ b) = (size_bytes a + size_bytes b)%N.
Proof.
  induction a as [|x a IH]; cbn [app].
  - unfold size_bytes at 2. cbn [fold_left]. lia.
  - rewrite !size_cons, IH. lia.
Qed.

Lemma rw1_size (m : N) (a b : code) : rw1 m a b -> (size_bytes b <= size_bytes a)%N.
Proof.
  intros H. destruct H as [l1 i l2 D|l1 i1 mm i2 l2 H1 H2 H3];
  repeat (rewrite size_app || rewrite size_cons); cbn [line_bytes]; lia.
Qed.

Theorem optimize_size_le : forall c : code, (size_bytes (fst (optimize c)) <= size_bytes c)%N.
Proof.
  apply (optimize_invariant (fun a b => (size_bytes b <= size_bytes a)%N)); [intros a; lia|].
  intros a b d m H R. pose proof (rw1_size _ _ _ R). lia.
Qed.
Print Assumptions optimize_size_le.

Definition count_occ_ins (c : code) : nat := length (filter is_ins c).

Lemma rw1_count (m : N) (a b : code) :
  rw1 m a b -> (N.of_nat (count_occ_ins b) + m = N.of_nat (count_occ_ins a))%N.
Proof.
  intros H. destruct H as [l1 i l2 D|l1 i1 mm i2 l2 H1 H2 H3]; unfold count_occ_ins;
  repeat (rewrite filter_app; cbn [filter is_ins]); repeat (rewrite app_length; cbn [length]); lia.
Qed.

Lemma rws_count (n : N) (a b : code) :
  rws n a b -> (N.of_nat (count_occ_ins b) + n = N.of_nat (count_occ_ins a))%N.
Proof.
  intros H. induction H as [c|n m a b c Hab IH Hbc]; [lia|].
  pose proof (rw1_count _ _ _ Hbc). lia.
Qed.

Theorem optimize_count : forall c : code,
  (N.of_nat (count_occ_ins (fst (optimize c))) + snd (optimize c) = N.of_nat (count_occ_ins c))%N.
Proof. intros c. exact (rws_count _ _ _ (optimize_rws c)). Qed.
Print Assumptions optimize_count.

(** an inline-assembly line stays where it is *)
Theorem optimize_inline_barrier : forall (c : code) (k : nat) (t : string) (s : N),
  nth_error c k = Some (Inl t s) ->
  exists c1 c2 r1 r2 : code,
    c = c1 ++ Inl t s :: c2 /\ length c1 = k /\
    fst (optimize c) = r1 ++ Inl t s :: r2 /\ length r1 = k.
Proof.
  intros c k t s Hn.
  pose proof (optimize_noninstr_fixed c k (Inl t s) Hn eq_refl) as Ho.
  apply nth_error_split in Hn. destruct Hn as [c1 [c2 [E1 L1]]].
  apply nth_error_split in Ho. destruct Ho as [r1 [r2 [E2 L2]]].
  exists c1, c2, r1, r2. repeat split; assumption.
Qed.
Print Assumptions optimize_inline_barrier.
