(** Source-level equivalences of the C-subset semantics (Src/CSem.v) used by property C15:
    commuting the operands of + * & | ^ never changes the result, [x + 1] is an increment,
    [a < b] is [b > a]. *)
From Coq Require Import String List Bool NArith ZArith Lia.
From CC Require Import Src.CSem.
Import ListNotations.
Open Scope Z_scope.

Theorem join_comm : forall a b, join a b = join b a.
Proof. destruct a, b; reflexivity. Qed.
Print Assumptions join_comm.

Theorem join_assoc : forall a b c, join a (join b c) = join (join a b) c.
Proof. destruct a, b, c; reflexivity. Qed.
Print Assumptions join_assoc.

Theorem join_idem : forall a, join a a = a.
Proof. destruct a; reflexivity. Qed.
Print Assumptions join_idem.

Theorem join_lit_r : forall a, join a WLit = a.
Proof. destruct a; reflexivity. Qed.
Print Assumptions join_lit_r.

Theorem join_lit_l : forall a, join WLit a = a.
Proof. destruct a; reflexivity. Qed.
Print Assumptions join_lit_l.

(** commuting the operands of + & | ^ * : same value, same class, same taint; no restriction on
    the classes is needed because [join] is commutative *)
Theorem arith_comm : forall op a b, In op [Add; BAnd; BOr; BXor; Mul] -> arith op a b = arith op b a.
Proof.
  intros op a b Hin. cbn [In] in Hin.
  destruct Hin as [<-|[<-|[<-|[<-|[<-|[]]]]]]; unfold arith;
    rewrite (join_comm (wc a) (wc b)), (orb_comm (taint a) (taint b)); do 2 f_equal.
  - apply Z.add_comm.
  - apply Z.land_comm.
  - apply Z.lor_comm.
  - apply Z.lxor_comm.
  - apply Z.mul_comm.
Qed.
Print Assumptions arith_comm.

Theorem arith_eq_comm : forall op a b, In op [OEq; ONe] -> arith op a b = arith op b a.
Proof.
  intros op a b Hin. cbn [In] in Hin.
  destruct Hin as [H|[H|H]]; try contradiction; subst op; unfold arith, clean, bind;
    destruct (taint a), (taint b); try reflexivity; rewrite (Z.eqb_sym (val a) (val b)); reflexivity.
Qed.
Print Assumptions arith_eq_comm.

(** the other operators do not commute *)
Example arith_sub_not_comm :
  arith Sub (mkVal 1 WLit false) (mkVal 0 WLit false) <> arith Sub (mkVal 0 WLit false) (mkVal 1 WLit false).
Proof. vm_compute. discriminate. Qed.
Print Assumptions arith_sub_not_comm.

Theorem arith_add_one_is_inc : forall a, taint a = false ->
  arith Add a (mkVal 1 WLit false) = Ok (mk (join (wc a) WLit) (val a + 1) false).
Proof.
  intros a Hclean. unfold arith. cbn [val wc taint]. rewrite Hclean. reflexivity.
Qed.
Print Assumptions arith_add_one_is_inc.

(** without the cleanliness hypothesis the taint is propagated *)
Theorem arith_add_one_gen : forall a,
  arith Add a (mkVal 1 WLit false) = Ok (mk (wc a) (val a + 1) (taint a)).
Proof.
  intros a. unfold arith. cbn [val wc taint]. rewrite join_lit_r, orb_false_r. reflexivity.
Qed.
Print Assumptions arith_add_one_gen.

Theorem rel_swap : forall a b, arith OLt a b = arith OGt b a /\ arith OLe a b = arith OGe b a.
Proof.
  intros a b. unfold arith, clean, bind. destruct (taint a), (taint b); split; reflexivity.
Qed.
Print Assumptions rel_swap.

Theorem rel_swap' : forall a b, arith OGt a b = arith OLt b a /\ arith OGe a b = arith OLe b a.
Proof. intros a b. destruct (rel_swap b a) as [H1 H2]. split; symmetry; assumption. Qed.
Print Assumptions rel_swap'.
